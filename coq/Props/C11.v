(* C11: the git colour parser accepts exactly git's syntax and denotes the right style.  Only
   statements, each closed by [exact] of a theorem of Proofs/.
   [git_parse] is the hand model of anstyle_git::parse over the code points of the
   input (None = panic; GOk / GExtraColor w / GUnknownWord w as the crate's
   Result); [classify] (the vocabulary, in any ASCII letter case), [denote],
   [words], [spec_git], [git_print_string], [expressible] are the independent
   specification (Spec/GitSyntax.v); [layout lead wss] is the description made of
   the white space [lead] followed by every word with its separator, [good_seps]:
   separators are white space and only the last may be empty; [is_word]: non-empty
   and free of white space.
   Left open by the statement and excluded by [open_word]: '+' followed by a number
   in 0-255 (accepted by Rust's parse::<u8>), and words holding U+212A KELVIN SIGN
   or U+0130 ([odd_case]: their Unicode lower case holds an ASCII letter; the model
   lower-cases ASCII only, which the correspondence ties for every other char). *)
From Coq Require Import NArith List Bool.
From AV Require Import Spec.StyleRec Spec.GitSyntax Model.Text Model.Git Proofs.GitWords Proofs.Git Proofs.GitPrint Proofs.GitDenote
  Generated.GitFn Proofs.GitGen.
Import ListNotations.
Local Open Scope N_scope.

(* the whole function at once, for every input string: wherever the statement
   decides the answer (accepted style, or the error naming the first offending
   word), the parser gives exactly that answer *)
Theorem c11_git_model_is_spec : forall s : list N,
  match spec_git s with
  | GitOpen => True
  | GitDecided r => git_parse s = Some r
  end.
Proof. exact git_model_is_spec. Qed.

(* every description generated by the grammar -- words of the vocabulary in any
   letter case, at most two colours, any white space around and between the words
   -- is accepted and denotes [denote toks] *)
Theorem c11_git_accepts_grammar : forall (lead : list N) (wss : list (list N * list N)) (toks : list gtoken),
  ws_only lead = true -> Forall is_word (map fst wss) -> good_seps wss ->
  Forall2 (fun w t => classify w = Some t) (map fst wss) toks ->
  (length (colors_of toks) <= 2)%nat ->
  git_parse (layout lead wss) = Some (GOk (denote toks)).
Proof. exact git_accepts_grammar. Qed.

(* any other word is rejected with the error naming it: unknown word ... *)
Theorem c11_git_rejects_rest_unknown : forall lead wss pre toks w post,
  ws_only lead = true -> Forall is_word (map fst wss) -> good_seps wss ->
  map fst wss = pre ++ w :: post ->
  Forall2 (fun w t => classify w = Some t) pre toks ->
  (length (colors_of toks) <= 2)%nat ->
  classify w = None -> open_word w = false ->
  git_parse (layout lead wss) = Some (GUnknownWord w).
Proof. exact git_rejects_unknown. Qed.

(* ... a third colour as the extra colour ... *)
Theorem c11_git_rejects_rest_extra : forall lead wss pre toks w c post,
  ws_only lead = true -> Forall is_word (map fst wss) -> good_seps wss ->
  map fst wss = pre ++ w :: post ->
  Forall2 (fun w t => classify w = Some t) pre toks ->
  length (colors_of toks) = 2%nat ->
  classify w = Some (GColor c) ->
  git_parse (layout lead wss) = Some (GExtraColor w).
Proof. exact git_rejects_extra. Qed.

(* ... and a '#' word with a non-hexadecimal digit or a length other than 3 / 6 is
   an unknown word *)
Theorem c11_git_rejects_rest_hash : forall lead wss pre toks digits post,
  ws_only lead = true -> Forall is_word (map fst wss) -> good_seps wss ->
  map fst wss = pre ++ (HASH :: digits) :: post ->
  Forall2 (fun w t => classify w = Some t) pre toks ->
  (length (colors_of toks) <= 2)%nat ->
  (length digits <> 3%nat /\ length digits <> 6%nat) \/ (exists c, In c digits /\ is_hex c = false) ->
  existsb odd_case digits = false ->
  git_parse (layout lead wss) = Some (GUnknownWord (HASH :: digits)).
Proof. exact git_rejects_hash. Qed.

Theorem c11_git_no_panic : forall s : list N, git_parse s <> None.
Proof. exact git_no_panic. Qed.

Theorem c11_git_roundtrip : forall st : tstyle,
  expressible st = true -> git_parse (git_print_string st) = Some (GOk st).
Proof. exact git_roundtrip. Qed.

(* about the denotation itself: "attributes as a set where a later negation wins" --
   an attribute is in the denoted effect set iff it is mentioned and its last
   mention is not negated; no other effect bit is ever set *)
Theorem c11_git_denote_later_wins : forall (ts : list gtoken) (a : gattr),
  N.testbit (t_eff (denote ts)) (attr_bit a) = match last_mention a ts with Some on => on | None => false end.
Proof. exact denote_later_wins. Qed.

Theorem c11_git_denote_only_attrs : forall (ts : list gtoken) (i : N),
  (forall a, attr_bit a <> i) -> N.testbit (t_eff (denote ts)) i = false.
Proof. exact denote_only_attrs. Qed.

(* Generated/GitFn.v is written on every run by tools/gen_fn_text.py (tools/rs2v) from the Rust
   sources of anstyle_git::parse and parse_color -- the `for` loop over split_whitespace, the
   lower-cased keyword arms, the colour-slot counter, both error returns, `style |= effects`; the
   name arms, the '#' branch with its length / hex-digit tests, slices and from_str_radix, the
   number fall-back -- and computes, on every input, exactly what the hand model (the subject of
   every theorem above) computes; None = panic included.  [git_color_res]: Err(()) as None;
   [git_result_of]: the crate's Result with the word of an error. *)
Theorem c11_translated_parse_color_is_model : forall w : list N,
  option_map git_color_res (g_git_parse_color w) = parse_color w.
Proof. exact g_git_parse_color_eq. Qed.

Theorem c11_translated_parse_is_model : forall s : list N,
  option_map git_result_of (g_git_parse s) = git_parse s.
Proof. exact g_git_parse_eq. Qed.

(* the other field of Error::{ExtraColor, UnknownWord} is the input itself *)
Theorem c11_translated_parse_error_style : forall (s : list N) (r : result tstyle git_error),
  g_git_parse s = Some r -> match git_error_style r with Some s' => s' = s | None => True end.
Proof. exact g_git_parse_error_style. Qed.

(* impl std::fmt::Display for Error, translated (the Formatter = the text written so far, `write!` with inline
   captures = one append per piece): the message is appended, the result is Ok(()), no panic *)
Theorem c11_translated_error_display : forall (e : git_error) (f : list N),
  g_git_error_fmt e f = Some (f ++ git_error_message e, Ok tt).
Proof. exact g_git_error_fmt_eq. Qed.

Theorem c11_translated_error_to_string : forall e : git_error,
  option_map fst (g_git_error_fmt e []) = Some (git_error_to_string e).
Proof. exact g_git_error_to_string. Qed.
