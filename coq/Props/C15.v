(* Property theorems for C15 (roff rendering preserves text, colours and
   font per segment).  Only statements, each closed by [exact].

   [rf_to_roff] is the hand model of anstyle_roff::to_roff(text).to_roff() over the UTF-8
   bytes of the input (None = panic): cansi 2.2.1's segmentation and SGR reading
   (third party, transcribed), styled_str.rs over the translated tables, lib.rs, and roff
   0.2.1's renderer (third party, transcribed; both are also translated and proved equal
   to the transcription: see the end of this file); [rf_color_requests] is add_color_to_roff
   alone, rendered.  Everything else is the independent specification Spec/RoffSpec.v:
   the domain D ([rf_seg], [rf_D], [rf_print_D]: segments each introduced by
   ESC [ 0 ; <effect codes> ; <fg> ; <bg> m, colours 0..15 or unset, text without ESC),
   the expected document [rf_spec_doc], the reader of roff documents ([rf_lines],
   [rf_is_request_line], [rf_unescape_roff] inside [rf_doc_text]) and the general
   expectation [rf_general_doc] (styles accumulate, 256-colour / RGB forms select a colour). *)
From Coq Require Import NArith List Bool.
From AV Require Model.Text.
From AV Require Import Spec.Lossy Spec.StyleRec Spec.RoffSpec Model.Base Model.Roff Proofs.Roff Generated.RoffFn Proofs.RoffGen.
From AV Require Import Generated.RoffCrateFn Proofs.RoffCrateGen.
From AV Require Import Generated.CansiFn Proofs.CansiSgr Proofs.CansiGen Proofs.RoffDepsGen.
Import ListNotations.
Local Open Scope N_scope.

(* For every list of segments of D -- any number of segments, any effect codes in any order,
   any of the 17 x 17 colour pairs, any segment text without ESC (several lines, leading
   '.' and ''', '\', '-' included) -- outside the recorded class of F15-3, the document is
   exactly: per segment with visible text, ".gcolor <fg>", ".fcolor <bg>" ("default" when
   unset, a bright colour by the name of its base colour), then the escaped text set in
   \fB..\fR when the segment is bold or its foreground is bright, else in \fI..\fR when it is
   italic, else in roman.
   The statement WITHOUT the hypothesis [rf_bold_and_faint s = false] is false: see
   c15_bold_faint_refuted (finding F15-3); with the font cansi arrives at in place of the
   font of the statement it holds for all of D (Proofs/Roff.v, rf_to_roff_D). *)
Theorem c15_document_shape : forall segs : list rf_seg,
  rf_D segs ->
  Forall (fun s => rf_bold_and_faint s = false) segs ->
  rf_to_roff (rf_print_D segs) = Some (rf_spec_doc segs).
Proof. exact rf_document_shape. Qed.

(* For ALL of D (the class of F15-3 included): what a roff processor typesets -- the lines
   that are not requests, with \\ \- \& \fX unescaped -- is the segment texts in order, one
   per text line. *)
Theorem c15_text_survives : forall segs : list rf_seg,
  rf_D segs ->
  exists doc, rf_to_roff (rf_print_D segs) = Some doc /\ rf_doc_text doc = rf_visible_text segs.
Proof. exact rf_text_survives. Qed.

(* For EVERY input (any byte string, in D or not): a line of the document that begins with
   '.' or ''' is one of the eighteen requests ".gcolor <name>" / ".fcolor <name>" (name =
   default or one of the eight roff colours).  Text can never start a request. *)
Theorem c15_no_injected_request : forall (input doc : list N),
  rf_to_roff input = Some doc ->
  forall l, In l (rf_lines doc) -> rf_is_request_line l = true -> In l rf_allowed_requests.
Proof. exact rf_no_injected_request. Qed.

(* no panic, for every input *)
Theorem c15_total : forall input : list N, exists doc, rf_to_roff input = Some doc.
Proof. exact rf_to_roff_total. Qed.

(* F15-1: "ESC[1m ESC[31m hi".  Styles accumulate over SGR sequences (bold, then red: the
   text is bold red); the model -- like the crate -- renders "hi" in roman: the bold is lost. *)
Theorem c15_accumulation_refuted :
  exists input, input = rf_witness_accumulation /\
    rf_to_roff input = Some rf_doc_accumulation_model /\
    rf_general_doc input = Some rf_doc_accumulation_expected /\
    rf_doc_accumulation_model <> rf_doc_accumulation_expected.
Proof. exact rf_accumulation_refuted. Qed.

(* F15-2: "ESC[38;5;196m X".  Colour 196 is #ff0000 and wants a colour definition; the model
   -- like the crate -- renders X in the default colour. *)
Theorem c15_extended_colours_refuted :
  exists input, input = rf_witness_extended /\
    rf_to_roff input = Some rf_doc_extended_model /\
    rf_general_doc input = Some rf_doc_extended_expected /\
    rf_doc_extended_model <> rf_doc_extended_expected.
Proof. exact rf_extended_colours_refuted. Qed.

(* F15-3: "ESC[0;1;2m X", a member of D (bold and faint in one sequence): the segment is bold,
   the model -- like the crate -- renders X in roman (cansi keeps one intensity, the last). *)
Theorem c15_bold_faint_refuted :
  exists segs, segs = rf_witness_bold_faint /\ rf_D segs /\
    rf_print_D segs = [27; 91; 48; 59; 49; 59; 50; 109; 88] /\
    rf_to_roff (rf_print_D segs) = Some rf_doc_extended_model /\
    rf_to_roff (rf_print_D segs) <> Some (rf_spec_doc segs).
Proof. exact rf_bold_faint_refuted. Qed.

(* The Rgb / Ansi256 arms of add_color_to_roff (not reachable through to_roff, because cansi
   never yields such a colour) are correct: an RGB colour goes through
   ".defcolor hex_#rrggbb rgb #rrggbb" and is selected by that name; an indexed colour below 16
   is named, any other goes through its xterm RGB value. *)
Theorem c15_rgb_branch_correct : forall (req : list N) (c : color),
  match c with
  | Rgb (r, g, b) => r < 256 /\ g < 256 /\ b < 256
  | Ansi256 i => i < 256
  | Ansi a => a < 16
  end ->
  rf_color_requests req (Some c) = Some (rf_gen_color_requests req (Some (rf_tcolor_of c))).
Proof. exact rf_rgb_branch_correct. Qed.

(* the translated code (tools/gen_fn_roff.py -> Generated/RoffFn.v)
   [g_to_roff], [g_add_color_to_roff], [g_styled_stream] .. are the Rust functions of
   crates/anstyle-roff/src/{lib.rs,styled_str.rs} translated by tools/rs2v on every run; cansi and roff
   (third party) stay the hand model ([rf_categorise], [rf_render], the document = the lines pushed). *)

(* anstyle_roff::to_roff as translated, followed by roff's renderer, IS the hand model [rf_to_roff] the
   theorems above are about -- for every input, panics (None) included *)
Theorem c15_translated_to_roff_is_model : forall input : list N,
  (ls <- g_to_roff input ;; Some (rf_render ls)) = rf_to_roff input.
Proof. exact translated_to_roff_is_model. Qed.

(* the lines the translated to_roff pushes are the hand model's, slice by slice *)
Theorem c15_translated_doc_lines_is_model : forall input : list N,
  g_to_roff input = rf_doc_lines (rf_categorise input).
Proof. exact g_to_roff_eq. Qed.

(* add_color_to_roff as translated (all four arms, the Ansi256 arm calling itself once), on well-typed
   colours, rendered: the [rf_color_requests] of c15_rgb_branch_correct *)
Theorem c15_translated_color_requests_is_model : forall (req : list N) (c : option color),
  match c with Some c => color_ok c | None => True end ->
  (ls <- g_add_color_to_roff [] req c ;; Some (rf_render ls)) = rf_color_requests req c.
Proof. exact translated_color_requests_is_model. Qed.

(* styled_str.rs as translated: the slices of cansi, each converted by From<CategorisedSlice> *)
Theorem c15_translated_styled_stream_is_model : forall text : list N,
  g_styled_stream text = Some (map (fun c => mkRfStyled (snd c) (rf_style_of (fst c))) (rf_categorise text)).
Proof. exact translated_styled_stream_is_model. Qed.

(* hence the translated code has the document shape of the specification on D *)
Theorem c15_translated_document_shape : forall segs : list rf_seg,
  rf_D segs ->
  Forall (fun s => rf_bold_and_faint s = false) segs ->
  (ls <- g_to_roff (rf_print_D segs) ;; Some (rf_render ls)) = Some (rf_spec_doc segs).
Proof. exact translated_document_shape. Qed.

(* the third-party crate roff, translated (tools/gen_fn_roffcrate.py -> Generated/RoffCrateFn.v)
   [g_rc_*] are the functions of roff 0.2.1's src/lib.rs (the cargo registry copy of the version Cargo.lock
   pins) translated by tools/rs2v on every run: a &str / String is its UTF-8 bytes, `out: &mut dyn Write` the
   bytes written so far, `Result<(), io::Error>` = unit + unit, a Roff the list of its lines. *)

(* anstyle_roff::to_roff(text).to_roff() with BOTH halves translated (anstyle-roff's lib.rs and roff's renderer) IS
   the hand model [rf_to_roff] the theorems above are about -- for every input, panics (None) included *)
Theorem c15_translated_roffcrate_to_roff_is_model : forall input : list N,
  (ls <- g_to_roff input ;; g_rc_to_roff ls) = rf_to_roff input.
Proof. exact translated_roffcrate_to_roff_is_model. Qed.

(* Roff::to_roff as translated is the hand model's renderer, and never panics *)
Theorem c15_translated_roffcrate_render_is_model : forall ls : list rf_line,
  g_rc_to_roff ls = Some (rf_render ls).
Proof. exact g_rc_to_roff_eq. Qed.

(* Line::render as translated, with Apostrophes::DontHandle (what to_roff passes): the line is appended to the
   bytes written so far and the result is Ok(()) *)
Theorem c15_translated_roffcrate_line_render_is_model : forall (l : rf_line) (out : list N),
  g_rc_line_render l out RfDontHandle = Some (out ++ rf_render_line l, inl tt).
Proof. exact g_rc_line_render_eq. Qed.

Theorem c15_translated_roffcrate_escape_inline_is_model : forall s : list N,
  g_rc_escape_inline s = rf_escape_inline s.
Proof. exact g_rc_escape_inline_eq. Qed.

Theorem c15_translated_roffcrate_escape_leading_cc_is_model : forall s : list N,
  g_rc_escape_leading_cc s = rf_escape_leading_cc s.
Proof. exact g_rc_escape_leading_cc_eq. Qed.

Theorem c15_translated_roffcrate_starts_with_cc_is_model : forall s : list N,
  g_rc_starts_with_cc s = rf_starts_with_cc s.
Proof. exact g_rc_starts_with_cc_eq. Qed.

Theorem c15_translated_roffcrate_escape_spaces_is_model : forall w : list N,
  g_rc_escape_spaces w = rf_escape_spaces w.
Proof. exact g_rc_escape_spaces_eq. Qed.

(* the document builders: Roff::new, Roff::control, Roff::text (both return `&mut Self`: the updated document is
   the new value of self and the value of the call), Line::control / Line::text, roman / bold / italic / line_break *)
Theorem c15_translated_roffcrate_new_is_model : g_rc_new = rf_roff_new.
Proof. exact g_rc_new_eq. Qed.

Theorem c15_translated_roffcrate_control_is_model : forall (d : list rf_line) (name : list N) (args : list (list N)),
  g_rc_control d name args = (rf_roff_control d name args, rf_roff_control d name args).
Proof. exact g_rc_control_eq. Qed.

Theorem c15_translated_roffcrate_text_is_model : forall (d : list rf_line) (inlines : list rf_inline),
  g_rc_text d inlines = (rf_roff_text d inlines, rf_roff_text d inlines).
Proof. exact g_rc_text_eq. Qed.

Theorem c15_translated_roffcrate_line_control_is_model : forall (name : list N) (args : list (list N)),
  g_rc_line_control name args = RfControl name args.
Proof. exact g_rc_line_control_eq. Qed.

Theorem c15_translated_roffcrate_line_text_is_model : forall parts : list rf_inline,
  g_rc_line_text parts = RfText parts.
Proof. exact g_rc_line_text_eq. Qed.

Theorem c15_translated_roffcrate_roman_is_model : forall t : list N, g_rc_roman t = RfInRoman t.
Proof. exact g_rc_roman_eq. Qed.

Theorem c15_translated_roffcrate_bold_is_model : forall t : list N, g_rc_bold t = RfInBold t.
Proof. exact g_rc_bold_eq. Qed.

Theorem c15_translated_roffcrate_italic_is_model : forall t : list N, g_rc_italic t = RfInItalic t.
Proof. exact g_rc_italic_eq. Qed.

Theorem c15_translated_roffcrate_line_break_is_model : g_rc_line_break = RfInLineBreak.
Proof. exact g_rc_line_break_eq. Qed.

(* the part of the crate anstyle-roff does not use: Roff::render / Roff::to_writer (apostrophe handling).  Every
   line is rendered with Apostrophes::Handle ([rc_render_line RfHandle]: as [rf_render_line], but every apostrophe
   of an inline text becomes \*(Aq), after the preamble that defines that string *)
Theorem c15_translated_roffcrate_render_handle : forall d : list rf_line,
  g_rc_render d = Some (g_rc_APOSTROPHE_PREABMLE ++ rc_render_doc RfHandle d).
Proof. exact g_rc_render_eq. Qed.

Theorem c15_translated_roffcrate_to_writer_handle : forall (d : list rf_line) (w : list N),
  g_rc_to_writer d w = Some (w ++ g_rc_APOSTROPHE_PREABMLE ++ rc_render_doc RfHandle d, inl tt).
Proof. exact g_rc_to_writer_eq. Qed.

Theorem c15_translated_roffcrate_dont_handle_is_model : forall l : rf_line,
  rc_render_line RfDontHandle l = rf_render_line l.
Proof. exact rc_render_line_dont. Qed.
(* the translated dependency cansi (tools/gen_fn_cansi.py -> Generated/CansiFn.v)
   [g_cansi_parse], [g_cansi_adjust_sgr], [g_cansi_handle_seq], [g_cansi_categorise_text] are the functions of the
   third-party crate cansi (src/parsing.rs, src/categorise.rs of the registry copy of the version Cargo.lock pins)
   translated by tools/rs2v on every run; [rf_categorise] / [rf_adjust_sgr] / [rf_handle_seq] is the hand model the
   theorems above are about. *)

(* adjust_sgr, all 48 arms and the wildcard (incl. the recorded quirks: "0" answers SGR::default() -- with
   handle_seq's fold from the default that is F15-1; no arm for 38 / 48 -- F15-2; ONE intensity field written by
   1, 2 and 22 -- F15-3) *)
Theorem c15_translated_cansi_adjust_sgr_is_model : forall (sgr : rf_sgr) (seq : list N),
  g_cansi_adjust_sgr sgr seq = rf_adjust_sgr sgr seq.
Proof. exact g_cansi_adjust_sgr_eq. Qed.

(* handle_seq on a Match as parse records it (ESC [ parameters terminator): split at ';', folded from SGR::default() *)
Theorem c15_translated_cansi_handle_seq_is_model : forall (a e : N) (p : list N) (tb : N),
  g_cansi_handle_seq (mkRfMatch a e (27 :: 91 :: p ++ [tb])) = Some (rf_handle_seq p).
Proof. exact g_cansi_handle_seq_eq. Qed.

(* parse (both loops, byte offsets, the char-wise step) never panics and finds exactly the matches [rf_matches]
   (Proofs/CansiGen.v: a structural function of the text that is left) -- for EVERY byte string *)
Theorem c15_translated_cansi_parse_is_matches : forall text : list N,
  g_cansi_parse text = Some (rf_matches (S (S (length text))) 0 text).
Proof. exact g_cansi_parse_eq. Qed.

(* cansi::v3::categorise_text IS the hand model's one-pass categoriser on every string of UTF-8 shaped chars ... *)
Theorem c15_translated_cansi_categorise_is_model : forall text : list N,
  rf_utf8_ok text -> g_cansi_categorise_text text = Some (rf_categorise text).
Proof. exact g_cansi_categorise_text_eq. Qed.

(* ... which the bytes of every Rust string are (the UTF-8 encoding of any list of code points, Model/Text.v) *)
Theorem c15_translated_cansi_categorise_on_strings : forall w : list N,
  g_cansi_categorise_text (Model.Text.str_bytes w) = Some (rf_categorise (Model.Text.str_bytes w)).
Proof. exact translated_cansi_categorise_is_model. Qed.

(* the pipeline with the translated cansi in front is the hand model [rf_to_roff] of the theorems above *)
Theorem c15_translated_cansi_to_roff_is_model : forall input : list N, rf_utf8_ok input ->
  (cs <- g_cansi_categorise_text input ;; ls <- rf_doc_lines cs ;; Some (rf_render ls)) = rf_to_roff input.
Proof. exact translated_cansi_to_roff_is_model. Qed.

(* BOTH third-party dependencies translated: cansi in front of, roff's renderer behind the lines of anstyle-roff *)
Theorem c15_translated_dependencies_to_roff_is_model : forall input : list N, rf_utf8_ok input ->
  (cs <- g_cansi_categorise_text input ;; ls <- rf_doc_lines cs ;; g_rc_to_roff ls) = rf_to_roff input.
Proof. exact translated_dependencies_to_roff_is_model. Qed.

Theorem c15_translated_pipeline_is_model : forall input : list N, rf_utf8_ok input ->
  g_cansi_categorise_text input = Some (rf_categorise input) /\
  (ls <- g_to_roff input ;; g_rc_to_roff ls) = rf_to_roff input.
Proof. exact translated_pipeline_is_model. Qed.
