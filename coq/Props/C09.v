(* Property theorems for C09 (colour auto-detection follows the
   documented precedence for every environment).  Only statements, each closed by
   [exact].

   [choice_model global e tty] is the hand model of anstream::auto::choice with
   ColorChoice::global() = [global], std::env::var_os = [e] and
   raw.is_terminal() = [tty]; the [ch_*] probes are the hand models of
   anstyle_query (non-Windows blocks), with variable names and literals translated
   from the sources (Generated/Choice.v).  [choice_spec], the variable names
   NO_COLOR .. CI, [flag_word], [choice_word], [flag_choice_spec] are the
   independent specification (Spec/Choice.v).  An environment [e] is ANY function
   from names to optional byte strings: nothing is bounded or sampled. *)
From Coq Require Import NArith List Bool String.
From AV Require Import Spec.Choice Generated.Choice Model.Base Model.Choice Proofs.Choice Generated.ChoiceFn Proofs.ChoiceGen.
(* for c09_translated_print_follows_choice; through it C09 depends on the translations of the stream area
   (gen_deps: StreamFn, FmtFn, AutoFn, GlueFn, MacrosFn) *)
From AV Require Import Spec.Io Model.Stream Model.Glue Generated.MacrosFn Proofs.MacrosGen Proofs.MacrosChoice.
Import ListNotations.
Local Open Scope N_scope.

(* the byte strings the specification is written with spell the published names:
   NO_COLOR = "NO_COLOR", V_dumb = "dumb", W_always = "always", ... *)
Theorem c09_spelling : spelling.
Proof. exact spelling_holds. Qed.

(* the decision function is the decision list of the statement *)
Theorem c09_choice_is_spec : forall global e tty,
  choice_model global e tty = choice_spec global e tty.
Proof. exact choice_is_spec. Qed.

(* the decision is never "Auto" (AutoStream::auto's debug assertion) *)
Theorem c09_choice_never_auto : forall global e tty, choice_model global e tty <> ChAuto.
Proof. exact choice_never_auto. Qed.

(* NO_COLOR (no-color.org): present and not the empty string, whatever the value *)
Theorem c09_probe_no_color : forall e,
  ch_no_color e = true <-> exists v, e NO_COLOR = Some v /\ v <> [].
Proof. exact probe_no_color. Qed.

(* CLICOLOR_FORCE: likewise *)
Theorem c09_probe_clicolor_force : forall e,
  ch_clicolor_force e = true <-> exists v, e CLICOLOR_FORCE = Some v /\ v <> [].
Proof. exact probe_clicolor_force. Qed.

(* CLICOLOR: no answer when unset, otherwise Some (value <> "0") *)
Theorem c09_probe_clicolor : forall e,
  (ch_clicolor e = None <-> e CLICOLOR = None) /\
  (forall b, ch_clicolor e = Some b <-> exists v, e CLICOLOR = Some v /\ (b = true <-> v <> V_0)).
Proof. exact probe_clicolor. Qed.

(* TERM: set and different from "dumb" (both TERM probes on this platform) *)
Theorem c09_probe_term : forall e,
  ch_term_supports_color e = true <-> exists v, e TERM = Some v /\ v <> V_dumb.
Proof. exact probe_term. Qed.

Theorem c09_probe_term_ansi : forall e,
  ch_term_supports_ansi_color e = true <-> exists v, e TERM = Some v /\ v <> V_dumb.
Proof. exact probe_term_ansi. Qed.

(* COLORTERM: exactly "truecolor" or "24bit" *)
Theorem c09_probe_truecolor : forall e,
  ch_truecolor e = true <-> e COLORTERM = Some (V_truecolor) \/ e COLORTERM = Some (V_24bit).
Proof. exact probe_truecolor. Qed.

(* CI: set, whatever the value (even empty) *)
Theorem c09_probe_is_ci : forall e, ch_is_ci e = true <-> exists v, e CI = Some v.
Proof. exact probe_is_ci. Qed.

(* the command-line flag maps one-to-one onto the global choice, name for name *)
Theorem c09_flag_injective :
  (forall f g, ch_as_choice f = ch_as_choice g -> f = g) /\
  (forall f, choice_word (ch_as_choice f) = flag_word f).
Proof. exact flag_injective_named. Qed.

Theorem c09_flag_is_spec : forall f, ch_as_choice f = flag_choice_spec f.
Proof. exact flag_is_spec. Qed.

(* `--color <w>` selects choice c iff w is c's name and c is one of the three flag values *)
Theorem c09_flag_word_choice : forall w c,
  ch_flag_choice w = Some c <-> choice_word c = w /\ c <> ChAlwaysAnsi.
Proof. exact flag_word_choice. Qed.

(* the global choice survives its trip through the atomic usize *)
Theorem c09_atomic_roundtrip : forall c, ch_to_choice (ch_from_choice c) = Some c.
Proof. exact atomic_roundtrip. Qed.

(* stream types whose is_terminal is the constant `false` (Vec<u8>, dyn Write, ...)
   get the decision of a non-terminal *)
Theorem c09_const_false_streams : forall ty fd_tty global e,
  In ty ch_streams_const_false -> ch_choice_on ty fd_tty global e = Some (choice_spec global e false).
Proof. exact const_false_streams_choice. Qed.

(* Generated/ChoiceFn.v is written by tools/gen_fn_choice.py (tools/rs2v) from the Rust
   sources of anstyle_query::{clicolor, clicolor_force, no_color, term_supports_color,
   term_supports_ansi_color, truecolor, is_ci, non_empty} (non-Windows configuration),
   colorchoice::{AtomicChoice::{from_choice, to_choice, new, get, set}, ColorChoice::{global,
   write_global}}, colorchoice_clap::Color::{as_choice, write_global}, anstream::auto::choice and AutoStream::choice.
   [e] is std::env::var_os, [user] the value of `static USER` (an AtomicUsize = a register),
   [raw] the answer of raw.is_terminal(); None = a Rust panic (the `expect` of AtomicChoice::get). *)

(* the translated probes compute what the hand models -- the subjects of c09_probe_* -- compute *)
Theorem c09_translated_probes_are_model : forall e,
  g_clicolor e = Some (ch_clicolor e) /\ g_clicolor_force e = ch_clicolor_force e /\ g_no_color e = ch_no_color e /\
  g_term_supports_color e = Some (ch_term_supports_color e) /\
  g_term_supports_ansi_color e = Some (ch_term_supports_ansi_color e) /\
  g_truecolor e = ch_truecolor e /\ g_is_ci e = ch_is_ci e.
Proof. exact translated_probes_are_model. Qed.

(* the translated if/else chain of anstream::auto::choice is [choice_model] of the global the static holds *)
Theorem c09_translated_choice_is_model : forall e user raw,
  g_choice e user raw =
  match ch_to_choice user with Some g => Some (choice_model g e raw) | None => None end.
Proof. exact translated_choice_is_model. Qed.

Theorem c09_translated_autostream_choice_is_model : forall e user raw,
  g_autostream_choice e user raw =
  match ch_to_choice user with Some g => Some (choice_model g e raw) | None => None end.
Proof. exact translated_autostream_choice_is_model. Qed.

(* the translated arms of from_choice / to_choice / as_choice are the generated tables *)
Theorem c09_translated_from_choice : forall c, g_from_choice c = Some (ch_from_choice c).
Proof. exact g_from_choice_eq. Qed.

Theorem c09_translated_to_choice : forall n, g_to_choice n = Some (ch_to_choice n).
Proof. exact g_to_choice_eq. Qed.

Theorem c09_translated_as_choice : forall f, g_as_choice f = Some (ch_as_choice f).
Proof. exact g_as_choice_eq. Qed.

(* `c.write_global(); AutoStream::choice(&raw)`, translated code only: whatever the static held before, the
   decision is the decision list of the property, for every environment; it never panics *)
Theorem c09_translated_write_then_choice_is_spec : forall c e user raw,
  (u <- g_write_global c user ;; g_autostream_choice e u raw) = Some (choice_spec c e raw).
Proof. exact translated_write_then_choice_is_spec. Qed.

(* `Color { color: f }.write_global(); ColorChoice::global()`, translated code only *)
Theorem c09_translated_flag_then_global : forall f user,
  (u <- g_color_write_global f user ;; g_global u) = Some (flag_choice_spec f).
Proof. exact translated_flag_then_global_is_spec. Qed.

(* before any write_global: `static USER = AtomicChoice::new()` read back by ColorChoice::global() *)
Theorem c09_translated_initial_global : (u <- g_user_initial ;; g_global u) = Some ch_global_initial.
Proof. exact translated_initial_global. Qed.

(* impl Default for ColorChoice: `Auto` *)
Theorem c09_translated_default_choice : g_choice_default = ch_choice_default.
Proof. exact g_choice_default_eq. Qed.

(* impl Default for AtomicChoice: the value of AtomicChoice::new(), never panics *)
Theorem c09_translated_default_atomic : g_atomic_default = Some ch_atomic_default.
Proof. exact g_atomic_default_eq. Qed.

(* the default atomic is the initial value of `static USER`; read back (AtomicChoice::get, ColorChoice::global on
   the never-written static) it holds the default choice *)
Theorem c09_translated_defaults_agree :
  g_atomic_default = g_user_initial /\
  (a <- g_atomic_default ;; g_atomic_get a) = Some g_choice_default /\
  (u <- g_user_initial ;; g_global u) = Some g_choice_default.
Proof. exact translated_default_atomic_holds_default_choice. Qed.

(* the print macros (crates/anstream/src/_macros.rs, translated arm by arm: Generated/MacrosFn.v; [mac_arm err nl] = print!,
   println!, eprint!, eprintln!) meet the decision: when the answers of the std handle the macro names ([cf_of_choice]: its
   `choice(&raw)` = the hand model of this property for ITS OWN terminal-ness -- tty_out for print! / println!, tty_err for
   eprint! / eprintln! --, i.e. the translated g_choice by c09_translated_choice_is_model), then outside tests the macro
   strips exactly when the decision list says Never, forwards unchanged otherwise, and the stream it writes to is that same
   handle (the other handle's terminal-ness plays no role) *)
Theorem c09_translated_print_follows_choice :
  forall lossy fmt_nl (err nl : bool) cfv ch g e (tty_out tty_err wv : bool) (so se : writer) world args,
  let tty := if err then tty_err else tty_out in
  let d := choice_model g e tty in
  d = choice_spec g e tty /\ d <> ChAuto /\
  mac_arm lossy fmt_nl err nl false false cfv ch (cf_of_choice g e tty wv) so se world args =
  match auto_op wv (match d with ChNever => MStrip | _ => MPass end) sb_new (if err then se else so)
                (OWriteFmt (if nl then fmt_nl args else args)) with
  | Some (s1, w1, r) =>
      Some (world ++ MWriteFmt (as_of (match d with ChNever => MStrip | _ => MPass end) s1 w1)
                               (match r with RErr e => inr e | _ => inl tt end)
                     :: match r with RErr e => [MPanicIo (if err then mac_msg_stderr else mac_msg_stdout) e] | _ => [] end)
  | None => None
  end.
Proof. exact translated_print_follows_choice. Qed.

(* The third-party crates is_terminal_polyfill 1.48.1 and is-terminal 0.4.13, translated from the cargo registry
   (tools/gen_fn_htmlescape.py, generator IsTerminalFn; Proofs/IsTerminalGen.v).  [pf_os] is the operating system as far
   as is_terminal consults it (the descriptor a handle holds, libc::isatty of a descriptor), [pf_tty os w] = "isatty of
   w's OWN descriptor answered non-zero". *)
From AV Require Import Generated.StreamFn Generated.AutoFn Generated.GlueFn Generated.IsTerminalFn Proofs.IsTerminalGen.

(* every impl of the polyfill (File, Stdin, StdinLock, Stdout, StdoutLock, Stderr, StderrLock) asks the operating system
   about the handle it is called on: the impl for Stdout asks stdout, the impl for Stderr asks stderr, ... *)
Theorem c09_translated_polyfill_asks_self : forall f, In f g_pf_impls -> forall os w, f os w = pf_tty os w.
Proof. exact translated_polyfill_asks_self. Qed.

(* ... which is what `raw.is_terminal()` means in the stream area (tools/gen_fn_glue.py reads
   `is_terminal_polyfill::IsTerminal::is_terminal(x)` as [raw_is_terminal cf x]) whenever [cf] describes that stream *)
Theorem c09_translated_polyfill_is_raw_is_terminal :
  forall f, In f g_pf_impls -> forall os cf w, pf_os_agrees os cf w -> f os w = raw_is_terminal cf w.
Proof. exact translated_polyfill_is_raw_is_terminal. Qed.

(* anstream's five descriptor-backed `impl IsTerminal` (Generated/GlueFn.v) answer what the polyfill's impl for the SAME
   std type answers *)
Theorem c09_translated_polyfill_meets_glue : forall os cf w,
  pf_os_agrees os cf w ->
  g_is_terminal_stdout cf w = g_pf_is_terminal_stdout os w /\
  g_is_terminal_stdoutlock cf w = g_pf_is_terminal_stdoutlock os w /\
  g_is_terminal_stderr cf w = g_pf_is_terminal_stderr os w /\
  g_is_terminal_stderrlock cf w = g_pf_is_terminal_stderrlock os w /\
  g_is_terminal_file cf w = g_pf_is_terminal_file os w.
Proof. exact translated_glue_asks_polyfill. Qed.

(* the translated decision fed with the polyfill's answer for a handle is the decision list at isatty of THAT handle *)
Theorem c09_translated_polyfill_choice : forall f, In f g_pf_impls -> forall e user os w,
  g_choice e user (f os w) =
  match ch_to_choice user with Some g => Some (choice_model g e (pf_tty os w)) | None => None end.
Proof. exact translated_polyfill_choice. Qed.
