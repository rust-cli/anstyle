(* C08: the modes of anstream's AutoStream: Never strips, AlwaysAnsi / Always forward unchanged.

   Vocabulary (Proofs/StreamAuto.v): ss_run = StripStream driven directly (the
   fold of ss_op); pass_run = the inner writer driven directly (the fold of
   pass_op); pass_data b o = the bytes operation o hands over (write_vectored:
   every buffer when the inner writer has real vectored writes, b = true, else
   the first non-empty one); pass_res = the answer when nothing fails;
   strip_data / strip_res = the same for the strip arm.  In the model the inner
   writer is threaded through run_ops, so "taking the inner writer back" is the
   writer component of the result. *)
From Coq Require Import NArith List Bool.
From AV Require Import Generated.Table Spec.Io Spec.Strip Model.Base Model.Utf8parse Model.Parser Model.Strip
  Model.Stream Proofs.TableFacts Proofs.StripMachine Proofs.StripSim Proofs.StreamIo Proofs.Stream
  Proofs.StreamAuto Generated.StreamFn Proofs.StreamGen Generated.AutoFn Proofs.AutoGen
  Model.Glue Generated.GlueFn Proofs.GlueGen Generated.MacrosFn Proofs.MacrosGen.
Import ListNotations.
Local Open Scope N_scope.

(* Never: any operation sequence, any script: same results, same inner writer
   (script, received bytes, call history), same stream state as StripStream *)
Theorem c08_never_is_strip :
  forall b d s w ops, run_ops b (auto_mode CNever d) s w ops = ss_run s w ops.
Proof. exact never_is_strip. Qed.

(* AlwaysAnsi and Always: the operations applied to the inner writer itself; with
   an accept-all writer every call succeeds and the bytes arrive unchanged *)
Theorem c08_always_ansi_is_identity :
  forall b d c s w ops,
  c = CAlwaysAnsi \/ c = CAlways ->
  run_ops b (auto_mode c d) s w ops = Some (s, fst (pass_run b w ops), snd (pass_run b w ops)) /\
  (w_script w = [] ->
   snd (pass_run b w ops) = map (pass_res b) ops /\
   w_received (fst (pass_run b w ops)) = w_received w ++ concat (map (pass_data b) ops)).
Proof. exact always_ansi_is_identity. Qed.

Theorem c08_always_eq_always_ansi :
  forall b d s w ops,
  run_ops b (auto_mode CAlways d) s w ops = run_ops b (auto_mode CAlwaysAnsi d) s w ops.
Proof. exact always_eq_always_ansi. Qed.

Theorem c08_current_choice :
  forall d,
  current_choice (auto_mode CNever d) = CNever /\
  current_choice (auto_mode CAlwaysAnsi d) = CAlwaysAnsi /\
  current_choice (auto_mode CAlways d) = CAlwaysAnsi /\
  current_choice (auto_mode CAuto d) = match d with CNever => CNever | _ => CAlwaysAnsi end.
Proof. exact current_choice_spec. Qed.

(* the reported choice is the arm in force *)
Theorem c08_reported_mode_in_force :
  forall b m s w ops,
  (current_choice m = CNever -> run_ops b m s w ops = ss_run s w ops) /\
  (current_choice m = CAlwaysAnsi ->
   run_ops b m s w ops = Some (s, fst (pass_run b w ops), snd (pass_run b w ops))).
Proof. exact reported_mode_in_force. Qed.

(* Never, fresh stream, accept-all inner writer, ANY interleaving of write,
   write_all, write_vectored, write_fmt and flush: every call succeeds and the
   inner writer has received exactly spec_strip of all the data (C03's fold law) *)
Theorem c08_never_delivers_spec_strip :
  forall b d w ops,
  w_script w = [] -> bytes_ok (concat (map strip_data ops)) ->
  exists s' w',
    run_ops b (auto_mode CNever d) sb_new w ops = Some (s', w', map strip_res ops) /\
    w_received w' = w_received w ++ spec_strip (concat (map strip_data ops)).
Proof. exact never_delivers_spec_strip. Qed.

(* finite fact used by the simulation behind kept = spec_strip: the generated table is
   the by-range VT model (complete enumeration of states x 256 bytes) *)
Theorem c08_table_is_williams :
  forall s b, b < 256 -> trans_matches s b = true.
Proof. exact table_is_williams. Qed.

(* non-vacuity: the same three operations under Never and under AlwaysAnsi *)
Theorem c08_example :
  (exists s' w' rs,
     run_ops false (auto_mode CNever CAuto) sb_new (writer_of [])
       [OWrite [97; 27; 91]; OWriteAll [49; 109; 98]; OWriteFmt [[27; 91; 109]; [99]]] = Some (s', w', rs) /\
     w_received w' = [97; 98; 99] /\ rs = [ROkN 3; ROk; ROk]) /\
  (exists s' w' rs,
     run_ops false (auto_mode CAlwaysAnsi CAuto) sb_new (writer_of [])
       [OWrite [97; 27; 91]; OWriteAll [49; 109; 98]; OWriteFmt [[27; 91; 109]; [99]]] = Some (s', w', rs) /\
     w_received w' = [97; 27; 91; 49; 109; 98; 27; 91; 109; 99] /\ rs = [ROkN 3; ROk; ROk]).
Proof. vm_compute. repeat split; repeat eexists. Qed.

(* the Strip arm is the Rust code itself: the functions of crates/anstream/src/strip.rs TRANSLATED
   (Generated/StreamFn.v, tools/gen_fn_stream.py; regenerated on every run) and driven by any
   operation sequence answer what the model of AutoStream built with Never answers *)
Theorem c08_translated_never_is_model :
  forall b d ops x,
  match g_ss_run x ops with Some (x1, rs) => Some (ss_state x1, ss_raw x1, rs) | None => None end
  = run_ops b (auto_mode CNever d) (ss_state x) (ss_raw x) ops.
Proof. exact translated_never_is_model. Qed.

(* AutoStream itself is the Rust code: the constructors, accessors and the five Write methods of
   crates/anstream/src/auto.rs (and StripStream::{new, into_inner, is_terminal, lock}) TRANSLATED for a
   non-Windows target with the default features (Generated/AutoFn.v, tools/gen_fn_auto.py; regenerated
   on every run).  [as_of m s w] is the Rust value of the model's (arm, strip state, inner writer);
   [cf] is what the raw stream answers: ac_decided = `choice(&raw)` (C09), ac_tty = is_terminal(),
   ac_wv_all = real vectored writes. *)

(* AutoStream::new(raw, c) builds the arm auto_mode names, over a fresh strip state; it panics exactly
   when c = Auto and `choice(&raw)` answers Auto (the debug_assert_ne! of `auto`) *)
Theorem c08_translated_new_is_model :
  forall cf raw c,
  g_as_new cf raw c =
  (if andb (cchoice_eqb c CAuto) (cchoice_eqb (ac_decided cf) CAuto) then None
   else Some (as_of (auto_mode c (ac_decided cf)) sb_new raw)).
Proof. exact g_as_new_eq. Qed.

(* one call of any of the five Write methods *)
Theorem c08_translated_op_is_model :
  forall cf m s w o,
  g_as_op cf (as_of m s w) o =
  match auto_op (ac_wv_all cf) m s w o with Some (s1, w1, r) => Some (as_of m s1 w1, r) | None => None end.
Proof. exact g_as_op_eq. Qed.

(* any operation sequence *)
Theorem c08_translated_run_is_model :
  forall cf m ops s w,
  g_as_run cf (as_of m s w) ops =
  match run_ops (ac_wv_all cf) m s w ops with Some (s1, w1, rs) => Some (as_of m s1 w1, rs) | None => None end.
Proof. exact g_as_run_eq. Qed.

(* new(raw, c); any sequence of write / write_all / write_vectored / write_fmt / flush; current_choice();
   into_inner(): the per-call results, the reported mode and the inner writer taken back are the model's *)
Theorem c08_translated_autostream_is_model :
  forall cf raw c ops,
  ac_decided cf <> CAuto ->
  g_as_session cf raw c ops =
  match run_ops (ac_wv_all cf) (auto_mode c (ac_decided cf)) sb_new raw ops with
  | Some (_, w1, rs) => Some (rs, current_choice (auto_mode c (ac_decided cf)), w1)
  | None => None
  end.
Proof. exact translated_autostream_is_model. Qed.

(* current_choice(), into_inner(), is_terminal(), lock() on any stream value *)
Theorem c08_translated_accessors :
  forall cf m s w,
  g_as_current_choice cf (as_of m s w) = Some (current_choice m) /\
  g_as_into_inner cf (as_of m s w) = Some w /\
  g_as_is_terminal cf (as_of m s w) = Some (ac_tty cf) /\
  g_as_lock_stdout cf (as_of m s w) = Some (as_of m s w) /\
  g_as_lock_stderr cf (as_of m s w) = Some (as_of m s w).
Proof. exact translated_accessors. Qed.

(* the glue around AutoStream, translated (Generated/GlueFn.v, tools/gen_fn_glue.py) *)

(* `anstream::stdout()` / `anstream::stderr()` (lib.rs) are `AutoStream::auto` -- translated, c08_translated_new_is_model --
   of the process's stdout handle / stderr handle, each of its own *)
Theorem c08_translated_stdout_is_auto : forall cf so se, g_stdout cf so se = g_as_auto cf so.
Proof. exact translated_stdout_is_auto. Qed.
Theorem c08_translated_stderr_is_auto : forall cf so se, g_stderr cf so se = g_as_auto cf se.
Proof. exact translated_stderr_is_auto. Qed.

(* what `raw.is_terminal()` answers (the [raw_is_terminal cf] of the translation above) is, for the five streams backed by a
   descriptor (Stdout, StdoutLock, Stderr, StderrLock, File), the polyfill asked about THAT stream; the in-memory and dyn
   streams (dyn Write, + Send, + Send + Sync, Vec<u8>, Buffer) are never a terminal; `&T`, `&mut T`, `Box<T>` forward *)
Theorem c08_translated_is_terminal_fd : forall f, In f g_is_terminal_fd_impls -> forall cf w, f cf w = raw_is_terminal cf w.
Proof. exact translated_is_terminal_fd. Qed.
Theorem c08_translated_is_terminal_mem : forall f, In f g_is_terminal_mem_impls -> forall cf w, f cf w = false.
Proof. exact translated_is_terminal_mem. Qed.
Theorem c08_translated_is_terminal_forward : forall cf tit w,
  g_is_terminal_ref cf tit w = tit w /\ g_is_terminal_refmut cf tit w = tit w /\ g_is_terminal_box cf tit w = tit w.
Proof. exact translated_is_terminal_forward. Qed.

(* the deprecated in-memory raw stream `anstream::Buffer` behaves like the scripted writer of Spec/Io.v whose script is
   exhausted (an accept-all Vec writer): same io::Result, same bytes; after any writes it holds their concatenation *)
Theorem c08_translated_buffer_write : forall b w buf,
  buf_rel b w ->
  let '(b', r) := g_buffer_write b buf in
  let '(w', r') := w_write w buf in
  r = r' /\ buf_rel b' w'.
Proof. exact buffer_write_simulates_writer. Qed.
Theorem c08_translated_buffer_flush : forall b w,
  buf_rel b w -> let '(b', r) := g_buffer_flush b in r = inl tt /\ buf_rel b' (w_flush w).
Proof. exact buffer_flush_simulates_writer. Qed.
Theorem c08_translated_buffer_contents : forall bufs,
  g_buffer_as_bytes (fst (g_buffer_writes g_buffer_new bufs)) = concat bufs.
Proof. exact buffer_new_as_bytes. Qed.

(* `AutoStream::wincon` in this configuration (no legacy console): the raw stream comes back, no stream is built *)
Theorem c08_translated_wincon_unavailable : forall cf raw, g_as_wincon cf raw = inr raw.
Proof. exact g_as_wincon_eq. Qed.

(* the print macros (crates/anstream/src/_macros.rs), translated arm by arm by tools/gen_fn_macros.py's macro_rules
   reader (Generated/MacrosFn.v).  [mac_arm err nl] is the translated main arm of print! (false, false), println!
   (false, true), eprint! (true, false), eprintln! (true, true); `world` the list of events the call adds to
   (Model/Glue.v mevent); ct / ft = `cfg!(test)` / the feature "test"; lossy = String::from_utf8_lossy, fmt_nl =
   `format_args_nl!` (both arbitrary); ch = what `choice(&raw)` answers per raw stream, cf the answers of the std handle,
   cfv those of the in-memory Vec.  The hand model [mac_model]: outside tests a FRESH stream over the macro's own std
   handle in the mode that handle's answers decide (Never: strip, else pass through), ONE write_fmt, a panic on an error;
   under test the fragments stripped / forwarded in a Vec per the choice of the macro's own handle, then std's macro *)
Theorem c08_translated_macros_are_model :
  forall lossy fmt_nl (err nl ct ft : bool) cfv (ch : writer -> cchoice) cf (so se : writer) world args,
  ac_decided cf <> CAuto -> ch (if err then se else so) <> CAuto ->
  mac_arm lossy fmt_nl err nl ct ft cfv ch cf so se world args = mac_model lossy fmt_nl (ct || ft) cfv ch cf err nl so se args world.
Proof. exact translated_macros_are_model. Qed.

(* outside tests: the stream that is WRITTEN TO is the handle the macro names, in the mode that handle's own answers
   decide, through exactly one write_fmt of the hand model (Never = the strip arm of C08, else pass-through) *)
Theorem c08_translated_print_writes_own_stream :
  forall lossy fmt_nl cfv ch cf so se world args,
  ac_decided cf <> CAuto ->
  forall err nl : bool,
  mac_arm lossy fmt_nl err nl false false cfv ch cf so se world args =
  match auto_op (ac_wv_all cf) (mac_mode (ac_decided cf)) sb_new (if err then se else so)
                (OWriteFmt (if nl then fmt_nl args else args)) with
  | Some (s1, w1, r) =>
      Some (world ++ MWriteFmt (as_of (mac_mode (ac_decided cf)) s1 w1) (match r with RErr e => inr e | _ => inl tt end)
                     :: match r with RErr e => [MPanicIo (if err then mac_msg_stderr else mac_msg_stdout) e] | _ => [] end)
  | None => None
  end.
Proof. exact translated_print_writes_own_stream. Qed.

(* println!() / eprintln!() are print!("\n") / eprint!("\n") *)
Theorem c08_translated_empty_println_is_print :
  forall lossy fmt_nl ct ft cfv ch cf so se world,
  g_println_arm0 lossy fmt_nl ct ft cfv ch cf so se world = g_print_arm0 lossy fmt_nl ct ft cfv ch cf so se world [[10]] /\
  g_eprintln_arm0 lossy fmt_nl ct ft cfv ch cf so se world = g_eprint_arm0 lossy fmt_nl ct ft cfv ch cf so se world [[10]].
Proof. exact translated_empty_println_is_print. Qed.

(* to_adapted_string (what the macros use under test, and panic! always): a fresh stream over an empty Vec in the mode
   the TARGET stream's choice names, one write_fmt, the Vec's content through from_utf8_lossy *)
Theorem c08_translated_to_adapted_string :
  forall lossy cfv (ch : writer -> cchoice) frags target,
  ch target <> CAuto ->
  g_to_adapted_string lossy cfv ch frags target = mac_adapted lossy (ac_wv_all cfv) (ch target) frags.
Proof. exact g_to_adapted_string_eq. Qed.

(* panic!(..) adapts its message for STDERR (never stdout), in every configuration; panic!() is std's *)
Theorem c08_translated_panic_asks_stderr :
  forall lossy fmt_nl (ct ft : bool) cfv (ch : writer -> cchoice) cf (so se : writer) world args,
  ch se <> CAuto ->
  g_panic_arm1 lossy fmt_nl ct ft cfv ch cf so se world args =
  match mac_adapted lossy (ac_wv_all cfv) (ch se) args with Some t => Some (world ++ [MPanic t]) | None => None end.
Proof. exact translated_panic_is_model. Qed.
Theorem c08_translated_panic_empty :
  forall lossy fmt_nl (ct ft : bool) cfv (ch : writer -> cchoice) cf (so se : writer) world,
  g_panic_arm0 lossy fmt_nl ct ft cfv ch cf so se world = world ++ [MPanicExplicit].
Proof. exact translated_panic_empty. Qed.
