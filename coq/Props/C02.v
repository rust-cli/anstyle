(* C02: the parser reports exactly the events of the VT500 state machine.  Only statements, each closed by [exact] of a
   theorem of Proofs/. *)
From Coq Require Import NArith List Bool.
From AV Require Import Generated.Table Spec.Utf8 Spec.Vt Model.Base Model.Parser Proofs.TableFacts
  Proofs.VtFacts Proofs.ParserSim Proofs.VtLimits Proofs.VtCancel Proofs.VtCsi Proofs.ParserCor
  Model.Imp Model.Utf8parse Generated.ParserFn Proofs.ParserGen Proofs.ParserGen2.
From AV Require Import Model.Utf8parse Model.Imp Generated.Utf8parseFn Proofs.Utf8parseGen.
Import ListNotations.
Local Open Scope N_scope.

(* the generated 16x256 table is, entry by entry, Williams' diagram with the four
   documented deviations (Spec/Vt.vt_trans) -- complete enumeration, no sample *)
Theorem c02_table_is_williams :
  forall s b, b < 256 -> trans_matches s b = true.
Proof. exact table_is_williams. Qed.

(* unpack never sees an invalid discriminant *)
Theorem c02_state_change_total :
  forall s b, b < 256 -> exists s' a, state_change s b = Some (s', a).
Proof. exact state_change_total. Qed.

(* for every byte stream the model of Parser::advance (arrays with bounds-checked
   writes, checked subtractions, fuelled ParamsIter, the utf8parse automaton with
   its bit-level code-point accumulation) reports exactly the callbacks of the
   independent specification, in the same order with the same arguments; in
   particular it never reaches a panic ([None]).  Proved by a simulation relation
   (Proofs/ParserSim.R) and the table theorem above. *)
Theorem c02_parser_refines_spec :
  forall bs, Forall (fun b => b < 256) bs -> events_model bs = Some (spec_events bs).
Proof. exact parser_refines_spec. Qed.

Theorem c02_parser_never_panics :
  forall bs, Forall (fun b => b < 256) bs -> events_model bs <> None.
Proof. exact parser_never_panics. Qed.

(* the simulation step behind it: one call of advance against one spec step *)
Theorem c02_advance_simulates_step :
  forall p s b, R p s -> b < 256 ->
  exists p', advance cfg_default p b = Some (p', snd (vt_step s b)) /\ R p' (fst (vt_step s b)).
Proof. exact step_sim. Qed.

(* every event the spec emits, for any byte list: at most 32 values over all
   parameter groups, at most 2 intermediates, every value <= 65535, at least one
   group and no empty group; between 1 and 16 OSC fields *)
Theorem c02_limits :
  forall bs, Forall event_ok (spec_events bs).
Proof. exact spec_limits. Qed.

(* hence every event the model (the crate) emits *)
Theorem c02_limits_model :
  forall bs, bytes_ok bs -> exists evs, events_model bs = Some evs /\ Forall event_ok evs.
Proof. exact model_limits. Qed.

(* values saturate at 65535 (no wrap-around): digits fed to a state with room
   left build min(65535, decimal value) *)
Theorem c02_limits_saturation :
  forall ds s, (count_values s < 32)%nat -> pend s = 0 ->
  Forall (fun d => 48 <= d <= 57) ds ->
  pend (fold_left param ds s) = N.min 65535 (dec_value ds).
Proof. exact param_digits_value. Qed.

(* the flag is set exactly when something was discarded: a third intermediate, a
   parameter byte with 32 values recorded, a dispatch / hook with 32 values
   recorded; no other action touches it and only the clearing entry actions
   reset it *)
Theorem c02_limits_flag :
  (forall s b, ign (collect s b) = ign s || Nat.eqb (length (ints s)) 2) /\
  (forall s b, ints (collect s b) = if Nat.eqb (length (ints s)) 2 then ints s else ints s ++ [b]) /\
  (forall s b, ign (param s b) = ign s || Nat.eqb (count_values s) 32) /\
  (forall s b, Nat.eqb (count_values s) 32 = true ->
     closed (param s b) = closed s /\ cur (param s b) = cur s /\ pend (param s b) = pend s) /\
  (forall s, snd (final_params s) = ign s || Nat.eqb (count_values s) 32) /\
  (forall s a b, a <> TCollect -> a <> TParam -> ign (fst (do_action s a b)) = ign s) /\
  (forall s t b, ign (fst (enter s t b)) =
     match t with VEscape | VCsiEntry | VDcsEntry => false | _ => ign s end).
Proof. exact flag_exact. Qed.

(* whatever came before, after CAN or SUB the rest of the stream is parsed as by a
   fresh parser *)
Theorem c02_cancel_from_anywhere :
  forall prefix rest c, (c = 24 \/ c = 26) ->
  Forall (fun b => b < 256) prefix -> Forall (fun b => b < 256) rest ->
  snd (vt_run (fst (vt_run vt_init (prefix ++ [c]))) rest) = spec_events rest.
Proof. exact cancel_from_anywhere. Qed.

(* the reason: the events of a continuation depend only on the live part of the
   state (bookkeeping only in the states that read it, OSC payload only in OSC) *)
Theorem c02_live_part_determines_events :
  forall bs s s', Forall (fun b => b < 256) bs -> live_eq s s' ->
  snd (vt_run s bs) = snd (vt_run s' bs).
Proof. exact live_eq_run. Qed.

(* the same on the model, without reference to the spec *)
Theorem c02_cancel_model :
  forall prefix rest c, (c = 24 \/ c = 26) -> bytes_ok prefix -> bytes_ok rest ->
  exists e1 e2, events_model (prefix ++ [c]) = Some e1 /\ events_model rest = Some e2 /\
                events_model (prefix ++ [c] ++ rest) = Some (e1 ++ e2).
Proof. exact model_cancel. Qed.

(* parameter groups given as digit strings (possibly empty, leading zeros allowed,
   values above 65535 saturate), ':' inside a group, ';' between groups *)
Theorem c02_csi_roundtrip_digits :
  forall dss f,
  dss <> [] -> Forall (fun g => g <> []) dss -> Forall (Forall (Forall is_digit)) dss ->
  (length (concat dss) <= 32)%nat -> 64 <= f <= 126 ->
  spec_events ([27; 91] ++ print_digit_params dss ++ [f])
  = [ECsi (map (map (fun ds => N.min 65535 (digits_val ds))) dss) [] false f].
Proof. exact csi_roundtrip_digits. Qed.

(* values printed in decimal without leading zeros *)
Theorem c02_csi_roundtrip :
  forall ps f,
  ps <> [] -> Forall (fun g => g <> []) ps -> (length (concat ps) <= 32)%nat ->
  Forall (Forall (fun v => v <= 65535)) ps -> 64 <= f <= 126 ->
  spec_events ([27; 91] ++ print_params ps ++ [f]) = [ECsi ps [] false f].
Proof. exact csi_roundtrip. Qed.

(* ... with any number of leading zeros in front of each value *)
Theorem c02_csi_roundtrip_zeros :
  forall ps f,
  ps <> [] -> Forall (fun g => g <> []) ps -> (length (concat ps) <= 32)%nat ->
  Forall (Forall (fun zv => snd zv <= 65535)) ps -> 64 <= f <= 126 ->
  spec_events ([27; 91] ++ print_params_z ps ++ [f]) = [ECsi (map (map snd) ps) [] false f].
Proof. exact csi_roundtrip_zeros. Qed.

Theorem c02_csi_roundtrip_model :
  forall ps f,
  ps <> [] -> Forall (fun g => g <> []) ps -> (length (concat ps) <= 32)%nat ->
  Forall (Forall (fun v => v <= 65535)) ps -> 64 <= f <= 126 ->
  events_model ([27; 91] ++ print_params ps ++ [f]) = Some [ECsi ps [] false f].
Proof. exact model_csi_roundtrip. Qed.

(* ESC [ ? 1 : 2 ; 70000 m , a three-byte character, an OSC with two fields ended by
   BEL, a DCS cut short by CAN: model and spec agree and report what one expects *)
Theorem c02_example :
  events_model [27; 91; 63; 49; 58; 50; 59; 55; 48; 48; 48; 48; 109; 226; 130; 172;
                27; 93; 48; 59; 104; 105; 7; 27; 80; 49; 113; 65; 24; 66]
  = Some [ECsi [[1; 2]; [65535]] [63] false 109; EPrint 8364; EOsc [[48]; [104; 105]] true;
          EHook [[1]] [] false 113; EPut 65; EUnhook; EExecute 24; EPrint 66]
  /\ spec_events [27; 91; 63; 49; 58; 50; 59; 55; 48; 48; 48; 48; 109; 226; 130; 172;
                  27; 93; 48; 59; 104; 105; 7; 27; 80; 49; 113; 65; 24; 66]
  = [ECsi [[1; 2]; [65535]] [63] false 109; EPrint 8364; EOsc [[48]; [104; 105]] true;
     EHook [[1]] [] false 113; EPut 65; EUnhook; EExecute 24; EPrint 66].
Proof. vm_compute. split; reflexivity. Qed.

Theorem c02_example_roundtrip :
  print_params [[38; 2]; [65535]; [0]] = [51; 56; 58; 50; 59; 54; 53; 53; 51; 53; 59; 48].
Proof. vm_compute. reflexivity. Qed.

(* Generated/ParserFn.v is written on every run by tools/gen_fn_parser.py from the Rust
   sources of Parser::{advance, process_utf8, perform_state_change, perform_action},
   Params::{is_full, clear, push, extend} and state_change; folded over any byte string it
   computes exactly what the hand model -- the subject of every theorem above -- computes.
   (Parser::osc_dispatch and definitions::unpack, unsafe code, are translated at value level: see below.) *)
Theorem c02_translated_advance_is_model :
  forall c p perf b, g_advance c p perf b = acc perf (advance c p b).
Proof. exact g_advance_eq. Qed.

Theorem c02_translated_parser_is_model :
  forall c bs, g_run c parser_new [] bs = run c parser_new bs.
Proof. exact translated_parser_is_model. Qed.

(* hence the translated code refines the specification *)
Theorem c02_translated_parser_refines_spec :
  forall bs, Forall (fun b => b < 256) bs ->
  option_map snd (g_run cfg_default parser_new [] bs) = Some (spec_events bs).
Proof.
  intros bs H. rewrite translated_parser_is_model.
  pose proof (parser_refines_spec bs H) as E. unfold events_model in E.
  destruct (run cfg_default parser_new bs) as [[? ?]|]; cbn in *; congruence.
Qed.

(* the rest of the crate, translated as well (tools/gen_fn_parser.py; HACKING.d/parser.md) *)

(* Parser::new() = Parser::default(), the derive expanded field by field from the struct items (Params, State's
   #[default] variant, the accumulator's Default): the hand model's initial state *)
Theorem c02_translated_new_is_model :
  forall c, g_parser_new c = parser_new.
Proof. exact g_parser_new_eq. Qed.

Theorem c02_translated_parser_from_new_is_model :
  forall c bs, g_run c (g_parser_new c) [] bs = run c parser_new bs.
Proof. exact translated_parser_from_new. Qed.

(* CharAccumulator::add: Utf8Parser::add with the translated utf8parse callbacks (codepoint / invalid_sequence)
   or AsciiParser::add, chosen by the `utf8` feature *)
Theorem c02_translated_char_add_is_model :
  forall c u b, g_char_add c u b = char_add c u b.
Proof. exact g_char_add_eq. Qed.

(* ParamsIter: draining the translated `next` (what a performer's `for group in params` sees) is the hand model's
   fuelled params_iter, from every iterator state; from Params::iter() / into_iter() it is params_groups *)
Theorem c02_translated_params_iter_is_model :
  forall c fuel it,
  iter_drain (g_params_iter_next c) (S fuel) it = params_iter fuel (pit_params it) (pit_index it).
Proof. exact drain_params_iter. Qed.

Theorem c02_translated_params_groups_is_model :
  forall c q, g_params_groups c q = params_groups q.
Proof. exact g_params_groups_eq. Qed.

(* Parser::osc_dispatch, the MaybeUninit slot array read at value level (an uninitialised slot read back = None) *)
Theorem c02_translated_osc_dispatch_is_model :
  forall c p perf b, g_osc_dispatch c p perf b = osc_dispatch_acc p perf b.
Proof. exact g_osc_dispatch_eq. Qed.

(* TryFrom<u8> for State / Action decode the discriminants of Generated/Table.v; unpack (transmute::<u8, _> read at
   value level as the same decoders) is the hand model's, which is try_from on the two nibbles *)
Theorem c02_translated_state_try_from :
  forall c raw, raw < 256 -> g_state_try_from c raw = opt_ok_or (state_of_disc raw) raw.
Proof. exact g_state_try_from_eq. Qed.

Theorem c02_translated_action_try_from :
  forall c raw, raw < 256 -> g_action_try_from c raw = opt_ok_or (action_of_disc raw) raw.
Proof. exact g_action_try_from_eq. Qed.

Theorem c02_translated_unpack_is_model :
  forall c delta, g_unpack c delta = unpack delta.
Proof. exact g_unpack_eq. Qed.

Theorem c02_translated_unpack_is_try_from :
  forall c delta, delta < 256 ->
  unpack delta =
  match g_state_try_from c (N.land delta 15), g_action_try_from c (N.shiftr delta 4) with
  | inl s, inl a => Some (s, a)
  | _, _ => None
  end.
Proof. exact unpack_is_try_from. Qed.

(* trait Perform: a callback that is not overridden does nothing *)
Theorem c02_translated_perform_defaults_noop :
  forall (T : Type) c (pf : T) evs, fold_left (g_perform_default_event T c) evs pf = pf.
Proof. exact g_perform_default_events. Qed.

(* <Params as Debug>::fmt prints the textual form the CSI round trip ([c02_csi_roundtrip]) is about, in brackets *)
Theorem c02_translated_params_debug :
  forall c q f,
  g_params_debug_fmt c q f = (G <- params_groups q ;; Some (f ++ [91] ++ print_params G ++ [93], inl tt)).
Proof. exact g_params_debug_fmt_eq. Qed.

(* ParamsIter::size_hint reports the number of VALUES left as lower and upper bound; the iterator yields GROUPS:
   for [1:2] the hint is (2, Some 2) and one item follows -- the lower bound of Iterator::size_hint is not one *)
Theorem c02_translated_size_hint :
  forall c it,
  g_params_iter_size_hint c it = (d <- csub (plen (pit_params it)) (pit_index it) ;; Some (d, Some d)).
Proof. exact g_params_iter_size_hint_eq. Qed.

Theorem c02_translated_size_hint_overcounts :
  let q := mkParams (2 :: 0 :: repeat 0 30) (1 :: 2 :: repeat 0 30) 0 2 in
  params_groups q = Some [[1; 2]] /\
  g_params_iter_size_hint cfg_default (g_params_iter cfg_default q) = Some (2, Some 2).
Proof. exact size_hint_overcounts. Qed.

(* the third-party decoder `utf8parse`, translated on every run from the registry source of the version
   <repo>/Cargo.lock pins (Generated/Utf8parseFn.v; how the source is authenticated: HACKING.d/utf8parse.md).
   `State::advance`, `Parser::{new, perform_action, advance}` and the derived Default are the hand model
   Model/Utf8parse.v -- the decoder every theorem above goes through -- for EVERY state, accumulated code
   point and byte.  A `Receiver` is the list of calls it gets. *)
Theorem c02_translated_utf8parse_state_advance :
  forall s b, g_u8_state_advance s b = Some (u8_advance s b).
Proof. exact g_u8_state_advance_eq. Qed.

Theorem c02_translated_utf8parse_perform_action :
  forall p r b a, g_u8_perform_action p r b a =
    Some (set_u8point p (fst (u8_perform p b a)), r ++ u8_events (snd (u8_perform p b a))).
Proof. exact g_u8_perform_action_eq. Qed.

Theorem c02_translated_utf8parse_advance :
  forall p r b, g_u8_parser_advance p r b =
    Some (fst (u8_parser_advance p b), r ++ u8_events (snd (u8_parser_advance p b))).
Proof. exact g_u8_parser_advance_eq. Qed.

Theorem c02_translated_utf8parse_new :
  g_u8_parser_new = u8_new /\ g_u8_parser_default = u8_new.
Proof. exact (conj g_u8_parser_new_eq g_u8_parser_default_eq). Qed.

(* a whole byte string through the translated decoder *)
Theorem c02_translated_utf8parse_run :
  forall bs p r, g_u8_run p r bs = Some (fst (u8_model_run p bs), r ++ snd (u8_model_run p bs)).
Proof. exact translated_run_is_model. Qed.

(* anstyle-parse's own glue around the decoder, translated from crates/anstyle-parse/src/lib.rs:
   <Utf8Parser as CharAccumulator>::add with the two methods of VtUtf8Receiver, and
   <AsciiParser as CharAccumulator>::add (`unreachable!`), are the hand model's [char_add] *)
Theorem c02_translated_utf8parse_char_add_is_model :
  forall c u b,
    (if utf8_on c then g_pa_utf8_add u b
     else option_map (fun '(_, o) => (u, o)) (g_pa_ascii_add tt b)) = char_add c u b.
Proof. exact translated_char_add_is_model. Qed.
