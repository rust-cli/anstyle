(* Props/C17.v -- property theorems for C17 (ANSI fallback for coloured writes
   frames the data and reports true progress).  Only statements, each closed by
   [exact].

   Vocabulary: [wa_write_colored fg bg data w] is the hand model of
   anstyle_wincon::ansi::write_colored over an inner writer [w] of Spec/Io (a
   script of responses, one per inner `write`); [fg bg : option ansi_color] range
   over {None, 16 colours}; [wa_idx] numbers a colour 0..15; [sa_frame] / [sa_sgr]
   are the framing formula and the SGR codes of Spec/AnsiFrame (independent of the
   code); [wa_fg_bytes] / [wa_bg_bytes] / [wa_reset_bytes] are the implementation's
   own strings (translated tables), [] when the colour is absent / no colour is
   given. *)
From Coq Require Import NArith List Bool.
From AV Require Import Generated.Style Generated.WinconAnsi
  Spec.Utf8 Spec.Vt Spec.Strip Spec.Sgr Spec.Io Spec.AnsiFrame
  Model.WinconAnsi Proofs.IoFacts Proofs.VtCompose Proofs.WinconAnsi Generated.WinconAnsiFn Proofs.WinconAnsiGen.
Import ListNotations.
Local Open Scope N_scope.

(* Ok(k): the writer received, after what it had, exactly fg? ++ bg? ++ the first k
   bytes of the data ++ reset?; k <= |data|; and k is what the one inner
   write(data) answered (it is in the call history between the calls for the
   codes and the calls for the reset) *)
Theorem c17_output_framing :
  forall fg bg data w w' k,
  wa_write_colored fg bg data w = (w', inl k) ->
  k <= N.of_nat (length data) /\
  w_received w' = w_received w ++ sa_frame (wa_idx fg) (wa_idx bg) (firstn (N.to_nat k) data) /\
  w_received w' = w_received w ++ wa_fg_bytes fg ++ wa_bg_bytes bg ++ firstn (N.to_nat k) data ++ wa_reset_bytes fg bg /\
  exists before after, w_calls w' = w_calls w ++ before ++ [CWrite data (inl k)] ++ after.
Proof. exact output_framing. Qed.

(* each code is present iff its colour is given, the reset iff any colour is *)
Theorem c17_code_presence :
  forall fg bg,
  (wa_fg_bytes fg = [] <-> fg = None) /\
  (wa_bg_bytes bg = [] <-> bg = None) /\
  (wa_reset_bytes fg bg = [] <-> (fg = None /\ bg = None)).
Proof. exact code_presence. Qed.

(* the implementation's 33 strings are the SGR codes: CSI 30+i / 90+i-8 m,
   CSI 40+i / 100+i-8 m, CSI 0 m *)
Theorem c17_codes_are_sgr :
  (forall c, ansi_fg_str c = sa_sgr (sa_fg_code (ansi_disc c))) /\
  (forall c, ansi_bg_str c = sa_sgr (sa_bg_code (ansi_disc c))) /\
  wa_reset_str = sa_sgr 0.
Proof. exact codes_are_sgr. Qed.

(* neither colour given: the only inner call is write(data) and the result is its
   result (writer state, history and answer all coincide) *)
Theorem c17_no_code_when_default :
  forall data w, wa_write_colored None None data w = w_write w data.
Proof. exact no_code_when_default. Qed.

(* Err(k): one of the (at most four) inner operations that the colours enable
   failed -- the LAST call the inner writer saw answered Err(k), or (inside a
   write_all of a code) accepted nothing of a non-empty buffer and k = WriteZero --
   nothing is attempted after it, and what was received is everything of the
   earlier operations plus the accepted part of the failing one
   (wa_failed_at, Proofs/WinconAnsi.v) *)
Theorem c17_error_kind :
  forall fg bg data w w' k,
  wa_write_colored fg bg data w = (w', inr k) ->
  exists op, wa_failed_at op fg bg data w w' k.
Proof. exact error_kind. Qed.

(* interpretation, any writer: when the accepted part of the data is parsed from
   Ground back to Ground (not inside a multi-byte character) and contains no SGR
   sequence of its own, a terminal that interprets the output shows exactly the
   characters of that part's own interpretation, every one in the requested
   colours (and nothing else set), and is in the default rendition afterwards *)
Theorem c17_interp :
  forall fg bg data w' script k,
  wa_write_colored fg bg data (writer_of script) = (w', inl k) ->
  let shown := firstn (N.to_nat k) data in
  (vs (fst (vt_run vt_init shown)) = VGround /\ uni (fst (vt_run vt_init shown)) = None) ->
  forallb not_sgr (spec_events shown) = true ->
  interp style_default (spec_events (w_received w')) =
  (map (fun sc => (mkStyle (option_map (fun c => CAnsi (ansi_disc c)) fg)
                           (option_map (fun c => CAnsi (ansi_disc c)) bg) None 0, snd sc))
       (fst (interp style_default (spec_events shown))),
   style_default).
Proof. exact interp_output. Qed.

(* interpretation, accept-all writer: the call answers Ok(|data|) and the above
   holds for the whole data *)
Theorem c17_interp_accept_all :
  forall fg bg data,
  (vs (fst (vt_run vt_init data)) = VGround /\ uni (fst (vt_run vt_init data)) = None) ->
  forallb not_sgr (spec_events data) = true ->
  exists w', wa_write_colored fg bg data (writer_of []) = (w', inl (N.of_nat (length data))) /\
  interp style_default (spec_events (w_received w')) =
  (map (fun sc => (mkStyle (option_map (fun c => CAnsi (ansi_disc c)) fg)
                           (option_map (fun c => CAnsi (ansi_disc c)) bg) None 0, snd sc))
       (fst (interp style_default (spec_events data))),
   style_default).
Proof. exact interp_accept_all. Qed.

(* stripping the output gives what stripping the accepted data gives -- with no
   hypothesis on the data (the reset begins with ESC, which leaves every state) --
   and gives back the accepted data itself when that is plain text (printable
   ASCII, TAB, LF, FF, CR) *)
Theorem c17_strip :
  forall fg bg data script w' k,
  wa_write_colored fg bg data (writer_of script) = (w', inl k) ->
  spec_strip (w_received w') = spec_strip (firstn (N.to_nat k) data) /\
  (forallb sa_text_byte (firstn (N.to_nat k) data) = true ->
   spec_strip (w_received w') = firstn (N.to_nat k) data).
Proof. exact strip_output. Qed.

(* the hand model computes the specification's coloured write (Spec/AnsiFrame) *)
Theorem c17_model_is_spec :
  forall fg bg data w,
  wa_write_colored fg bg data w = sa_write_colored (wa_idx fg) (wa_idx bg) data w.
Proof. exact model_is_spec. Qed.

(* every non-Windows `impl WinconStream for T` of stream.rs ends in
   ansi::write_colored (translated list of impls) *)
Theorem c17_impls_delegate : wa_unix_impls_all_ansi = true.
Proof. exact unix_impls_all_ansi. Qed.

(* non-vacuity: red on bright blue, "hi\n", a writer that is interrupted once,
   takes the foreground code in two pieces and only 2 of the 3 data bytes *)
Theorem c17_example :
  let '(w', r) := wa_write_colored (Some Red) (Some BrightBlue) [104; 105; 10]
                    (writer_of [Fail Interrupted; Accept 2; Accept 9; Accept 6; Accept 2]) in
  r = inl 2 /\
  w_received w' = [27; 91; 51; 49; 109] ++ [27; 91; 49; 48; 52; 109] ++ [104; 105] ++ [27; 91; 48; 109] /\
  length (w_calls w') = 6%nat.
Proof. exact example_run. Qed.

(* Generated/WinconAnsiFn.v is written on every run by tools/gen_fn_wincon_ansi.py (tools/rs2v) from the
   Rust source of anstyle_wincon::ansi::write_colored; over any inner writer (script, bytes received so
   far, call history), any colours and any data it leaves the writer and answers the io::Result the hand
   model -- the subject of every theorem above -- computes *)
Theorem c17_translated_write_colored_is_model : forall w fg bg data,
  g_write_colored w fg bg data = wa_write_colored fg bg data w.
Proof. exact translated_write_colored_is_model. Qed.

(* hence the translated code computes the specification's coloured write (Spec/AnsiFrame) *)
Theorem c17_translated_write_colored_is_spec : forall w fg bg data,
  g_write_colored w fg bg data = sa_write_colored (wa_idx fg) (wa_idx bg) data w.
Proof. exact translated_write_colored_is_spec. Qed.

(* the per-type `impl WinconStream for <T>` of crates/anstyle-wincon/src/stream.rs (non-Windows configuration) are
   TRANSLATED too: each of the nine concrete impls (dyn Write, + Send, + Send + Sync, File, Vec<u8>, StdoutLock,
   StderrLock, Stdout and Stderr -- the last two through `self.lock()` and the translated impl of the lock type) hands
   `self` and the arguments, in order, to the translated `ansi::write_colored` once and answers what it answers *)
Theorem c17_translated_impls_are_write_colored : forall f, In f g_wc_impls ->
  forall w fg bg data, f w fg bg data = wa_write_colored fg bg data w.
Proof. exact translated_impls_are_write_colored. Qed.

Theorem c17_translated_impls_are_spec : forall f, In f g_wc_impls ->
  forall w fg bg data, f w fg bg data = sa_write_colored (wa_idx fg) (wa_idx bg) data w.
Proof. exact translated_impls_are_spec. Qed.

(* the two generic impls (`&mut T`, `Box<T>`) forward to the pointee's impl, whatever it is *)
Theorem c17_translated_generic_impls_forward : forall twc w fg bg data,
  g_wc_refmut twc w fg bg data = twc w fg bg data /\ g_wc_box twc w fg bg data = twc w fg bg data.
Proof. exact translated_generic_impls_forward. Qed.
