(* C01: stripping removes exactly the escape sequences and nothing else.  Only statements, each closed by [exact] of a
   theorem of Proofs/. *)
From Coq Require Import NArith List Bool.
From AV Require Import Generated.Table Spec.Utf8 Spec.Vt Spec.Strip Model.Base Model.Parser Model.Strip
  Proofs.TableFacts Proofs.StripMachine Proofs.StripSim Proofs.StripStr Proofs.StripPieces Proofs.StripVisible
  Generated.StripFn Proofs.StripGen.
From AV Require Import Spec.Io Model.Stream Generated.StreamFn Proofs.StreamGen.
From AV Require Import Model.Utf8parse Model.Imp Generated.Utf8parseFn Proofs.Utf8parseGen Proofs.Utf8parseStrip.
Import ListNotations.
Local Open Scope N_scope.

(* the byte API, for every byte string (no UTF-8 hypothesis): never panics and the
   concatenated pieces are exactly what Spec/Strip keeps *)
Theorem c01_strip_bytes_is_spec :
  forall input, bytes_ok input -> strip_bytes_model input = Some (spec_strip input).
Proof. exact strip_bytes_is_spec. Qed.

(* the text API, for every valid UTF-8 string *)
Theorem c01_strip_str_is_spec :
  forall input, bytes_ok input -> valid_utf8 input = true ->
  strip_str_model input = Some (spec_strip input).
Proof. exact strip_str_is_spec. Qed.

(* the two specifications agree: on valid UTF-8 the bytes Spec/Strip keeps are exactly
   the UTF-8 encoding of the text the VT model of Spec/Vt shows -- every character it
   prints except DEL and every TAB / LF / FF / CR it executes ([visible_of]) *)
Theorem c01_strip_visible_text :
  forall input, Forall (fun b => b < 256) input -> valid_utf8 input = true ->
  spec_strip input = flat_map utf8_encode (flat_map visible_of (spec_events input)).
Proof. exact strip_visible_text. Qed.

(* used above: every single well-formed character of Table 3-7 ([one_char]: a 7-bit
   byte, or a lead byte and exactly the continuation bytes the DFA accepts) decodes to
   a scalar value whose encoding is the same bytes *)
Theorem c01_utf8_encode_decode :
  forall bs, one_char bs = true ->
  utf8_encode (utf8_decode bs) = bs /\ is_scalar (utf8_decode bs) = true.
Proof. exact utf8_encode_decode. Qed.

(* the output never contains ESC, DEL or a non-whitespace C0 control, whatever the
   input (valid UTF-8 or not) *)
Theorem c01_strip_no_controls :
  forall input, bytes_ok input -> Forall (fun b => clean_byte b = true) (spec_strip input).
Proof. exact strip_no_controls. Qed.

(* the pieces are non-empty, in-order, non-overlapping substrings of the input at
   the offsets they report *)
Theorem c01_strip_bytes_pieces :
  forall input ps, strip_bytes_pieces input = Some ps -> pieces_in 0 input ps.
Proof. exact strip_bytes_pieces_wf. Qed.

Theorem c01_strip_str_pieces :
  forall input ps, strip_str_pieces input = Some ps -> pieces_in 0 input ps.
Proof. exact strip_str_pieces_wf. Qed.

(* finite facts used above, each by complete enumeration of states x 256 bytes:
   the generated table is the by-range VT model ... *)
Theorem c01_table_is_williams :
  forall s b, b < 256 -> trans_matches s b = true.
Proof. exact table_is_williams. Qed.

(* ... one scanner step from an idle decoder agrees with one specification step ... *)
Theorem c01_plain_step_matches :
  forall st b, b < 256 -> plain_matches st b = true.
Proof. exact plain_matches_ok. Qed.

(* ... and utf8parse continues a character exactly as Table 3-7 says *)
Theorem c01_utf8_cont_matches :
  forall s8 b, b < 256 -> cont_matches s8 b = true.
Proof. exact cont_matches_ok. Qed.

(* non-vacuity: a concrete input with a control inside a sequence, a truncated lead
   byte followed by ESC, and a multi-byte character *)
Theorem c01_example :
  strip_bytes_model [27; 91; 10; 51; 50; 109; 88; 226; 27; 91; 109; 195; 169]
  = Some [10; 88; 226; 195; 169].
Proof. vm_compute. reflexivity. Qed.

(* Generated/StripFn.v is written on every run by tools/gen_fn_strip.py from the Rust sources of
   next_str, next_bytes, is_printable_bytes, is_utf8_continuation, Utf8Parser::add (with the two
   Receiver methods), the Iterator::next methods, StrippedStr::new / StrippedBytes::new,
   strip_str / strip_bytes and StrippedBytes::into_vec (with its own copy of state_change, `gs_state_change`).
   One call of the translated scanners computes exactly what the hand model -- the subject of
   every theorem above -- computes ([bytes_result] / [str_result] drop the offsets the model
   tracks on top). *)
Theorem c01_translated_next_bytes_is_model :
  forall bs off st u, g_next_bytes bs st u = bytes_result (next_bytes bs off st u).
Proof. exact g_next_bytes_eq. Qed.

Theorem c01_translated_next_str_is_model :
  forall bs off st, g_next_str bs st = str_result (next_str bs off st).
Proof. exact g_next_str_eq. Qed.

Theorem c01_translated_utf8_add_is_model :
  forall u b, g_utf8_add u b = utf8_add u b.
Proof. exact g_utf8_add_eq. Qed.

(* strip_bytes(data).into_vec(), translated from end to end *)
Theorem c01_translated_strip_bytes_is_model :
  forall bs, g_stripped_bytes_into_vec (g_strip_bytes bs) = strip_bytes_model bs.
Proof. exact g_strip_bytes_into_vec_is_model. Qed.

(* strip_str(data).to_string(): the translated iterator, drained and concatenated
   (Display::fmt / to_string are std::fmt plumbing: hand-modelled, token-pinned) *)
Theorem c01_translated_strip_str_is_model :
  forall bs, g_strip_str_to_string bs = strip_str_model bs.
Proof. exact g_strip_str_to_string_is_model. Qed.

(* hence the translated code refines the specification *)
Theorem c01_translated_strip_bytes_refines_spec :
  forall input, bytes_ok input -> g_stripped_bytes_into_vec (g_strip_bytes input) = Some (spec_strip input).
Proof. exact translated_strip_bytes_refines_spec. Qed.

Theorem c01_translated_strip_str_refines_spec :
  forall input, bytes_ok input -> valid_utf8 input = true ->
  g_strip_str_to_string input = Some (spec_strip input).
Proof. exact translated_strip_str_refines_spec. Qed.

(* the never-colour stream: the functions of crates/anstream/src/strip.rs TRANSLATED from the source
   (Generated/StreamFn.v) answer, for any sequence of write-family calls, what the stream model with the
   choice Never answers -- whose delivered bytes are Spec/Strip of the data (C06 / C08) *)
Theorem c01_translated_never_stream_is_model :
  forall b d ops x,
  match g_ss_run x ops with Some (x1, rs) => Some (ss_state x1, ss_raw x1, rs) | None => None end
  = run_ops b (auto_mode CNever d) (ss_state x) (ss_raw x) ops.
Proof. exact translated_never_is_model. Qed.

(* the third-party decoder `utf8parse`, translated on every run from the registry source of the version
   <repo>/Cargo.lock pins (Generated/Utf8parseFn.v; how the source is authenticated: HACKING.d/utf8parse.md).
   `State::advance`, `Parser::{new, perform_action, advance}` and the derived Default are the hand model
   Model/Utf8parse.v -- the decoder every theorem above goes through -- for EVERY state, accumulated code
   point and byte.  A `Receiver` is the list of calls it gets. *)
Theorem c01_translated_utf8parse_state_advance :
  forall s b, g_u8_state_advance s b = Some (u8_advance s b).
Proof. exact g_u8_state_advance_eq. Qed.

Theorem c01_translated_utf8parse_advance :
  forall p r b, g_u8_parser_advance p r b =
    Some (fst (u8_parser_advance p b), r ++ u8_events (snd (u8_parser_advance p b))).
Proof. exact g_u8_parser_advance_eq. Qed.

Theorem c01_translated_utf8parse_new :
  g_u8_parser_new = u8_new /\ g_u8_parser_default = u8_new.
Proof. exact (conj g_u8_parser_new_eq g_u8_parser_default_eq). Qed.

(* the way Generated/StripFn.v consumes the decoder (hand model first, then the translated Receiver method its
   answer names) is the translated decoder on a call-recording receiver, the calls delivered in order to the
   translated methods of anstream's VtUtf8Receiver *)
Theorem c01_translated_utf8_add_over_translated_decoder :
  forall u b,
    ('(u', evs) <- g_u8_parser_advance (u8p_inner u) [] b ;;
     Some (set_u8p_inner u u', u8_deliver g_receiver_codepoint g_receiver_invalid_sequence evs false))
    = Some (g_utf8_add u b).
Proof. exact strip_utf8_add_over_translated_decoder. Qed.
