(* Property theorems for C05 (rendered styles are pure SGR and round-trip through
   SGR interpretation).

   Vocabulary.
   Model (Model/Render.v over Generated/Style.v, Generated/Render.v): [style] is the
   record of Model/Style.v (three optional colours, an effect set);
   [rn_render_style s] = `s.render().to_string()` (= Style::fmt_to), [rn_write_to s] =
   the buffers `s.write_to(w)` hands to write_all, [rn_render_reset s], [rn_display
   alternate flags s] = `format!("{:<flags>}", s)`; [None] = the code panics.
   Specification (Spec/Vt.v, Spec/Strip.v, Spec/Sgr.v, Spec/Render.v): [spec_events] =
   the VT parser, [spec_strip], [event_style] / [sgr_apply] = SGR as a conforming
   terminal applies it, [rn_interp_style es t] = [fold_left event_style es t];
   [rn_final_style bs] = the rendition after interpreting [bs] from the default state;
   [rn_sstyle s] = the style value as a rendition of Spec/Sgr; [rn_groups_of t] = one
   sequence per set effect in bit order (CURLY_UNDERLINE is [[4;3]]), then
   foreground, background, underline colour ([[38];[5];[n]] is ONE sequence);
   [rn_sgr g] = [ECsi g [] false 109]; [rn_norm] maps a 16-colour UNDERLINE colour to
   the same index of the 256-colour palette and is the identity otherwise.
   "Every style value" is [rn_wf (rn_sstyle s)]: effect set below 2^12, palette
   index below 16, every u8 component below 256.  Nothing below is proved by
   enumerating styles; finite tables (12 METADATA escapes, 16 fg / bg strings) are
   checked entry by entry inside the kernel. *)
From Coq Require Import NArith List Bool.
From AV Require Import Generated.Style Generated.Render Spec.Vt Spec.Strip Spec.Sgr Spec.Algebra Spec.Render
  Spec.Io Model.Base Model.Style Model.Render Proofs.Render Generated.StyleFn Generated.RenderFn Proofs.RenderGen.
Import ListNotations.
Local Open Scope N_scope.

(* write_code stores the decimal digits of its argument (with its always-printed
   tens digit: 5 is "05", which denotes the same number), between 1 and 3 of them *)
Theorem c05_write_code_decimal :
  forall n, n < 256 ->
  exists ds, rn_write_code rn_buf_new n = Some ds /\ forallb rn_is_digit ds = true /\
             rn_dec_value ds = n /\ (1 <= length ds <= 3)%nat.
Proof. exact write_code_decimal. Qed.

(* every colour in every slot: the buffer is built without an out-of-bounds store
   (the model never answers None) and holds at most DISPLAY_BUFFER_CAPACITY bytes *)
Theorem c05_buffer_bound :
  forall c, rn_color_wf c ->
  (exists p, rn_color_fg_buffer c = Some p /\ N.of_nat (length p) <= rn_display_buffer_capacity) /\
  (exists p, rn_color_bg_buffer c = Some p /\ N.of_nat (length p) <= rn_display_buffer_capacity) /\
  (exists p, rn_color_ul_buffer c = Some p /\ N.of_nat (length p) <= rn_display_buffer_capacity).
Proof. exact buffer_bound. Qed.

(* ... and the capacity is reached *)
Theorem c05_buffer_bound_tight :
  option_map (@length N) (rn_color_ul_buffer (CoRgb 255 255 255)) = Some (N.to_nat rn_display_buffer_capacity).
Proof. exact buffer_bound_tight. Qed.

(* "ESC [ digits (;|:) digits ... m" -- at least one parameter, values below 65536
   printed in decimal (leading zeros, empty strings allowed), at most 32 values --
   read from the ground state is ONE CSI dispatch carrying exactly the printed
   values, and leaves the parser in the ground state *)
Theorem c05_csi_roundtrip :
  forall gs s, rn_csi_ok gs = true -> vs s = VGround /\ uni s = None ->
  exists s', vt_run s (rn_csi gs 109) = (s', [rn_sgr (rn_param_values gs)]) /\ (vs s' = VGround /\ uni s' = None).
Proof. exact rn_csi_roundtrip. Qed.

(* what a style renders is SGR control sequences and nothing else: the VT parser
   reports exactly one CSI-m per set effect, then fg, bg, underline colour *)
Theorem c05_render_is_sgr_only :
  forall s, rn_wf (rn_sstyle s) ->
  exists bs, rn_render_style s = Some bs /\ spec_events bs = map rn_sgr (rn_groups_of (rn_sstyle s)).
Proof. exact render_is_sgr_only. Qed.

Theorem c05_strip_nothing :
  forall s, rn_wf (rn_sstyle s) ->
  exists bs, rn_render_style s = Some bs /\ spec_strip bs = [].
Proof. exact strip_nothing. Qed.

(* interpreting the rendered bytes from the terminal's default state gives the
   style back (a terminal has one underline attribute, hence the hypothesis) *)
Theorem c05_render_roundtrip :
  forall s, rn_wf (rn_sstyle s) -> rn_at_most_one_underline_kind (rn_sstyle s) ->
  exists bs, rn_render_style s = Some bs /\
             rn_interp_style (spec_events bs) style_default = rn_norm (rn_sstyle s).
Proof. exact render_roundtrip. Qed.

(* without the hypothesis: of several underline kinds the last one in bit order stays *)
Theorem c05_render_roundtrip_general :
  forall s, rn_wf (rn_sstyle s) ->
  exists bs, rn_render_style s = Some bs /\
             rn_interp_style (spec_events bs) style_default = rn_norm_general (rn_sstyle s).
Proof. exact render_roundtrip_general. Qed.

Theorem c05_one_underline_kind_is_kept :
  forall e, (length (rn_underline_kinds e) <= 1)%nat -> rn_last_kind_wins e = e.
Proof. exact last_kind_wins_id. Qed.

(* the same at the level of the specification alone: the sequences that express a
   rendition, applied by the SGR rules, give that rendition *)
Theorem c05_groups_roundtrip :
  forall t, rn_wf t -> rn_at_most_one_underline_kind t ->
  rn_interp_style (map rn_sgr (rn_groups_of t)) style_default = rn_norm t.
Proof. exact groups_roundtrip. Qed.

(* [rn_interp_style] is the rendition Spec/Sgr.interp ends in *)
Theorem c05_interp_is_fold :
  forall es s, snd (interp s es) = rn_interp_style es s.
Proof. exact rn_interp_snd. Qed.

(* the reset form is empty exactly for the plain style, is RESET otherwise; RESET
   takes a terminal from any state to the default state and strips to nothing *)
Theorem c05_reset_semantics :
  forall s,
  (rn_render_reset s = [] <-> s = st_new) /\
  (s = st_new <-> st_is_plain s = true) /\
  (s <> st_new -> rn_render_reset s = rn_reset_str) /\
  (forall t, rn_interp_style (spec_events rn_reset_str) t = style_default) /\
  spec_strip rn_reset_str = [].
Proof. exact reset_semantics. Qed.

(* a style followed by its reset form leaves the terminal in the default state *)
Theorem c05_render_then_reset :
  forall s, rn_wf (rn_sstyle s) ->
  exists bs, rn_render_style s = Some bs /\
             rn_interp_style (spec_events (bs ++ rn_render_reset s)) style_default = style_default.
Proof. exact render_then_reset. Qed.

(* io::Write path = Display path (for every style value, panics included) *)
Theorem c05_paths_agree :
  forall s, option_map (@concat N) (rn_write_to s) = rn_render_style s.
Proof. exact paths_agree. Qed.

Theorem c05_paths_agree_reset :
  forall s, concat (rn_write_reset_to s) = rn_render_reset s.
Proof. exact paths_agree_reset. Qed.

(* width, fill, alignment and precision do not matter: no padding, no truncation *)
Theorem c05_flags_irrelevant :
  forall flags alternate s, rn_display alternate flags s = rn_display alternate rn_no_flags s.
Proof. exact flags_irrelevant. Qed.

(* `{}` is render, `{:#}` is render_reset *)
Theorem c05_display_forms :
  forall flags s,
  rn_display false flags s = rn_render_style s /\ rn_display true flags s = Some (rn_render_reset s).
Proof. exact display_forms. Qed.

(* `style.render()` ignores the flags and `#` *)
Theorem c05_flags_irrelevant_render :
  forall flags alternate s, rn_display_render alternate flags s = rn_render_style s.
Proof. exact flags_irrelevant_render. Qed.

(* render_reset(), Effects::render, Color::render_fg / render_bg, AnsiColor::render_fg /
   render_bg, Reset *)
Theorem c05_flags_irrelevant_others :
  forall flags alternate,
  (forall s, rn_display_reset_of alternate flags s = Some (rn_render_reset s)) /\
  (forall e, rn_display_effects alternate flags e = rn_display_effects false rn_no_flags e) /\
  (forall c, rn_display_color_fg alternate flags c = rn_color_fg_buffer c) /\
  (forall c, rn_display_color_bg alternate flags c = rn_color_bg_buffer c) /\
  (forall a, rn_display_ansi_fg alternate flags a = Some (ansi_fg_str a)) /\
  (forall a, rn_display_ansi_bg alternate flags a = Some (ansi_bg_str a)) /\
  rn_display_reset alternate flags = Some rn_reset_str.
Proof. exact flags_irrelevant_others. Qed.

(* non-vacuity: bold + curly underline, bright red on index 5, underline colour
   rgb(1,2,30): "ESC[1m ESC[4:3m ESC[91m ESC[48;5;05m ESC[58;2;01;02;30m" *)
Theorem c05_example :
  let s := Model.Style.mkStyle (Some (CoAnsi BrightRed)) (Some (CoAnsi256 5)) (Some (CoRgb 1 2 30)) 33 in
  rn_render_style s =
    Some [27; 91; 49; 109;  27; 91; 52; 58; 51; 109;  27; 91; 57; 49; 109;
          27; 91; 52; 56; 59; 53; 59; 48; 53; 109;
          27; 91; 53; 56; 59; 50; 59; 48; 49; 59; 48; 50; 59; 51; 48; 109] /\
  option_map rn_final_style (rn_render_style s) = Some (rn_sstyle s) /\
  option_map spec_strip (rn_render_style s) = Some [] /\
  rn_display true (mkRnFlags (Some 8) 42 (Some 2) (Some 2)) s = Some [27; 91; 48; 109].
Proof. vm_compute. repeat split. Qed.

(* Generated/RenderFn.v is written on every run by tools/gen_fn_render.py (tools/rs2v) from the
   Rust sources of DisplayBuffer::{write_str, write_code, as_str} and the
   as_{fg,bg,underline}_buffer functions of AnsiColor / Ansi256Color / RgbColor and
   Color::{render_fg, render_bg, render_underline} ([gr_color_*_buffer]), over the Rust
   data layout (a 19-byte array and a length, [rn_dbuf]).  [dbuf_rel d b]: the hand model's
   byte list [b] is buffer[0..len] of [d]; [orel]: both sides panic, or both succeed with
   related states. *)
Theorem c05_translated_write_str_is_model :
  forall d b part, dbuf_rel d b -> orel (gr_write_str d part) (rn_buf_write_str b part).
Proof. exact translated_write_str. Qed.

Theorem c05_translated_write_code_is_model :
  forall d b code, dbuf_rel d b -> orel (gr_write_code d code) (rn_write_code b code).
Proof. exact translated_write_code. Qed.

Theorem c05_translated_as_str_is_model :
  forall d b, dbuf_rel d b -> gr_as_str d = Some b.
Proof. exact gr_as_str_eq. Qed.

(* every colour, every slot: what the translated builder chain shows (as_str of its result) is
   what the hand model -- the subject of every theorem above -- computes, a panic included *)
Theorem c05_translated_buffers_are_model :
  forall c,
    gr_shown (gr_color_fg_buffer c) = rn_color_fg_buffer c /\
    gr_shown (gr_color_bg_buffer c) = rn_color_bg_buffer c /\
    gr_shown (gr_color_ul_buffer c) = rn_color_ul_buffer c.
Proof. exact translated_buffers_are_model. Qed.

(* The core::fmt and io::Write side.  Generated/RenderFn.v also holds (translated on every run from color.rs, effect.rs, style.rs, reset.rs):
   impl Display for DisplayBuffer / NullFormatter / EffectsDisplay / Reset / StyleDisplay / Style,
   Style::{fmt_to, render, render_reset, write_to, write_reset_to}, Effects::write_to, DisplayBuffer::write_to,
   Color::write_{fg,bg,underline}_to, the render_fg / render_bg of the three colour types, Reset::render, the From
   impls of color.rs and `on` / `on_default`.  A Formatter is [rn_fmtr]: the hand model's [rn_fmt] over a sink that
   answers every write_str from a script ([mkRnFmtr f []]: a sink that never fails, a String); a translated `fmt`
   answers the new formatter and the fmt::Result ([ok_fmt]: the hand model's formatter and Ok(())).
   [gr_format alternate flags fmt] = `format!("{:<flags>}", x)` for the translated Display impl [fmt] of x
   (an Err makes format! panic).  `&mut dyn io::Write` is the scripted writer of Spec/Io.v;
   [wr_bufs write w bufs] = the fragments handed to the sink in order, the first error stops ([write] is
   Formatter::write_str or io::Write::write_all). *)

(* Style::fmt_to (the central rendering function) *)
Theorem c05_translated_fmt_to_is_model :
  forall s f, gr_style_fmt_to s (mkRnFmtr f []) = ok_fmt (rn_style_fmt_to s f).
Proof. exact gr_style_fmt_to_eq. Qed.

(* ... on ANY formatter (a sink that fails at some write_str): the fragments are the buffers of the hand model's
   write_to -- their concatenation is what render() shows, c05_paths_agree --, each handed to write_str in
   order; the first fmt::Error is returned and nothing more is written *)
Theorem c05_translated_fmt_to_any_sink :
  forall s bufs f, rn_write_to s = Some bufs -> gr_style_fmt_to s f = Some (wr_bufs rn_fw_write_str f bufs).
Proof. exact translated_fmt_to_any_sink. Qed.

(* impl Display for Style, both branches of `f.alternate()` *)
Theorem c05_translated_style_fmt_is_model :
  forall s f, gr_style_fmt s (mkRnFmtr f []) = ok_fmt (rn_style_fmt s f).
Proof. exact gr_style_fmt_eq. Qed.

(* format!("{:<flags>}", style): the hand model's [rn_display], the subject of c05_flags_irrelevant / c05_display_forms *)
Theorem c05_translated_display_is_model :
  forall alternate flags s, gr_format alternate flags (gr_style_fmt s) = rn_display alternate flags s.
Proof. exact translated_display_is_model. Qed.

(* format!("{:<flags>}", style.render()): StyleDisplay::fmt on what Style::render returns *)
Theorem c05_translated_render_is_model :
  forall alternate flags s,
  gr_format alternate flags (gr_style_display_fmt (gr_style_render s)) = rn_display_render alternate flags s.
Proof. exact translated_render_is_model. Qed.

(* style.render().to_string() is [rn_render_style], the subject of the round-trip theorems above *)
Theorem c05_translated_render_style_is_model :
  forall s, gr_render_style s = rn_render_style s.
Proof. exact translated_render_style_is_model. Qed.

(* style.render_reset(): the text of the NullFormatter, and its Display *)
Theorem c05_translated_render_reset_is_model :
  forall s, gr_style_render_reset s = rn_render_reset s.
Proof. exact gr_style_render_reset_eq. Qed.

Theorem c05_translated_render_reset_display_is_model :
  forall alternate flags s,
  gr_format alternate flags (fun f => Some (gr_null_fmt (gr_style_render_reset s) f)) = rn_display_reset_of alternate flags s.
Proof. exact translated_render_reset_is_model. Qed.

(* Effects::render, Color::render_fg / render_bg, AnsiColor::render_fg / render_bg, Reset *)
Theorem c05_translated_displays_are_model :
  forall alternate flags,
  (forall e, gr_format alternate flags (gr_effects_fmt (g_eff_render e)) = rn_display_effects alternate flags e) /\
  (forall c, gr_format alternate flags (fun f => d <- gr_color_render_fg (rn_color_view_of c) ;; gr_dbuf_fmt d f)
             = rn_display_color_fg alternate flags c) /\
  (forall c, gr_format alternate flags (fun f => d <- gr_color_render_bg (rn_color_view_of c) ;; gr_dbuf_fmt d f)
             = rn_display_color_bg alternate flags c) /\
  (forall a, gr_format alternate flags (fun f => nf <- gr_ansi_render_fg a ;; Some (gr_null_fmt nf f))
             = rn_display_ansi_fg alternate flags a) /\
  (forall a, gr_format alternate flags (fun f => nf <- gr_ansi_render_bg a ;; Some (gr_null_fmt nf f))
             = rn_display_ansi_bg alternate flags a) /\
  gr_format alternate flags (fun f => Some (gr_reset_fmt (gr_reset_render tt) f)) = rn_display_reset alternate flags.
Proof. exact translated_displays_are_model. Qed.

(* Ansi256Color / RgbColor::render_fg / render_bg *)
Theorem c05_translated_color_renders_are_buffers :
  (forall n, gr_shown (gr_a256_render_fg n) = rn_ansi256_fg_buffer n) /\
  (forall n, gr_shown (gr_a256_render_bg n) = rn_ansi256_bg_buffer n) /\
  (forall r g b, gr_shown (gr_rgb_render_fg (r, g, b)) = rn_rgb_fg_buffer r g b) /\
  (forall r g b, gr_shown (gr_rgb_render_bg (r, g, b)) = rn_rgb_bg_buffer r g b).
Proof. exact translated_color_renders_are_buffers. Qed.

(* hence the round trip holds of the translated code: what `style.render().to_string()` gives is SGR sequences
   only, and a terminal that interprets them ends in the style *)
Theorem c05_translated_render_roundtrip :
  forall s, rn_wf (rn_sstyle s) -> rn_at_most_one_underline_kind (rn_sstyle s) ->
  exists bs, gr_render_style s = Some bs /\
             spec_events bs = map rn_sgr (rn_groups_of (rn_sstyle s)) /\
             rn_interp_style (spec_events bs) style_default = rn_norm (rn_sstyle s).
Proof. exact translated_render_roundtrip. Qed.

Theorem c05_translated_display_forms :
  forall flags s,
  gr_format false flags (gr_style_fmt s) = gr_render_style s /\
  gr_format true flags (gr_style_fmt s) = Some (gr_style_render_reset s).
Proof. exact translated_display_forms. Qed.

(* Style::write_to on ANY writer (short writes, Interrupted, errors): the hand model's buffers, in order, each
   with write_all; the first error is returned and nothing more is written *)
Theorem c05_translated_write_to_is_model :
  forall s bufs w, rn_write_to s = Some bufs -> gr_style_write_to s w = Some (wr_bufs w_write_all w bufs).
Proof. exact translated_write_to_is_model. Qed.

(* on a writer that never fails: equal to the hand model, a panic included *)
Theorem c05_translated_write_to_accept_all :
  forall s w, w_script w = [] -> gr_style_write_to s w = option_map (wr_bufs w_write_all w) (rn_write_to s).
Proof. exact translated_write_to_accept_all. Qed.

(* ... and such a writer has then received the bytes `render()` shows *)
Theorem c05_translated_write_to_bytes :
  forall s bs, rn_render_style s = Some bs ->
  exists w, gr_style_write_to s (writer_of []) = Some (w, inl tt) /\ w_received w = bs.
Proof. exact translated_write_to_bytes. Qed.

Theorem c05_translated_write_reset_to_is_model :
  forall s w, gr_style_write_reset_to s w = Some (wr_bufs w_write_all w (rn_write_reset_to s)).
Proof. exact translated_write_reset_to_is_model. Qed.

(* the From impls of color.rs and `on` / `on_default` (values of Style: Model/Style.v) *)
Theorem c05_translated_color_from_is_model :
  (forall a, rn_color_of_view (gr_color_from_ansi a) = CoAnsi a) /\
  (forall n, rn_color_of_view (gr_color_from_a256 n) = CoAnsi256 n) /\
  (forall r g b, rn_color_of_view (gr_color_from_rgb (r, g, b)) = CoRgb r g b) /\
  (forall n, rn_color_of_view (gr_color_from_u8 n) = CoAnsi256 n) /\
  (forall r g b, rn_color_of_view (gr_color_from_tuple (r, g, b)) = CoRgb r g b) /\
  (forall n, gr_a256_from_u8 n = n) /\
  (forall r g b, gr_rgb_from_tuple (r, g, b) = (r, g, b)).
Proof. exact translated_color_from_is_model. Qed.

Theorem c05_translated_on_is_model :
  (forall c b, gr_color_on (rn_color_view_of c) (rn_color_view_of b) = st_on c b) /\
  (forall a b, gr_ansi_on a (rn_color_view_of b) = st_on (CoAnsi a) b) /\
  (forall n b, gr_a256_on n (rn_color_view_of b) = st_on (CoAnsi256 n) b) /\
  (forall r g bl b, gr_rgb_on (r, g, bl) (rn_color_view_of b) = st_on (CoRgb r g bl) b) /\
  (forall c, gr_color_on_default (rn_color_view_of c) = st_on_default c) /\
  (forall a, gr_ansi_on_default a = st_on_default (CoAnsi a)) /\
  (forall n, gr_a256_on_default n = st_on_default (CoAnsi256 n)) /\
  (forall r g bl, gr_rgb_on_default (r, g, bl) = st_on_default (CoRgb r g bl)).
Proof. exact translated_on_is_model. Qed.
