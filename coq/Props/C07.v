(* C07: styled-run extraction follows standard SGR semantics.  Only statements, each
   closed by [exact] (the example c07_example by evaluation). *)
From Coq Require Import NArith List Bool.
From AV Require Import Generated.Table Spec.Vt Spec.Sgr Model.Base Model.Parser Model.Wincon
  Proofs.TableFacts Proofs.WinconSgr Proofs.WinconRuns Proofs.WinconSpecRuns Generated.WinconFn Proofs.WinconGen.
Import ListNotations.
Local Open Scope N_scope.

(* for every rendition state and every list of attribute groups of the grammar G
   (single codes, 4:n, 38/48/58 in the ';' and ':' spellings, components <= 255),
   under the underline-interaction hypothesis, the adapter's decoder computes
   exactly what a conforming terminal does (Spec/Sgr.sgr_apply) and never panics *)
Theorem c07_dispatch_is_sgr :
  forall items s,
  Forall (fun i => item_in_G i = true) items -> ul_simple s items ->
  sgr_dispatch s (groups_of items) = Some (sgr_apply s (groups_of items)).
Proof. exact dispatch_is_sgr. Qed.

(* attributes combined in one sequence = the same attributes sent in separate sequences *)
Theorem c07_combined_eq_separate :
  forall a b s,
  Forall (fun i => item_in_G i = true) a -> Forall (fun i => item_in_G i = true) b -> ul_simple s (a ++ b) ->
  sgr_dispatch s (groups_of (a ++ b)) =
  match sgr_dispatch s (groups_of a) with
  | Some s1 => sgr_dispatch s1 (groups_of b)
  | None => None
  end.
Proof. exact combined_eq_separate. Qed.

(* from 108 up the decoder agrees with the specification's sgr_code, whose last arm
   leaves the style alone (codes without a representation in the style type; the
   codes below 108 are covered case by case in c07_dispatch_is_sgr) *)
Theorem c07_unknown_codes_inert :
  forall s r g t c, 108 <= c -> code_goal s r g t c.
Proof. exact code_large. Qed.

(* non-vacuity: a sequence mixing all forms, applied to a style that already has a
   curly underline *)
Theorem c07_example :
  sgr_dispatch (mkStyle None None None 32)
    (groups_of [GCode 1; GUl 3; GIdx false 38 9; GRgb true 48 1 2 3; GCode 0; GCode 21; GCode 93; GIdx true 58 200])
  = Some (mkStyle (Some (CAnsi 11)) None (Some (CIdx 200)) 16).
Proof. vm_compute. reflexivity. Qed.

(* finite fact used by C02's simulation (Proofs/ParserSim.v) behind the runs theorems:
   the generated table is the by-range VT model (complete enumeration of states x 256 bytes) *)
Theorem c07_table_is_williams :
  forall s b, b < 256 -> trans_matches s b = true.
Proof. exact table_is_williams. Qed.

(* [sgr_events_ok s es] (Proofs/WinconSpecRuns), inductively along the
   interpretation: every event `ECsi ps [] false 'm'` met in rendition state [s] has
   [ps = groups_of items] with every item in G and [ul_simple s items], and the rest
   is ok in [sgr_apply s ps]; every other event (print, execute, CSI with
   intermediates / ignore flag / another final byte, OSC, ESC, DCS) is unconstrained.

   For every input (bytes < 256, ANY byte string: malformed UTF-8 included) whose SGR
   events are in the grammar, extract_next never panics and its merged runs are
   exactly the specification's runs: the visible text in order (printed code points
   and TAB / LF / FF / CR), each character tagged with the rendition in effect,
   grouped into maximal runs; the rendition persists across sequences.  With
   c03_wincon_chunked the same holds across calls.  Full strength. *)
Theorem c07_runs_are_spec :
  forall input,
  Forall (fun b => b < 256) input -> sgr_events_ok style_default (spec_events input) ->
  exists its p c,
    extract_next input parser_new capture_default = Some (its, p, c) /\
    merge_runs its = spec_runs input.
Proof. exact runs_are_spec. Qed.

(* the character-level statement it comes from: on such event streams the tagging
   computed by the capture is the specification's interpretation *)
Theorem c07_tagging_is_interp :
  forall es s, Forall ev_ok es -> sgr_events_ok s es ->
  tags s es = fst (interp s es) /\ style_after s es = snd (interp s es).
Proof. exact tags_interp. Qed.

(* [ev_ok] holds of every event of the specification parser: printed code points
   are >= 0x20 and an Execute of 0x20 never occurs (so is_ascii_whitespace and the
   specification's TAB / LF / FF / CR test agree on executes) *)
Theorem c07_spec_events_ok :
  forall bs, Forall (fun b => b < 256) bs -> Forall ev_ok (spec_events bs).
Proof. exact spec_events_ok. Qed.

(* every event that is not a plain SGR dispatch leaves the style alone, in the
   adapter and in the specification alike *)
Theorem c07_non_sgr_inert :
  forall s e, (forall ps, e <> ECsi ps [] false 109) ->
  cap_style_step s e = s /\ event_style s e = s.
Proof. exact non_sgr_inert. Qed.

(* non-vacuity: "a ESC[1;31m b ESC[38;5;9m TAB ESC[?25h c ESC[0m d" -- the hypothesis
   holds and the runs are as expected *)
Theorem c07_example_runs :
  sgr_events_ok style_default
    (spec_events [97; 27; 91; 49; 59; 51; 49; 109; 98; 27; 91; 51; 56; 59; 53; 59; 57; 109; 9;
                  27; 91; 63; 50; 53; 104; 99; 27; 91; 48; 109; 100]) /\
  spec_runs [97; 27; 91; 49; 59; 51; 49; 109; 98; 27; 91; 51; 56; 59; 53; 59; 57; 109; 9;
             27; 91; 63; 50; 53; 104; 99; 27; 91; 48; 109; 100]
  = [(style_default, [97]); (mkStyle (Some (CAnsi 1)) None None 1, [98]);
     (mkStyle (Some (CIdx 9)) None None 1, [9; 99]); (style_default, [100])].
Proof. exact example_runs. Qed.

(* Generated/WinconFn.v is written on every run by tools/gen_fn_wincon.py (tools/rs2v) from the
   Rust sources of WinconCapture::{reset, print, execute, csi_dispatch}, to_ansi_color,
   next_bytes (crates/anstream/src/adapter/wincon.rs) and AnsiColor::bright
   (crates/anstyle/src/color.rs).  The translated csi_dispatch -- nested loops, decoder state,
   every `break` -- computes what the hand model's capture_event computes on the event, panics
   included; its style component is sgr_dispatch, the subject of the theorems above. *)
Theorem c07_translated_csi_dispatch_is_model :
  forall cap ps ints ign action,
  g_cap_csi_dispatch cap ps ints ign action = capture_event cap (ECsi ps ints ign action).
Proof. exact g_cap_csi_dispatch_eq. Qed.

Theorem c07_translated_csi_dispatch_style :
  forall cap ps,
  option_map c_style (g_cap_csi_dispatch cap ps [] false 109) = sgr_dispatch (c_style cap) ps.
Proof. exact translated_csi_dispatch_style. Qed.

(* every event of the parser reaches the translated callback (the Perform plumbing is
   hand-written from the token-pinned trait) *)
Theorem c07_translated_perform_is_model :
  forall c e, g_perform c e = capture_event c e.
Proof. exact g_perform_eq. Qed.

(* the translated next_bytes (over the translated parser, Generated/ParserFn.g_advance), iterated
   as WinconBytesIter does, is the hand model's extract_next *)
Theorem c07_translated_extract_next_is_model :
  forall bs p c, g_extract_next bs p c = extract_next bs p c.
Proof. exact translated_extract_next_is_model. Qed.

(* hence c07_runs_are_spec is a statement about the translated code *)
Theorem c07_translated_runs_are_spec :
  forall input,
  Forall (fun b => b < 256) input -> sgr_events_ok style_default (spec_events input) ->
  exists its p c,
    g_extract_next input parser_new capture_default = Some (its, p, c) /\
    merge_runs its = spec_runs input.
Proof. exact translated_runs_are_spec. Qed.
