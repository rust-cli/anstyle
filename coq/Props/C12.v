(* C12: the LS_COLORS parser applies SGR codes left to right.  Only statements, each closed by
   [exact] of a theorem of Proofs/.
   [ls_parse] is the hand model of anstyle_ls::parse over the UTF-8 bytes of the
   input (outer option: None = panic; inner option: the crate's Option<Style>);
   [sgr_codes], [well_formed], [print_codes], [strict_u8], [spec_ls] are the
   independent specification (Spec/SgrCodes.v). *)
From Coq Require Import NArith List Bool.
From AV Require Import Spec.StyleRec Spec.SgrCodes Model.Ls Proofs.LsParse Generated.LsFn Proofs.LsGen.
Import ListNotations.
Local Open Scope N_scope.

(* every non-empty list of codes <= 255 whose 38/48/58 forms are complete, of any
   length, each code printed in decimal with any number [z] of leading zeros and
   joined by ';': the parser returns the left-to-right SGR fold from the default
   style -- or "no style" exactly when the printed string is "0" or "00" *)
Theorem c12_ls_is_fold : forall fields : list (nat * N),
  fields <> [] ->
  Forall (fun zc => snd zc <= 255) fields ->
  well_formed (map snd fields) = true ->
  ls_parse (print_codes fields) =
  if no_style_string (print_codes fields) then Some None
  else Some (Some (sgr_codes t_default (map snd fields))).
Proof. exact ls_is_fold. Qed.

Theorem c12_ls_none :
  ls_parse [] = Some None /\ ls_parse [48] = Some None /\ ls_parse [48; 48] = Some None.
Proof. exact ls_none. Qed.

(* an empty field, a field with a non-digit character, or a field whose value is
   above 255, anywhere in the ';'-separated list, makes the parser return None.
   ([open_field f]: f is '+' followed by a number in 0-255 -- accepted by Rust's
   parse::<u8>, left open by the statement.) *)
Theorem c12_ls_rejects : forall (fs : list (list N)) (f : list N),
  In f fs -> (forall g, In g fs -> ~ In SEMI g) ->
  (f = [] \/ (exists c, In c f /\ is_digit c = false) \/ (forallb is_digit f = true /\ 255 < dec_value f)) ->
  open_field f = false ->
  ls_parse (join SEMI fs) = Some None.
Proof. exact ls_rejects_explicit. Qed.

Theorem c12_ls_no_panic : forall s : list N, ls_parse s <> None.
Proof. exact ls_no_panic. Qed.

(* all of the above at once, for every input string: wherever the statement
   decides the answer, the parser gives it *)
Theorem c12_ls_model_is_spec : forall s : list N,
  spec_ls s <> LsOpen ->
  ls_parse s = Some (match spec_ls s with LsStyle st => Some st | _ => None end).
Proof. exact ls_model_is_spec. Qed.

(* Generated/LsFn.v is written on every run by tools/gen_fn_text.py (tools/rs2v) from the Rust
   source of anstyle_ls::parse -- the early return, split(';') / parse::<u8> / collect::<Option<_>>,
   the `while let Some(part) = parts.pop_front()` loop with every arm, the look-ahead pop_fronts
   and breaks, the final Style -- and computes, on every input, exactly what the hand model (the
   subject of every theorem above) computes; None = panic included. *)
Theorem c12_translated_parse_is_model : forall s : list N, g_ls_parse s = ls_parse s.
Proof. exact g_ls_parse_eq. Qed.

(* hence the translated code satisfies the specification wherever it decides *)
Theorem c12_translated_parse_is_spec : forall s : list N,
  spec_ls s <> LsOpen ->
  g_ls_parse s = Some (match spec_ls s with LsStyle st => Some st | _ => None end).
Proof. intros s H. rewrite g_ls_parse_eq. exact (ls_model_is_spec s H). Qed.
