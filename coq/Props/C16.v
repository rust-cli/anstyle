(* C16: conversions to other styling crates preserve colours and effects.  Only
   statements, each closed by [exact].

   [sstyle] (Spec/Sgr) is an anstyle::Style: three optional colours
   ([CAnsi i], i < 16, bright = i >= 8; [CIdx n]; [CRgb r g b]) and the effect bit
   set.  [ad_src_ok s]: the 16-colour values are < 16 and the effect set is one of
   the 4096.  [ad_to_<lib> s] (Model/Adapters, driven by the translated tables of
   Generated/Adapters) is the target value the adapter builds: colour constructors
   and attribute calls by NAME.  Spec/Targets gives those names their meaning, per
   library, from the library's documentation ([ad_slot_meaning], [ad_attrs_meaning],
   [ad_meaning]; every table entry is validated against the real library's
   rendering by the correspondence run) and defines what the property expects:
   [ad_project l s] keeps the hue always, the brightness where named colours have
   one (crossterm, owo-colors, yansi), indexed / RGB values exactly, the underline
   colour where there is one (crossterm) and exactly the effects the target has a
   constructor for ([ad_expressible l], spelled out in c16_expressible_effects).
   From [c16_rendered_*] on: the library's own rendering code, one section per
   library. *)
From Coq Require Import NArith List Bool.
From AV Require Import Generated.Adapters Spec.Sgr Spec.Targets Model.Adapters Proofs.Adapters.
From AV Require Import Model.Base Generated.AdaptersFn Proofs.AdaptersGen Proofs.AdaptersGenSpec.
Import ListNotations.
Local Open Scope N_scope.

(* the eight base hues are never altered *)

Theorem c16_hue_preserved_ansi_term : forall s, ad_src_ok s ->
  ad_hue_kept AdAnsiTerm (s_fg s) (ad_t_fg (ad_to_ansi_term s)) /\
  ad_hue_kept AdAnsiTerm (s_bg s) (ad_t_bg (ad_to_ansi_term s)).
Proof. exact (ad_hue_all AdAnsiTerm). Qed.

Theorem c16_hue_preserved_crossterm : forall s, ad_src_ok s ->
  ad_hue_kept AdCrossterm (s_fg s) (ad_t_fg (ad_to_crossterm s)) /\
  ad_hue_kept AdCrossterm (s_bg s) (ad_t_bg (ad_to_crossterm s)) /\
  ad_hue_kept AdCrossterm (s_ul s) (ad_t_ul (ad_to_crossterm s)).
Proof. exact ad_hue_crossterm. Qed.

Theorem c16_hue_preserved_owo_colors : forall s, ad_src_ok s ->
  ad_hue_kept AdOwo (s_fg s) (ad_t_fg (ad_to_owo s)) /\
  ad_hue_kept AdOwo (s_bg s) (ad_t_bg (ad_to_owo s)).
Proof. exact (ad_hue_all AdOwo). Qed.

Theorem c16_hue_preserved_termcolor : forall s, ad_src_ok s ->
  ad_hue_kept AdTermcolor (s_fg s) (ad_t_fg (ad_to_termcolor s)) /\
  ad_hue_kept AdTermcolor (s_bg s) (ad_t_bg (ad_to_termcolor s)).
Proof. exact (ad_hue_all AdTermcolor). Qed.

Theorem c16_hue_preserved_yansi : forall s, ad_src_ok s ->
  ad_hue_kept AdYansi (s_fg s) (ad_t_fg (ad_to_yansi s)) /\
  ad_hue_kept AdYansi (s_bg s) (ad_t_bg (ad_to_yansi s)).
Proof. exact (ad_hue_all AdYansi). Qed.

(* brightness is kept wherever the target can express it *)

Theorem c16_brightness_preserved_crossterm : forall s, ad_src_ok s ->
  ad_brightness_kept AdCrossterm (s_fg s) (ad_t_fg (ad_to_crossterm s)) /\
  ad_brightness_kept AdCrossterm (s_bg s) (ad_t_bg (ad_to_crossterm s)) /\
  ad_brightness_kept AdCrossterm (s_ul s) (ad_t_ul (ad_to_crossterm s)).
Proof. exact ad_bright_crossterm. Qed.

Theorem c16_brightness_preserved_owo_colors : forall s, ad_src_ok s ->
  ad_brightness_kept AdOwo (s_fg s) (ad_t_fg (ad_to_owo s)) /\
  ad_brightness_kept AdOwo (s_bg s) (ad_t_bg (ad_to_owo s)).
Proof. exact (ad_bright_all AdOwo eq_refl). Qed.

Theorem c16_brightness_preserved_yansi : forall s, ad_src_ok s ->
  ad_brightness_kept AdYansi (s_fg s) (ad_t_fg (ad_to_yansi s)) /\
  ad_brightness_kept AdYansi (s_bg s) (ad_t_bg (ad_to_yansi s)).
Proof. exact (ad_bright_all AdYansi eq_refl). Qed.

(* ansi_term's named colours have no brightness: a bright FOREGROUND additionally
   switches bold on (bold is on iff BOLD is set or the foreground is bright), every
   other effect is exactly the source's (as far as expressible), and both colours are
   shown with normal intensity -- background brightness is dropped *)
Theorem c16_ansi_term_bright_is_bold : forall s, ad_src_ok s ->
  exists m, ad_attrs_meaning AdAnsiTerm (ad_t_attrs (ad_to_ansi_term s)) = Some m /\
    N.testbit m BOLD = (N.testbit (s_eff s) BOLD || ad_is_bright (s_fg s)) /\
    N.ldiff m (bit BOLD) = N.land (N.ldiff (s_eff s) (bit BOLD)) (ad_expressible AdAnsiTerm) /\
    (forall i, s_fg s = Some (CAnsi i) ->
       ad_slot_meaning AdAnsiTerm (ad_t_fg (ad_to_ansi_term s)) = Some (Some (CAnsi (i mod 8)))) /\
    (forall i, s_bg s = Some (CAnsi i) ->
       ad_slot_meaning AdAnsiTerm (ad_t_bg (ad_to_ansi_term s)) = Some (Some (CAnsi (i mod 8)))).
Proof. exact ad_ansi_term_bright_is_bold. Qed.

(* indexed and RGB colours keep their exact values (any n, any r g b) *)

Theorem c16_indexed_rgb_exact_ansi_term : forall s,
  ad_exact_kept AdAnsiTerm (s_fg s) (ad_t_fg (ad_to_ansi_term s)) /\
  ad_exact_kept AdAnsiTerm (s_bg s) (ad_t_bg (ad_to_ansi_term s)).
Proof. exact (ad_exact_all AdAnsiTerm). Qed.

Theorem c16_indexed_rgb_exact_crossterm : forall s,
  ad_exact_kept AdCrossterm (s_fg s) (ad_t_fg (ad_to_crossterm s)) /\
  ad_exact_kept AdCrossterm (s_bg s) (ad_t_bg (ad_to_crossterm s)) /\
  ad_exact_kept AdCrossterm (s_ul s) (ad_t_ul (ad_to_crossterm s)).
Proof. exact ad_exact_crossterm. Qed.

Theorem c16_indexed_rgb_exact_owo_colors : forall s,
  ad_exact_kept AdOwo (s_fg s) (ad_t_fg (ad_to_owo s)) /\
  ad_exact_kept AdOwo (s_bg s) (ad_t_bg (ad_to_owo s)).
Proof. exact (ad_exact_all AdOwo). Qed.

Theorem c16_indexed_rgb_exact_termcolor : forall s,
  ad_exact_kept AdTermcolor (s_fg s) (ad_t_fg (ad_to_termcolor s)) /\
  ad_exact_kept AdTermcolor (s_bg s) (ad_t_bg (ad_to_termcolor s)).
Proof. exact (ad_exact_all AdTermcolor). Qed.

Theorem c16_indexed_rgb_exact_yansi : forall s,
  ad_exact_kept AdYansi (s_fg s) (ad_t_fg (ad_to_yansi s)) /\
  ad_exact_kept AdYansi (s_bg s) (ad_t_bg (ad_to_yansi s)).
Proof. exact (ad_exact_all AdYansi). Qed.

(* the constructors the adapters use for them are the libraries' indexed / RGB ones *)
Theorem c16_indexed_rgb_constructors :
  (ad_gen_ansi_term_fixed = ad_fixed_ctor AdAnsiTerm /\ ad_gen_ansi_term_rgb = ad_rgb_ctor AdAnsiTerm) /\
  (ad_gen_crossterm_fixed = ad_fixed_ctor AdCrossterm /\ ad_gen_crossterm_rgb = ad_rgb_ctor AdCrossterm) /\
  (ad_gen_owo_fixed = ad_fixed_ctor AdOwo /\ ad_gen_owo_rgb = ad_rgb_ctor AdOwo) /\
  (ad_gen_termcolor_fixed = ad_fixed_ctor AdTermcolor /\ ad_gen_termcolor_rgb = ad_rgb_ctor AdTermcolor) /\
  (ad_gen_yansi_fixed = ad_fixed_ctor AdYansi /\ ad_gen_yansi_rgb = ad_rgb_ctor AdYansi).
Proof. exact ad_indexed_rgb_ctors. Qed.

(* the same effects, for every attribute the target can express:
   [ad_project_effects l s] = s_eff s restricted to [ad_expressible l] (for
   ansi_term: plus bold when the foreground is bright, see above) *)

Theorem c16_effects_preserved_ansi_term : forall s, ad_src_ok s ->
  ad_attrs_meaning AdAnsiTerm (ad_t_attrs (ad_to_ansi_term s)) = Some (ad_project_effects AdAnsiTerm s).
Proof. exact ad_effects_ansi_term. Qed.

Theorem c16_effects_preserved_crossterm : forall s, ad_src_ok s ->
  ad_attrs_meaning AdCrossterm (ad_t_attrs (ad_to_crossterm s)) = Some (ad_project_effects AdCrossterm s).
Proof. exact (ad_effects_all AdCrossterm). Qed.

Theorem c16_effects_preserved_owo_colors : forall s, ad_src_ok s ->
  ad_attrs_meaning AdOwo (ad_t_attrs (ad_to_owo s)) = Some (ad_project_effects AdOwo s).
Proof. exact (ad_effects_all AdOwo). Qed.

Theorem c16_effects_preserved_termcolor : forall s, ad_src_ok s ->
  ad_attrs_meaning AdTermcolor (ad_t_attrs (ad_to_termcolor s)) = Some (ad_project_effects AdTermcolor s).
Proof. exact (ad_effects_all AdTermcolor). Qed.

Theorem c16_effects_preserved_yansi : forall s, ad_src_ok s ->
  ad_attrs_meaning AdYansi (ad_t_attrs (ad_to_yansi s)) = Some (ad_project_effects AdYansi s).
Proof. exact (ad_effects_all AdYansi). Qed.

(* which effects that is, as bit sets over BOLD=bit 0 .. STRIKETHROUGH=bit 11:
   3855 = all but the four extra underline kinds, 4095 = all twelve, 15 = bold,
   dimmed, italic, underline *)
Theorem c16_expressible_effects :
  ad_expressible AdAnsiTerm = 3855 /\ ad_expressible AdCrossterm = 4095 /\ ad_expressible AdOwo = 3855 /\
  ad_expressible AdTermcolor = 15 /\ ad_expressible AdYansi = 3855.
Proof. exact ad_expressible_values. Qed.

Theorem c16_style_meaning : forall l s, ad_src_ok s ->
  ad_meaning l (ad_convert l s) = Some (ad_project l s).
Proof. exact ad_convert_meaning. Qed.

(* syntect -> anstyle keeps the RGB colours and bold / italic / underline;
   a syntect colour is (r, g, b, alpha); FontStyle bits: BOLD = 1, UNDERLINE = 2,
   ITALIC = 4 (bit positions 0, 1, 2) *)
Theorem c16_syntect_keeps : forall r g b a r' g' b' a' font, font < 256 ->
  let s := ad_from_syntect (r, g, b, a) (r', g', b', a') font in
  s = ad_syntect_expected (r, g, b, a) (r', g', b', a') font /\
  s_fg s = Some (CRgb r g b) /\ s_bg s = Some (CRgb r' g' b') /\ s_ul s = None /\
  N.testbit (s_eff s) BOLD = N.testbit font 0 /\
  N.testbit (s_eff s) UNDERLINE = N.testbit font 1 /\
  N.testbit (s_eff s) ITALIC = N.testbit font 2 /\
  N.ldiff (s_eff s) (N.lor (bit BOLD) (N.lor (bit UNDERLINE) (bit ITALIC))) = 0.
Proof. exact ad_syntect_keeps. Qed.

(* The translated code (tools/gen_fn_adapters.py -> Generated/AdaptersFn.v):
   [g_to_ansi_term], [g_to_crossterm], [g_to_owo_style], [g_to_termcolor_spec], [g_to_yansi_style]
   ([g_convert l] by library) and [g_syn_to_anstyle] are the Rust functions of the six conversion
   crates translated by tools/rs2v on every run: which effect switches which attribute on, in which
   order, under which condition, which colour goes to which slot.  [Some t] = the function returns
   t, [None] = it would panic.  The third-party builder methods they call are the vocabulary at the
   end of Model/Adapters.v (a target style = the colour constructors chosen and the attribute calls
   made, by name, in call order). *)

(* every translated adapter IS the hand model the theorems above are about *)
Theorem c16_translated_ansi_term_is_model : forall s, ad_src_ok s ->
  g_to_ansi_term s = Some (ad_to_ansi_term s).
Proof. exact g_to_ansi_term_eq. Qed.

Theorem c16_translated_crossterm_is_model : forall s, ad_src_ok s ->
  g_to_crossterm s = Some (ad_to_crossterm s).
Proof. exact g_to_crossterm_eq. Qed.

Theorem c16_translated_owo_colors_is_model : forall s, ad_src_ok s ->
  g_to_owo_style s = Some (ad_to_owo s).
Proof. exact g_to_owo_style_eq. Qed.

Theorem c16_translated_termcolor_is_model : forall s, ad_src_ok s ->
  g_to_termcolor_spec s = Some (ad_to_termcolor s).
Proof. exact g_to_termcolor_spec_eq. Qed.

Theorem c16_translated_yansi_is_model : forall s, ad_src_ok s ->
  g_to_yansi_style s = Some (ad_to_yansi s).
Proof. exact g_to_yansi_style_eq. Qed.

Theorem c16_translated_syntect_is_model : forall fg bg font,
  g_syn_to_anstyle (mkAdSyn fg bg font) = Some (ad_from_syntect fg bg font).
Proof. exact g_syn_to_anstyle_eq. Qed.

Theorem c16_translated_adapters_are_model :
  (forall l s, ad_src_ok s -> g_convert l s = Some (ad_convert l s)) /\
  (forall fg bg font, g_syn_to_anstyle (mkAdSyn fg bg font) = Some (ad_from_syntect fg bg font)).
Proof. exact translated_adapters_are_model. Qed.

(* the colour functions as translated (16-way match, indexed, RGB), per crate *)
Theorem c16_translated_colours_are_model : forall c, ad_colour_ok (Some c) ->
  g_at_to_ansi_color (ad_color_of c) = Some (ad_at_colour c) /\
  g_ct_to_ansi_color (ad_color_of c) = Some (ad_conv_colour ad_gen_crossterm_colors c) /\
  g_to_owo_colors (ad_color_of c) = Some (ad_conv_colour ad_gen_owo_colors c) /\
  g_to_termcolor_color (ad_color_of c) = Some (ad_conv_colour ad_gen_termcolor_colors c) /\
  g_to_yansi_color (ad_color_of c) = Some (ad_conv_colour ad_gen_yansi_colors c).
Proof. exact translated_colours_are_model. Qed.

(* hence the property for the translated code: no panic, and the style built means the projection
   of the source style onto what the library can express *)
Theorem c16_translated_style_meaning : forall l s, ad_src_ok s ->
  (t <- g_convert l s ;; ad_meaning l t) = Some (ad_project l s).
Proof. exact translated_convert_meaning. Qed.

Theorem c16_translated_syntect_keeps : forall r g b a r' g' b' a' font, font < 256 ->
  g_syn_to_anstyle (mkAdSyn (r, g, b, a) (r', g', b', a') font) =
  Some (ad_syntect_expected (r, g, b, a) (r', g', b', a') font).
Proof. exact translated_syntect_expected. Qed.

(* The rendering by yansi itself (tools/gen_fn_yansi.py -> Generated/YansiFn.v):
   [g_yansi_render o en st] is `yansi::enable(); "x".paint(st).to_string()` -- what the C16 harness runs -- with
   Style::fmt_prefix / fmt_suffix, Color::fmt, Attribute::fmt, Set / Iter, Painted's Display translated by tools/rs2v on
   every run from the source of the yansi version Cargo.lock pins ([Some bytes] = it returns, [None] = it panics; [en] =
   what the global switch held before, [o] = an oracle for the two Quirk::Wrap paths, which are not translated: every
   theorem holds for every [en] and [o]).  [ya_style] (Model/YansiRender.v) is yansi::Style field for field;
   [ya_style_ok]: the u8 payloads are bytes and the attribute set is one of the 512; [ya_plain]: no quirk, no condition.
   [ad_interp_x] (Spec/Targets.v) reads the bytes with the terminal model of C05 / C07 (Spec/Vt + Spec/Sgr) from the
   default rendition and answers the rendition of the "x". *)
From AV Require Import Model.YansiRender Generated.YansiFn Proofs.YansiFnGen Proofs.YansiFnAdapter.

(* the translated rendering is the hand rendering (no panic), for any text, as long as Quirk::Wrap is not set *)
Theorem c16_rendered_yansi_translation_is_hand_rendering : forall o en text st,
  ya_attrs st < 512 -> ya_has (ya_quirks st) YaWrap = false ->
  g_yansi_render_text o en text st = Some (ya_render_bytes text st).
Proof. exact g_yansi_render_text_eq. Qed.

(* for EVERY quirk-free yansi::Style: no panic, and the terminal shows the "x" in exactly the meaning of the value
   (named colour -> its ANSI colour, Primary -> default, Fixed n -> CIdx n, Rgb exactly; every attribute its effect) *)
Theorem c16_rendered_yansi_interprets_to_meaning : forall o en st, ya_style_ok st -> ya_plain st ->
  exists bytes, g_yansi_render o en st = Some bytes /\ ad_interp_x bytes = Some (ya_meaning st).
Proof. exact yansi_render_is_meaning. Qed.

(* the names Spec/Targets.v lists for yansi are the names yansi's source defines (builder methods of
   define_properties!, constructors of enum Color), with the same meaning *)
Theorem c16_rendered_yansi_names_agree :
  forallb (fun p => match ad_assoc (fst p) ad_yansi_attrs with Some k => k =? ya_attr_effect (snd p) | None => false end)
          g_ya_attr_builders = true /\
  forallb (fun p => match ad_assoc (fst p) g_ya_attr_builders with Some _ => true | None => false end) ad_yansi_attrs = true /\
  forallb (fun p => match ad_assoc (fst p) ad_yansi_colours with
                    | Some m => opt_colour_eqb m (ya_colour_meaning (snd p)) | None => false end) g_ya_color_ctors = true /\
  forallb (fun p => match ad_assoc (fst p) g_ya_color_ctors with Some _ => true | None => false end) ad_yansi_colours = true.
Proof. exact ya_names_agree. Qed.

(* the adapter's image: what to_yansi_style builds denotes a quirk-free Style whose meaning is the projection *)
Theorem c16_rendered_yansi_convert_value : forall s, ad_src_ok s -> ya_src_u8 s ->
  exists v, ya_of_tstyle (ad_to_yansi s) = Some v /\ ya_style_ok v /\ ya_plain v /\
            ya_meaning v = ad_project AdYansi s.
Proof. exact yansi_convert_value. Qed.

(* render (convert s) interprets to project(s), both halves translated from source: anstyle_yansi::to_yansi_style,
   then yansi's rendering *)
Theorem c16_rendered_yansi_convert_render : forall o en s, ad_src_ok s -> ya_src_u8 s ->
  (t <- g_to_yansi_style s ;; v <- ya_of_tstyle t ;; bs <- g_yansi_render o en v ;; ad_interp_x bs)
  = Some (ad_project AdYansi s).
Proof. exact translated_yansi_convert_render. Qed.

(* in the vocabulary of the differential check: the bytes are a correct rendering of project(s) *)
Theorem c16_rendered_yansi_render_ok : forall o en s, ad_src_ok s -> ya_src_u8 s ->
  exists v bs, ya_of_tstyle (ad_to_yansi s) = Some v /\ g_yansi_render o en v = Some bs /\
               ad_render_ok (ad_project AdYansi s) bs = true.
Proof. exact translated_yansi_render_total. Qed.

(* the restriction to quirk-free styles is needed (outside the adapter's image): red + Quirk::Bright shows bright red *)
Theorem c16_rendered_yansi_quirk_refuted :
  exists st, ya_style_ok st /\ ya_cond st = None /\ ya_quirks st <> 0 /\
    (bs <- g_yansi_render ya_no_oracle false st ;; ad_interp_x bs) = Some (mkStyle (Some (CAnsi 9)) None None 0) /\
    ya_meaning st = mkStyle (Some (CAnsi 1)) None None 0.
Proof. exact yansi_render_quirk_refuted. Qed.

(* The rendering code of termcolor (tools/gen_fn_termcolor.py -> Generated/TermcolorFn.v):
   [g_tcr_render] is the harness's `tc::render` (termcolor::Ansi::new(Vec::new()), set_color,
   write_all(b"x"), reset, into_inner) over the library's `Ansi<W>::set_color` / `write_color` /
   `reset` and the `ColorSpec` setters, all translated by tools/rs2v on every run from the registry
   source of the termcolor version Cargo.lock pins (the one cargo links into the harness).  A
   [tc_spec] is a termcolor::ColorSpec (Model/Termcolor.v), [tcr_spec_ok]: its colour components
   are u8 and no colour is the hidden variant `__Nonexhaustive`.  [tcr_bytes sp] spells the bytes
   out, [tcr_shown sp] is the rendition ([tcr_colour]: a named colour is CAnsi hue, with
   `set_intense` the 256-palette entry 8 + hue; [tcr_eff]: bold, dimmed, italic, underline,
   strikethrough).  [tcr_spec_of t] is the ColorSpec an abstract target style denotes (names ->
   the translated `ColorSpec::new` and setters); [tcr_render_tstyle t] renders it.  [ad_interp_x]
   (Spec/Targets) is the rendition Spec/Vt + Spec/Sgr give the text, read from the terminal's
   default state.  [tcr_src_u8 s]: the indexed / RGB components of the anstyle style are u8. *)
From AV Require Import Spec.Render Model.Termcolor Generated.TermcolorFn Proofs.TermcolorFnGen.

(* every ColorSpec: the translated library code does not panic, writes [tcr_bytes sp], and a
   terminal shows the text in the rendition [tcr_shown sp] *)
Theorem c16_rendered_termcolor_every_spec : forall sp, tcr_spec_ok sp ->
  g_tcr_render sp = Some (tcr_bytes sp) /\ ad_interp_x (tcr_bytes sp) = Some (tcr_shown sp).
Proof. exact tcr_render_shown. Qed.

(* every target style the meaning tables of Spec/Targets give a meaning to is a ColorSpec (built
   by the translated constructor and setters) whose [tcr_shown] is exactly that meaning *)
Theorem c16_rendered_termcolor_table_values : forall t m, tcr_tstyle_ok t -> ad_meaning AdTermcolor t = Some m ->
  exists sp, tcr_spec_of t = Some sp /\ tcr_spec_ok sp /\ tcr_shown sp = m.
Proof. exact tcr_meaning_shown. Qed.

(* [tcr_spec_of] is the call sequence of to_termcolor_spec: the abstract value the translated
   adapter builds for ColorSpec::new(); set_fg; set_bg; set_bold(b1); set_dimmed(b2); set_italic(b3);
   set_underline(b4) denotes the ColorSpec the translated constructor and setters build in that order
   ([tcr_n_set_bold] .. are the names "set_bold" .. as byte lists) *)
Theorem c16_rendered_termcolor_value_is_call_sequence : forall cf cb f b b1 b2 b3 b4,
  tcr_ocolor_of cf = Some f -> tcr_ocolor_of cb = Some b ->
  tcr_spec_of (ad_t_flag (ad_t_flag (ad_t_flag (ad_t_flag (ad_t_set_bg (ad_t_set_fg ad_t_new cf) cb)
                 tcr_n_set_bold b1) tcr_n_set_dimmed b2) tcr_n_set_italic b3) tcr_n_set_underline b4) =
  Some (fst (g_tcr_set_underline (fst (g_tcr_set_italic (fst (g_tcr_set_dimmed (fst (g_tcr_set_bold
         (fst (g_tcr_set_bg (fst (g_tcr_set_fg g_tcr_spec_new f)) b)) b1)) b2)) b3)) b4)).
Proof. exact tcr_spec_of_call_sequence. Qed.

(* hence the library RENDERS such a value as the tables say (no normalisation needed: equal) *)
Theorem c16_rendered_termcolor_as_tables_say : forall t m, tcr_tstyle_ok t -> ad_meaning AdTermcolor t = Some m ->
  exists bytes, tcr_render_tstyle t = Some bytes /\ ad_interp_x bytes = Some m /\ ad_render_ok m bytes = true.
Proof. exact tcr_meaning_rendered. Qed.

(* render (convert s) is read as project(s): translated adapter, then translated library, then
   the terminal -- for every anstyle style with u8 components *)
Theorem c16_rendered_termcolor_convert : forall s, ad_src_ok s -> tcr_src_u8 s ->
  exists bytes, (t <- g_to_termcolor_spec s ;; tcr_render_tstyle t) = Some bytes /\
                ad_interp_x bytes = Some (ad_project AdTermcolor s) /\
                ad_render_ok (ad_project AdTermcolor s) bytes = true.
Proof. exact tcr_convert_rendered. Qed.

(* outside the adapter's image: with `set_intense` every named colour is shown as palette entry
   8 + hue (both slots at once), which the "intense off" table of Spec/Targets does not cover *)
Theorem c16_rendered_termcolor_intense : forall sp, tcr_spec_ok sp -> tcs_intense sp = true ->
  exists bytes, g_tcr_render sp = Some bytes /\
    ad_interp_x bytes = Some (mkStyle (option_map (tcr_colour true) (tcs_fg_color sp))
                                      (option_map (tcr_colour true) (tcs_bg_color sp)) None (tcr_eff sp)).
Proof. exact tcr_intense_shown. Qed.

Theorem c16_rendered_termcolor_intense_witness :
  let sp := fst (g_tcr_set_intense (fst (g_tcr_set_fg g_tcr_spec_new (Some TcRed))) true) in
  option_map (fun bs => option_map ad_norm_style (ad_interp_x bs)) (g_tcr_render sp)
  = Some (Some (mkStyle (Some (CAnsi 9)) None None 0)).
Proof. exact tcr_intense_witness. Qed.

(* the hidden variant `Color::__Nonexhaustive` makes write_color panic (unreachable!) *)
Theorem c16_rendered_termcolor_nonexhaustive_panics :
  g_tcr_render (fst (g_tcr_set_fg g_tcr_spec_new (Some TcNonexhaustive))) = None.
Proof. exact g_tcr_render_nonexhaustive_panics. Qed.

(* The rendering code of ansi_term itself (tools/gen_fn_ansiterm.py -> Generated/AnsiTermFn.v).
   The source of the library (the version Cargo.lock pins, from the cargo registry: style.rs, ansi.rs, display.rs)
   is translated on every run: the builder methods, `Style::paint`, the Display impls, `write_prefix` /
   `write_suffix`, the colour codes.  [atm_style] / [atm_colour] are the library's struct / enum as they are
   declared, [g_atm_render v] is `v.paint("x").to_string().into_bytes()` (what harness/h-adapters runs),
   [atm_abstract v] names the value the way Spec/Targets.v names values, [g_atc_to_ansi_term] is the adapter
   translated over the concrete types (its builder calls are the translated methods). *)
From AV Require Import Model.AnsiTerm Generated.AnsiTermFn Proofs.AnsiTermFnGen.

(* the translated rendering never panics and writes what the hand model says *)
Theorem c16_rendered_ansiterm_is_model : forall v, g_atm_render v = Some (atm_render v).
Proof. exact translated_ansiterm_render_is_model. Qed.

(* for EVERY value of the type ansi_term::Style: a terminal in its default state (Spec/Vt + Spec/Sgr) shows one
   character, 'x', in exactly the rendition the meaning tables of Spec/Targets.v assign to the value *)
Theorem c16_rendered_ansiterm_meaning : forall v, atm_wf v ->
  exists bs, g_atm_render v = Some bs /\ ad_interp_x bs = ad_meaning AdAnsiTerm (atm_abstract v) /\
             ad_meaning AdAnsiTerm (atm_abstract v) = Some (atm_meaning v).
Proof. exact translated_ansiterm_render_meaning. Qed.

(* the adapter over the library's own types: the value it builds *)
Theorem c16_rendered_ansiterm_adapter_is_model : forall s, ad_src_ok s ->
  g_atc_to_ansi_term s = Some (atm_of_src s).
Proof. exact translated_ansiterm_adapter_is_model. Qed.

(* that value, read through the meaning tables, means what the abstract model's value means (c16_style_meaning) *)
Theorem c16_rendered_ansiterm_value_meaning : forall s, ad_src_ok s ->
  ad_meaning AdAnsiTerm (atm_abstract (atm_of_src s)) = ad_meaning AdAnsiTerm (ad_to_ansi_term s).
Proof. exact ansiterm_concrete_means_abstract. Qed.

(* render (convert s) interprets to project(s): bold on iff BOLD or a bright foreground, hues kept, background
   brightness dropped, indexed / RGB exact -- no identification of palette entries needed for ansi_term *)
Theorem c16_rendered_ansiterm_converted : forall s, ad_src_ok s -> atm_src_ok s ->
  exists bs, (g_atc_render_converted s = Some bs) /\ (ad_interp_x bs = Some (ad_project AdAnsiTerm s)).
Proof. exact rendered_ansiterm_converted. Qed.

(* owo-colors 4.0.0 renders the converted value as the meaning tables say (DESIGN.md section 12.4).
   The rendering path of the third-party crate (Style::fmt_prefix / fmt_suffix, <Styled<&str> as Display>::fmt, the
   DynColors / AnsiColors / XtermColors / Rgb fmt_raw_ansi_fg / _bg, StyleFlags, the builder methods the adapter calls) is
   TRANSLATED from the cargo registry source of the version Cargo.lock pins (tools/gen_fn_owo.py -> Generated/OwoFn.v; the
   crate's macro_rules tables are expanded by tools/rs2v/mexpand.py).  [g_owo_render v text] = format!("{}", v.style(text));
   [owo_render] (Model/Owo.v) is the hand model; [owo_value s] the owo_colors::Style the adapter builds for s;
   [owo_src_ok s] = ad_src_ok s with u8 colour components; [owo_defect s] = background, no foreground and an effect
   owo-colors can express (finding F16-1).  [ad_interp_x] is the rendition Spec/Vt + Spec/Sgr give the "x". *)
From AV Require Import Model.Owo Generated.OwoFn Proofs.OwoRender Proofs.OwoFnColours Proofs.OwoFnGen.

(* the translated crate renders every Style without a CSS colour as the hand model says: no panic *)
Theorem c16_rendered_owo_translated_is_model : forall v text, owo_style_ok v ->
  g_owo_render v text = Some (owo_render v text).
Proof. exact translated_owo_render_is_model. Qed.

(* the adapter model's target style, run through the translated constructors and builder methods, is the crate's value *)
Theorem c16_rendered_owo_translated_value : forall t, g_owo_of_tstyle t = owo_of_tstyle g_owo_ansi_names t.
Proof. exact translated_owo_value_is_model. Qed.

Theorem c16_rendered_owo_value_of_adapter : forall s, owo_src_ok s ->
  owo_of_tstyle g_owo_ansi_names (ad_to_owo s) = Some (owo_value s).
Proof. exact owo_value_of_adapter. Qed.

(* ANY Style value (no CSS colour, u8 components) outside the separator defect: the bytes mean what its fields name *)
Theorem c16_rendered_owo_any_value : forall v, owo_style_ok v -> owo_rgb_u8 (ow_fg v) -> owo_rgb_u8 (ow_bg v) -> owo_sep_ok v ->
  (bytes <- g_owo_render v [120] ;; ad_interp_x bytes)
  = Some (mkStyle (owo_slot_meaning (ow_fg v)) (owo_slot_meaning (ow_bg v)) None (owo_eff_meaning (ow_bold v) (ow_flags v))).
Proof. exact translated_owo_render_meaning. Qed.

(* render (convert s) interprets to project(s): translated adapter ; translated crate ; terminal.  TRUE outside the defect *)
Theorem c16_rendered_owo_meaning : forall s, owo_src_ok s -> owo_defect s = false ->
  (bytes <- g_owo_convert_render s ;; ad_interp_x bytes) = Some (ad_project AdOwo s).
Proof. exact translated_owo_rendered_meaning. Qed.

Theorem c16_rendered_owo_render_ok : forall s, owo_src_ok s -> owo_defect s = false ->
  ad_render_ok (ad_project AdOwo s) (owo_render (owo_value s) [120]) = true.
Proof. exact owo_render_interp_ok. Qed.

(* REFUTED in the defect class (F16-1): bg red + bold renders as ESC[411m x ESC[0m, which a terminal shows unstyled *)
Theorem c16_rendered_owo_refuted :
  owo_src_ok owo_witness /\
  g_owo_convert_render owo_witness = Some [27; 91; 52; 49; 49; 109; 120; 27; 91; 48; 109] /\
  (bytes <- g_owo_convert_render owo_witness ;; ad_interp_x bytes) = Some style_default /\
  (bytes <- g_owo_convert_render owo_witness ;; Some (ad_render_ok (ad_project AdOwo owo_witness) bytes)) = Some false.
Proof. exact translated_owo_rendered_refuted. Qed.

Theorem c16_rendered_owo_full_statement_false :
  ~ (forall s, owo_src_ok s -> ad_render_ok (ad_project AdOwo s) (owo_render (owo_value s) [120]) = true).
Proof. exact owo_render_full_statement_false. Qed.

(* crossterm renders the converted value as the tables say (tools/gen_fn_crossterm.py -> Generated/CrosstermFn.v).
   The rendering code of the third-party crate crossterm (0.28.1, the version Cargo.lock pins; read from the cargo
   registry copy that harness/h-adapters links) is TRANSLATED on every run: Display of StyledContent,
   PrintStyledContent / SetForegroundColor / SetBackgroundColor / SetUnderlineColor / SetAttributes / SetAttribute /
   ResetColor ::write_ansi, Display of Colored, Attribute::{sgr, bytes}, Attributes::{set, has, is_empty}.
   [g_ct_of_tstyle t] reads the adapter's abstract target style (constructors / attributes by NAME) as the crossterm
   value with those names (attributes through the translated `Attributes::set`); [g_crossterm_render v] is
   `v.apply("x").to_string()` after `force_color_output(true)` (what harness/h-adapters runs); [ad_render_ok want bytes]
   (Spec/Targets.v): Spec/Vt + Spec/Sgr show "x" in rendition `want`, colours compared modulo the identification of
   palette entries 0-15 with the 16 ANSI colours (crossterm prints its named colours as 38;5;n).  [ct_src_u8]: indexed
   and RGB values fit a u8. *)
From AV Require Import Model.Crossterm Generated.CrosstermFn Proofs.CrosstermFnGen.

(* for EVERY value of crossterm's ContentStyle (any colour variant, any attribute bit set) and every text: no panic,
   and the bytes are SGR sequences (background, foreground, underline colour, one per attribute that is set in
   declaration order), the text, and the reset sequences *)
Theorem c16_rendered_crossterm_bytes : forall v text,
  g_crossterm_render_str false v text = Some (ct_render_bytes v text).
Proof. exact g_crossterm_render_str_eq. Qed.

(* render (convert s) interprets to project(s): to_crossterm as translated, its result as a crossterm value, crossterm's
   rendering as translated, interpreted from the terminal's default state *)
Theorem c16_rendered_crossterm_is_projection : forall s, ad_src_ok s -> ct_src_u8 s ->
  exists bytes, g_crossterm_pipeline s = Some bytes /\
    ad_render_ok_but_underline (ad_project AdCrossterm s) bytes = true /\
    (ad_one_underline (s_eff s) = true -> ad_render_ok (ad_project AdCrossterm s) bytes = true).
Proof. exact crossterm_rendered_is_projection. Qed.

(* the same against the meaning table: the library renders the adapter's value as Spec/Targets.v says it means *)
Theorem c16_rendered_crossterm_is_meaning : forall s, ad_src_ok s -> ct_src_u8 s -> ad_one_underline (s_eff s) = true ->
  exists t m bytes, g_to_crossterm s = Some t /\ ad_meaning AdCrossterm t = Some m /\
    (v <- g_ct_of_tstyle t ;; g_crossterm_render v) = Some bytes /\ ad_render_ok m bytes = true.
Proof. exact crossterm_rendered_is_meaning. Qed.

(* the value-level form: what the adapter model builds, as a crossterm value, and its rendering *)
Theorem c16_rendered_crossterm_image : forall s, ad_src_ok s -> ct_src_u8 s ->
  exists v bytes,
    g_ct_of_tstyle (ad_to_crossterm s) = Some v /\ g_crossterm_render v = Some bytes /\
    ad_render_ok_but_underline (ad_project AdCrossterm s) bytes = true /\
    (ad_one_underline (s_eff s) = true -> ad_render_ok (ad_project AdCrossterm s) bytes = true).
Proof. exact crossterm_render_image. Qed.

(* the hypothesis "at most one underline kind" cannot be dropped: UNDERLINE + DOUBLE_UNDERLINE renders as ESC[4m ESC[4:2m,
   a terminal has one underline attribute and shows the double underline only *)
Theorem c16_rendered_crossterm_two_underlines_refuted :
  exists s bytes, ad_src_ok s /\ ct_src_u8 s /\ g_crossterm_pipeline s = Some bytes /\
    ad_render_ok (ad_project AdCrossterm s) bytes = false.
Proof. exact crossterm_rendered_two_underlines_refuted. Qed.

(* outside what the harness runs: with colours switched off (NO_COLOR / force_color_output(false)) a colour command
   still prints "ESC [ m", an SGR reset (red + bold: ESC[m ESC[1m x ESC[0m) *)
Theorem c16_rendered_crossterm_colours_disabled :
  g_crossterm_render_str true (mkCtStyle (Some CtRed) None None 4) [120] =
  Some [27; 91; 109; 27; 91; 49; 109; 120; 27; 91; 48; 109].
Proof. exact crossterm_colours_disabled_witness. Qed.
