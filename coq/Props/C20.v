(* C20: parser feature configurations differ only by their documented limits.
   Only statements, each closed by [exact];
   the closed example c20_example_1030 by evaluation around the two payload lemmas of
   Proofs/ParseCfg.v (pc_run_payload, pc_run_payload_fixed).

   Vocabulary (Model/Parser.v is the C02 model):
     cfg = {osc_cap : option N; utf8_on : bool};  feature `core` => osc_cap =
     Some MAX_OSC_RAW (ArrayVec + `is_full` early return in OscPut), feature
     `utf8` => utf8_on; [None] as a result = the Rust code would panic.
     pc_cfgs          the four feature sets {default, core, core+utf8, none}
                      resolved through Cargo.toml's feature table (translated)
     pc_seven_bit bs  every byte < 128
     pc_osc_fit cap bs  running the default configuration over bs, no byte is
                      handed to OscPut while osc_raw already holds cap bytes
     pc_trunc cap u p bs  bs with every byte deleted that the heap configuration,
                      started in p, would hand to OscPut while osc_raw already
                      holds cap bytes (';' included); on the payload bytes of one
                      OSC string this is pc_cut (c20_truncation_shape)
     pc_core p        p with osc_raw / osc_params / osc_num_params blanked
     pc_sync p q      pc_core p = pc_core q, and inside an OSC string also the
                      live OSC bookkeeping agrees (entries of osc_params at or
                      above osc_num_params are dead: rewritten before read) *)
From Coq Require Import NArith List Bool.
From AV Require Import Generated.Table Generated.ParseCfg Spec.Vt Model.Base Model.Parser
  Model.ParseCfg Proofs.ParseCfg Model.Utf8parse Generated.ParserFn Proofs.ParserGen.
From AV Require Import Model.Imp Generated.Utf8parseFn Proofs.Utf8parseGen.
Import ListNotations.
Local Open Scope N_scope.

(* 7-bit input, every configured buffer fits: any two configurations run
   identically -- same events, same final parser, same panics (in particular the
   no-utf8 build never reaches `unreachable!`) *)
Theorem c20_cfg_equiv :
  forall c1 c2 bs,
    pc_seven_bit bs -> pc_cfg_fits c1 bs -> pc_cfg_fits c2 bs ->
    run c1 parser_new bs = run c2 parser_new bs.
Proof. exact pc_cfg_equiv. Qed.

(* the same for the four feature sets of the property and MAX_OSC_RAW *)
Theorem c20_four_builds_equiv :
  forall c1 c2 bs,
    In c1 pc_cfgs -> In c2 pc_cfgs -> pc_seven_bit bs -> pc_osc_fit pc_max_osc_raw bs ->
    pc_events c1 bs = pc_events c2 bs.
Proof. exact pc_four_builds_equiv. Qed.

Theorem c20_four_builds_are :
  pc_cfgs = [mkCfg None true; mkCfg (Some pc_max_osc_raw) false;
             mkCfg (Some pc_max_osc_raw) true; mkCfg None false].
Proof. exact pc_cfgs_are. Qed.

(* fixed buffer, every input, every prefix: osc_raw never holds more than cap
   bytes *)
Theorem c20_osc_never_overflows :
  forall cap u bs1 bs2 p' e,
    run (mkCfg (Some cap) u) parser_new (bs1 ++ bs2) = Some (p', e) ->
    exists p1 e1, run (mkCfg (Some cap) u) parser_new bs1 = Some (p1, e1) /\
                  N.of_nat (length (osc_raw p1)) <= cap /\
                  N.of_nat (length (osc_raw p')) <= cap.
Proof. exact pc_osc_never_overflows. Qed.

(* ... and a byte is pushed only while there is room (ArrayVec::push cannot panic) *)
Theorem c20_push_has_room :
  forall cap u p b p' e,
    N.of_nat (length (osc_raw p)) <= cap ->
    perform_action (mkCfg (Some cap) u) p AOscPut b = Some (p', e) ->
    length (osc_raw p') = S (length (osc_raw p)) -> N.of_nat (length (osc_raw p)) < cap.
Proof. exact pc_push_has_room. Qed.

(* fixed buffer, every input, from every parser state: the run IS the heap
   configuration's run on the truncated input -- same events (so the OSC fields
   reported are the heap configuration's fields of the truncated payload), same
   final parser, same panics *)
Theorem c20_osc_truncated :
  forall cap u bs p,
    run (mkCfg (Some cap) u) p bs = run (mkCfg None u) p (pc_trunc cap u p bs).
Proof. exact pc_run_trunc. Qed.

(* what is deleted from one OSC payload: with [room] free bytes, everything from
   the first byte (';' included) that arrives when room non-';' bytes have been
   stored; so no later field boundary is recorded *)
Theorem c20_truncation_shape :
  forall cap u body p p' e,
    pstate p = OscString -> Forall (fun b => 32 <= b < 256) body ->
    N.of_nat (length (osc_raw p)) <= cap ->
    run (mkCfg None u) p body = Some (p', e) ->
    pc_trunc cap u p body = pc_cut (N.to_nat (cap - N.of_nat (length (osc_raw p)))) body.
Proof. exact pc_trunc_payload. Qed.

Theorem c20_fit_not_truncated :
  forall cap u bs p, pc_fitb cap u p bs = true -> pc_trunc cap u p bs = bs.
Proof. exact pc_fit_trunc_id. Qed.

(* parsing of what follows is unaffected: after ANY input bs1 that leaves the
   parser outside an OSC string (e.g. just after the terminator of an oversize
   OSC), fixed-buffer and heap parser agree on pstate and all bookkeeping except
   the dead OSC fields, emit identical events on every continuation bs2 whose
   own payloads fit, and end equal up to dead OSC data again *)
Theorem c20_after_osc_unaffected :
  forall cap u bs1 bs2 pf1 ef1 pd1 ed1 pf2 ef2 pd2 ed2,
    run (mkCfg (Some cap) u) parser_new bs1 = Some (pf1, ef1) ->
    run (mkCfg None u) parser_new bs1 = Some (pd1, ed1) ->
    pstate pd1 <> OscString ->
    pc_fitb cap u pd1 bs2 = true ->
    run (mkCfg (Some cap) u) pf1 bs2 = Some (pf2, ef2) ->
    run (mkCfg None u) pd1 bs2 = Some (pd2, ed2) ->
    pc_core pf1 = pc_core pd1 /\ ef2 = ed2 /\ pc_sync pf2 pd2.
Proof. exact pc_after_osc_unaffected. Qed.

(* at every point of every input, oversize payloads included, both parsers are in
   the same state with the same non-OSC bookkeeping *)
Theorem c20_state_always_agrees :
  forall cap u bs pf ef pd ed,
    run (mkCfg (Some cap) u) parser_new bs = Some (pf, ef) ->
    run (mkCfg None u) parser_new bs = Some (pd, ed) ->
    pstate pf = pstate pd /\ intermediates pf = intermediates pd /\
    intermediate_idx pf = intermediate_idx pd /\ pparams pf = pparams pd /\
    pparam pf = pparam pd /\ ignoring pf = ignoring pd /\ utf8_parser pf = utf8_parser pd.
Proof. exact pc_core_always. Qed.

(* without `utf8` the only additional panic is a byte C2..F4 arriving in Ground *)
Theorem c20_no_utf8_panics_only_on_high_bytes :
  forall cap bs p,
    pstate p <> Utf8 ->
    run (mkCfg cap false) p bs = None -> run (mkCfg cap true) p bs <> None ->
    exists pre b post q e,
      bs = pre ++ b :: post /\ run (mkCfg cap true) p pre = Some (q, e) /\
      pstate q = Ground /\ 194 <= b <= 244.
Proof. exact pc_no_utf8_panic. Qed.

(* ESC ] 0 ; A^1030 ; x BEL Z ESC [ 1 m : the `core` builds report the fields
   "0" and A^1023 (1024 stored bytes; the last 7 A, the ';' and the x are lost),
   the heap builds report "0", A^1030, "x"; what follows is parsed alike *)
Example c20_example_1030 :
  let input := [27; 93; 48; 59] ++ repeat 65 (N.to_nat 1030) ++ [59; 120; 7; 90; 27; 91; 49; 109] in
  let tail := [EPrint 90; ECsi [[1]] [] false 109] in
  pc_events (pc_cfg_of true true) input = Some (EOsc [[48]; repeat 65 (N.to_nat 1023)] true :: tail) /\
  pc_events (pc_cfg_of true false) input = Some (EOsc [[48]; repeat 65 (N.to_nat 1023)] true :: tail) /\
  pc_events (pc_cfg_of false true) input = Some (EOsc [[48]; repeat 65 (N.to_nat 1030); [120]] true :: tail) /\
  pc_events (pc_cfg_of false false) input = Some (EOsc [[48]; repeat 65 (N.to_nat 1030); [120]] true :: tail).
Proof.
  intros input tail.
  assert (A : Forall (fun b => 32 <= b < 256 /\ b <> 59) (repeat 65 (N.to_nat 1030))).
  { apply Forall_forall. intros x Hx. apply repeat_spec in Hx. subst x. now split; [split|]. }
  (* The bytes before and after the A's are stepped through by evaluation; the A's are not, since the
     model appends each of them at the far end of osc_raw: the fixed buffer keeps as many of them as
     it has room for (1024 - 1), the heap buffer all. *)
  split; [|split; [|split]]; unfold pc_events, input, pc_cfg_of; cbv iota;
    rewrite pc_run_app; vm_compute (run _ parser_new _); cbv beta iota; rewrite pc_run_app.
  (* the two `core` builds *)
  1, 2: rewrite pc_run_payload_fixed by (reflexivity || exact A || discriminate).
  (* the two heap builds *)
  3, 4: rewrite pc_run_payload by (reflexivity || exact A).
  all: vm_compute; reflexivity.
Qed.

(* the tie by translation, configuration-dependent parts (Generated/ParserFn.v, tools/gen_fn_parser.py) *)

(* the translated code (`#[cfg(feature = "core")]` blocks as `if cfg_core c`, the accumulator chosen by `utf8`),
   started from the translated Parser::new(), is the model the theorems above run, in every configuration *)
Theorem c20_translated_parser_is_model :
  forall c bs, g_run c (g_parser_new c) [] bs = run c parser_new bs.
Proof. exact translated_parser_from_new. Qed.

(* Parser::new() does not depend on the features *)
Theorem c20_translated_new_cfg_independent :
  forall c1 c2, g_parser_new c1 = g_parser_new c2.
Proof. exact g_parser_new_cfg_independent. Qed.

(* DefaultCharAccumulator: without `utf8` it is AsciiParser, whose add is `unreachable!`; with `utf8` it is
   Utf8Parser: the utf8parse decoder, the callbacks storing the code point / U+FFFD *)
Theorem c20_translated_char_add_no_utf8 :
  forall c u b, utf8_on c = false -> g_char_add c u b = None.
Proof. exact g_char_add_no_utf8. Qed.

Theorem c20_translated_char_add_utf8 :
  forall c u b, utf8_on c = true ->
  g_char_add c u b =
  Some (fst (u8_parser_advance u b),
        match snd (u8_parser_advance u b) with U8None => None | U8Codepoint cp => Some cp | U8Invalid => Some 65533 end).
Proof. exact g_char_add_utf8. Qed.

(* Action::OscPut as translated: ArrayVec::is_full, the cfg(core) guard, and ArrayVec::push with ITS panic on a full
   buffer (the hand model has none); storing a payload byte never panics, in any configuration *)
Theorem c20_translated_osc_put_is_model :
  forall c p perf b, g_perform_action c p perf AOscPut b = acc perf (perform_action c p AOscPut b).
Proof. exact g_osc_put_eq. Qed.

Theorem c20_translated_osc_put_push_never_panics :
  forall c p perf b, b <> 59 -> g_perform_action c p perf AOscPut b <> None.
Proof. exact g_osc_put_byte_no_panic. Qed.
(* the `utf8` feature, translated.
   With `utf8` the character accumulator is `Utf8Parser` (the third-party decoder `utf8parse`, translated from
   the registry source of the version Cargo.lock pins: Generated/Utf8parseFn.v, tools/gen_fn_utf8parse.py),
   without it `AsciiParser`, whose `add` is `unreachable!`.  Both `CharAccumulator::add` impls, translated from
   crates/anstyle-parse/src/lib.rs, are the hand model's [char_add] under the configuration's [utf8_on]. *)
Theorem c20_translated_char_add_is_model :
  forall c u b,
    (if utf8_on c then g_pa_utf8_add u b
     else option_map (fun '(_, o) => (u, o)) (g_pa_ascii_add tt b)) = char_add c u b.
Proof. exact translated_char_add_is_model. Qed.

Theorem c20_translated_utf8parse_advance :
  forall p r b, g_u8_parser_advance p r b =
    Some (fst (u8_parser_advance p b), r ++ u8_events (snd (u8_parser_advance p b))).
Proof. exact g_u8_parser_advance_eq. Qed.

(* the `core` feature's buffer, translated: arrayvec's `ArrayVec<T, CAP>`.
   With `core`, `osc_raw` is an `ArrayVec<u8, MAX_OSC_RAW>` of the third-party crate arrayvec.  The methods
   anstyle-parse calls on it (Default / new, clear, is_full, len, push, Deref for the indexing) and everything
   they reach inside the crate (trait ArrayVecImpl's default bodies try_push / push_unchecked / truncate /
   as_slice, set_len, as_ptr / as_mut_ptr, CapacityError::new, the macro assert_capacity_limit!) are
   translated from the registry source of the version Cargo.lock pins (Generated/ArrayVecFn.v,
   tools/gen_fn_arrayvec.py).  It is unsafe code over `[MaybeUninit<T>; CAP]` + `len`, read at value level
   (Model/ArrayVec.v, trusted: a slot is an option, a pointer into the buffer a slot index, undefined
   behaviour = None like a panic).  [av_rep cap v l]: the vector v holds the list l -- slots [0, len) are
   initialised and are l, len <= CAP = length of the buffer, CAP fits LenUint.  On represented vectors the
   translated methods behave as the list model (the avl_ functions) that the parser's translation uses, preserve the
   representation, and reach None only where the list model panics (push on a full vector). *)
From AV Require Import Model.ArrayVec Generated.ArrayVecFn Proofs.ArrayVecGen.

Theorem c20_translated_arrayvec_new :
  forall (T : Type) cap, g_av_new T cap = option_map (fun _ => av_empty T cap) (@avl_new T cap).
Proof. exact g_av_new_eq. Qed.

Theorem c20_translated_arrayvec_new_is_empty :
  forall (T : Type) cap v, g_av_new T cap = Some v -> av_rep cap v [] /\ @avl_new T cap = Some [].
Proof. exact g_av_new_rep. Qed.

Theorem c20_translated_arrayvec_new_panics_iff_cap_exceeds_u32 :
  forall (T : Type) cap, g_av_new T cap = None <-> av_len_uint_max < cap.
Proof. exact g_av_new_panics. Qed.

Theorem c20_translated_arrayvec_default_is_new :
  forall (T : Type) cap, g_av_default T cap = g_av_new T cap.
Proof. exact g_av_default_eq. Qed.

Theorem c20_translated_arrayvec_default_max_osc_raw :
  exists v0, g_av_default N pc_max_osc_raw = Some v0 /\ av_rep pc_max_osc_raw v0 ([] : list N).
Proof. exact translated_arrayvec_default_max_osc_raw. Qed.

Theorem c20_translated_arrayvec_len :
  forall (T : Type) cap v l, av_rep cap v l -> g_av_len T v = avl_len l.
Proof. exact g_av_len_eq. Qed.

Theorem c20_translated_arrayvec_is_full :
  forall (T : Type) cap v l, av_rep cap v l -> g_av_is_full T cap v = avl_is_full cap l.
Proof. exact g_av_is_full_eq. Qed.

Theorem c20_translated_arrayvec_is_empty :
  forall (T : Type) cap v l, av_rep cap v l -> g_av_is_empty T v = avl_is_empty l.
Proof. exact g_av_is_empty_eq. Qed.

Theorem c20_translated_arrayvec_remaining_capacity :
  forall (T : Type) cap v l, av_rep cap v l ->
    g_av_remaining_capacity T cap v = avl_remaining cap l /\ avl_remaining cap l = Some (cap - len l).
Proof. exact g_av_remaining_capacity_eq. Qed.

(* as_slice / Deref: `slice::from_raw_parts(self.as_ptr(), len)` reads initialised slots only *)
Theorem c20_translated_arrayvec_as_slice :
  forall (T : Type) cap v l, av_rep cap v l -> g_av_as_slice T v = Some l.
Proof. exact g_av_as_slice_eq. Qed.

Theorem c20_translated_arrayvec_deref :
  forall (T : Type) cap v l, av_rep cap v l -> g_av_deref T v = Some l.
Proof. exact g_av_deref_eq. Qed.

(* try_push: Ok and the element appended while there is room, else Err(CapacityError { element }) and no change *)
Theorem c20_translated_arrayvec_try_push :
  forall (T : Type) cap v l x, av_rep cap v l ->
    try_push_sim T cap (g_av_try_push T cap v x) (avl_try_push cap l x).
Proof. exact g_av_try_push_eq. Qed.

(* push = try_push(..).unwrap(): appends, PANICS on a full vector -- and only then *)
Theorem c20_translated_arrayvec_push :
  forall (T : Type) cap v l x, av_rep cap v l -> osim T cap (g_av_push T cap v x) (avl_push cap l x).
Proof. exact g_av_push_eq. Qed.

Theorem c20_translated_arrayvec_push_panics_iff_full :
  forall (T : Type) cap v l x, av_rep cap v l -> (g_av_push T cap v x = None <-> avl_is_full cap l = true).
Proof. exact g_av_push_panics_iff_full. Qed.

(* push_unchecked: `ptr::write` to slot len stays inside the buffer exactly when there is room (else the
   debug assertion fails before the write) *)
Theorem c20_translated_arrayvec_push_unchecked :
  forall (T : Type) cap v l x, av_rep cap v l -> osim T cap (g_av_push_unchecked T cap v x) (avl_push cap l x).
Proof. exact g_av_push_unchecked_eq. Qed.

Theorem c20_translated_arrayvec_set_len :
  forall (T : Type) cap v n, cap <= av_len_uint_max -> n <= cap -> g_avi_set_len T cap v n = Some (set_av_len v n).
Proof. exact g_avi_set_len_eq. Qed.

(* truncate / clear / Drop: `drop_in_place` of the slots [new_len, len) -- all initialised -- never fails *)
Theorem c20_translated_arrayvec_truncate :
  forall (T : Type) cap v l n, av_rep cap v l ->
    exists v', g_av_truncate T cap v n = Some v' /\ av_rep cap v' (avl_truncate l n).
Proof. exact g_av_truncate_eq. Qed.

Theorem c20_translated_arrayvec_clear :
  forall (T : Type) cap v l, av_rep cap v l ->
    exists v', g_av_clear T cap v = Some v' /\ av_rep cap v' (avl_clear l).
Proof. exact g_av_clear_eq. Qed.

Theorem c20_translated_arrayvec_drop :
  forall (T : Type) cap v l, av_rep cap v l -> exists v', g_av_drop T cap v = Some v' /\ av_rep cap v' [].
Proof. exact g_av_drop_eq. Qed.

(* any script of push / try_push / clear / truncate, from any represented vector *)
Theorem c20_translated_arrayvec_run :
  forall (T : Type) cap os v l, av_rep cap v l -> osim T cap (g_av_run T cap v os) (avl_run cap l os).
Proof. exact g_av_run_eq. Qed.

(* ENTRY POINT: from `ArrayVec::new()`, any script: same panics as the list model, and then the same answers *)
Theorem c20_translated_arrayvec_is_model :
  forall (T : Type) cap os v0,
    g_av_new T cap = Some v0 ->
    match g_av_run T cap v0 os, avl_run cap [] os with
    | Some v, Some l =>
        g_av_len T v = avl_len l /\ g_av_is_full T cap v = avl_is_full cap l /\ g_av_is_empty T v = avl_is_empty l /\
        g_av_as_slice T v = Some l /\ g_av_deref T v = Some l /\ len l <= cap
    | None, None => True
    | _, _ => False
    end.
Proof. exact translated_arrayvec_is_model. Qed.

(* the list operations the parser's translation (Generated/ParserFn.v) writes for `osc_raw` under `core` --
   raw_full, len, slice, the guarded `++ [b]`, [] -- are what the translated ArrayVec<u8, cap> does *)
Theorem c20_translated_arrayvec_is_parser_buffer :
  forall c cap (v : avec N) (raw : list N),
    osc_cap c = Some cap -> av_rep cap v raw ->
    g_av_is_full N cap v = raw_full c raw /\
    g_av_len N v = len raw /\
    (forall a b, r <- g_av_deref N v ;; slice r a b = slice raw a b) /\
    (forall b, osim N cap (g_av_push N cap v b) (if cfg_core c && raw_full c raw then None else Some (raw ++ [b]))) /\
    (exists v', g_av_clear N cap v = Some v' /\ av_rep cap v' []).
Proof. exact translated_arrayvec_is_parser_buffer. Qed.
