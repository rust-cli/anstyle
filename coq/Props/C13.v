(* Property theorems for C13 (style, effects and colour values obey their algebra).
   Only statements, each closed by [exact].

   Spec/Algebra.v: an effect set is an [N]; [valid s] = [s < 2^12]; [members s] =
   the one bits below 12 in ascending (= declaration) order; the [sp_*] functions
   are the executable set-theoretic definitions on characteristic vectors that the
   correspondence runs use as oracle.  The [e_*], [st_*], [ansi_*] functions are
   the model (Model/Style.v over the translated tables of Generated/Style.v).  All
   statements about sets hold for every set (hypothesis [valid] only where the u16
   complement is involved); none is proved by enumerating sets. *)
From Coq Require Import NArith List Bool Sorted.
From AV Require Import Generated.Style Spec.Algebra Model.Base Model.Style Generated.StyleFn Proofs.Style Proofs.StyleGen.
Import ListNotations.
Local Open Scope N_scope.

(* the constants, in declaration order, are the singletons {0} .. {11}; constant
   names and METADATA names are the twelve documented names in that order *)
Theorem c13_constants_are_singletons : effect_constants = map singleton idxs.
Proof. exact constants_are_singletons. Qed.

Theorem c13_constant_table : map fst effect_consts = effect_names /\ map snd effect_consts = idxs.
Proof. exact consts_table. Qed.

Theorem c13_spec_texts_readable :
  effect_names = map bytes_of effect_names_text /\ conv_names = map bytes_of conv_names_text /\
  txt_open = bytes_of txt_open_text /\ txt_bar = bytes_of txt_bar_text /\ txt_close = bytes_of txt_close_text.
Proof. exact spec_texts_readable. Qed.

Theorem c13_metadata_names : map fst metadata = effect_names.
Proof. exact metadata_names. Qed.

Theorem c13_effect_names_distinct : NoDup effect_names.
Proof. exact effect_names_NoDup. Qed.

(* naming a set by its mask over the constants in declaration order (what the
   correspondence harness does) is the identity: no bit is shared or missing *)
Theorem c13_mask_of_constants : forall m, valid m -> e_of_mask m = m.
Proof. exact of_mask_id. Qed.

(* the values reachable through the API stay below 2^12 *)
Theorem c13_valid_new : valid e_new.
Proof. exact valid_0. Qed.

Theorem c13_valid_singleton : forall i, i < 12 -> valid (singleton i).
Proof. exact valid_singleton. Qed.

Theorem c13_valid_insert : forall a b, valid a -> valid b -> valid (e_insert a b).
Proof. exact insert_valid. Qed.

Theorem c13_valid_remove : forall a b, valid a -> valid (e_remove a b).
Proof. exact remove_valid. Qed.

Theorem c13_valid_set : forall a b en, valid a -> valid b -> valid (e_set a b en).
Proof. exact set_valid. Qed.

Theorem c13_valid_clear : forall a, valid (e_clear a).
Proof. exact clear_valid. Qed.

Theorem c13_set_extensionality : forall a b, (forall i, mem a i = mem b i) -> a = b.
Proof. exact set_ext. Qed.

Theorem c13_insert_is_union : forall a b i, mem (e_insert a b) i = mem a i || mem b i.
Proof. exact insert_mem. Qed.

Theorem c13_remove_is_difference : forall a b i, valid a -> mem (e_remove a b) i = mem a i && negb (mem b i).
Proof. exact remove_mem. Qed.

Theorem c13_contains_is_subset : forall a b, e_contains a b = true <-> subset b a.
Proof. exact contains_subset. Qed.

Theorem c13_is_plain_is_empty : forall a, e_is_plain a = true <-> forall i, mem a i = false.
Proof. exact is_plain_iff. Qed.

Theorem c13_clear_is_plain : forall a, e_is_plain (e_clear a) = true.
Proof. exact clear_plain. Qed.

Theorem c13_set_is_insert_or_remove : forall a b en, e_set a b en = if en then e_insert a b else e_remove a b.
Proof. exact set_spec. Qed.

Theorem c13_set_members : forall a b en i, valid a ->
  mem (e_set a b en) i = if en then mem a i || mem b i else mem a i && negb (mem b i).
Proof. exact set_mem. Qed.

Theorem c13_insert_idempotent : forall a, e_insert a a = a.
Proof. exact insert_idem. Qed.

Theorem c13_insert_commutative : forall a b, e_insert a b = e_insert b a.
Proof. exact insert_comm. Qed.

Theorem c13_insert_associative : forall a b c, e_insert a (e_insert b c) = e_insert (e_insert a b) c.
Proof. exact insert_assoc. Qed.

Theorem c13_insert_plain : forall a, e_insert a e_new = a.
Proof. exact insert_plain. Qed.

Theorem c13_contains_inserted : forall a b, e_contains (e_insert a b) b = true.
Proof. exact contains_insert_r. Qed.

Theorem c13_contains_after_insert : forall a b, e_contains (e_insert a b) a = true.
Proof. exact contains_insert_l. Qed.

Theorem c13_absorption : forall a b, e_contains a b = true <-> e_insert a b = a.
Proof. exact insert_absorb. Qed.

Theorem c13_contains_reflexive : forall a, e_contains a a = true.
Proof. exact contains_refl. Qed.

Theorem c13_contains_transitive : forall a b c,
  e_contains a b = true -> e_contains b c = true -> e_contains a c = true.
Proof. exact contains_trans. Qed.

Theorem c13_contains_antisymmetric : forall a b, e_contains a b = true -> e_contains b a = true -> a = b.
Proof. exact contains_antisym. Qed.

Theorem c13_contains_plain : forall a, e_contains a e_new = true.
Proof. exact contains_plain. Qed.

Theorem c13_remove_after_insert : forall a b, valid a -> valid b -> e_remove (e_insert a b) b = e_remove a b.
Proof. exact remove_insert. Qed.

Theorem c13_insert_after_remove : forall a b, valid a -> e_insert (e_remove a b) b = e_insert a b.
Proof. exact insert_remove. Qed.

Theorem c13_remove_idempotent : forall a b, valid a -> e_remove (e_remove a b) b = e_remove a b.
Proof. exact remove_idem. Qed.

Theorem c13_remove_self : forall a, valid a -> e_remove a a = e_new.
Proof. exact remove_self. Qed.

Theorem c13_remove_plain : forall a, valid a -> e_remove a e_new = a.
Proof. exact remove_plain. Qed.

Theorem c13_difference_disjoint : forall a b, valid a -> disjoint (e_remove a b) b.
Proof. exact remove_disjoint. Qed.

Theorem c13_difference_no_common_bit : forall a b, valid a -> N.land (e_remove a b) b = 0.
Proof. exact remove_land. Qed.

Theorem c13_de_morgan : forall a b c, valid a -> e_remove a (e_insert b c) = e_remove (e_remove a b) c.
Proof. exact demorgan. Qed.

Theorem c13_remove_commutes : forall a b c, valid a -> e_remove (e_remove a b) c = e_remove (e_remove a c) b.
Proof. exact remove_comm. Qed.

Theorem c13_remove_distributes : forall a b c, valid a -> valid b ->
  e_remove (e_insert a b) c = e_insert (e_remove a c) (e_remove b c).
Proof. exact insert_remove_distr. Qed.

(* '|', '|=', '-', '-=' on Effects *)
Theorem c13_effects_operators : forall a b,
  e_bitor a b = e_insert a b /\ e_bitor_assign a b = e_insert a b /\
  e_sub a b = e_remove a b /\ e_sub_assign a b = e_remove a b.
Proof. exact effects_operators. Qed.

(* the model computes what the executable set-theoretic specification computes
   (this is the oracle of the correspondence runs) *)
Theorem c13_insert_is_spec : forall a b, valid a -> valid b -> e_insert a b = sp_union a b.
Proof. exact insert_is_union. Qed.

Theorem c13_remove_is_spec : forall a b, valid a -> valid b -> e_remove a b = sp_diff a b.
Proof. exact remove_is_diff. Qed.

Theorem c13_set_is_spec : forall a b en, valid a -> valid b -> e_set a b en = sp_set a b en.
Proof. exact set_is_spec. Qed.

Theorem c13_contains_is_spec : forall a b, valid b -> e_contains a b = sp_contains a b.
Proof. exact contains_is_spec. Qed.

Theorem c13_is_plain_is_spec : forall a, valid a -> e_is_plain a = sp_is_plain a.
Proof. exact is_plain_is_spec. Qed.

Theorem c13_members_exact : forall a i, In i (members a) <-> i < 12 /\ mem a i = true.
Proof. exact members_In. Qed.

Theorem c13_members_declaration_order : forall a, StronglySorted N.lt (members a).
Proof. exact members_sorted. Qed.

Theorem c13_members_no_duplicates : forall a, NoDup (members a).
Proof. exact members_NoDup. Qed.

(* neither iterator panics; they yield the members, in declaration order *)
Theorem c13_index_iter_members : forall e, e_index_iter e = Some (members e).
Proof. exact index_iter_members. Qed.

Theorem c13_iter_members : forall e, e_iter e = Some (map singleton (members e)).
Proof. exact iter_members. Qed.

Theorem c13_iter_is_spec : forall e, e_iter e = Some (sp_iter e).
Proof. exact iter_is_spec. Qed.

Theorem c13_iter_union : forall a, valid a -> union_all (map singleton (members a)) = a.
Proof. exact members_union. Qed.

Theorem c13_iter_union_low_bits : forall a, union_all (map singleton (members a)) = a mod 2 ^ 12.
Proof. exact members_union_low. Qed.

(* "Effects(" ++ names of exactly the members joined by " | " ++ ")" *)
Theorem c13_debug_names_members : forall e, e_debug e = Some (sp_debug e).
Proof. exact debug_is_spec. Qed.

Theorem c13_fg_color_only : forall s v,
  st_get_fg_color (st_fg_color s v) = v /\ st_get_bg_color (st_fg_color s v) = st_get_bg_color s /\
  st_get_underline_color (st_fg_color s v) = st_get_underline_color s /\
  st_get_effects (st_fg_color s v) = st_get_effects s.
Proof. exact fg_color_only. Qed.

Theorem c13_bg_color_only : forall s v,
  st_get_bg_color (st_bg_color s v) = v /\ st_get_fg_color (st_bg_color s v) = st_get_fg_color s /\
  st_get_underline_color (st_bg_color s v) = st_get_underline_color s /\
  st_get_effects (st_bg_color s v) = st_get_effects s.
Proof. exact bg_color_only. Qed.

Theorem c13_underline_color_only : forall s v,
  st_get_underline_color (st_underline_color s v) = v /\
  st_get_fg_color (st_underline_color s v) = st_get_fg_color s /\
  st_get_bg_color (st_underline_color s v) = st_get_bg_color s /\
  st_get_effects (st_underline_color s v) = st_get_effects s.
Proof. exact underline_color_only. Qed.

Theorem c13_effects_only : forall s e,
  st_get_effects (st_effects s e) = e /\ st_get_fg_color (st_effects s e) = st_get_fg_color s /\
  st_get_bg_color (st_effects s e) = st_get_bg_color s /\
  st_get_underline_color (st_effects s e) = st_get_underline_color s.
Proof. exact effects_only. Qed.

Theorem c13_style_determined_by_getters : forall s t,
  st_get_fg_color s = st_get_fg_color t -> st_get_bg_color s = st_get_bg_color t ->
  st_get_underline_color s = st_get_underline_color t -> st_get_effects s = st_get_effects t -> s = t.
Proof. exact style_ext. Qed.

Theorem c13_new_style :
  st_get_fg_color st_new = None /\ st_get_bg_color st_new = None /\
  st_get_underline_color st_new = None /\ st_get_effects st_new = e_new.
Proof. exact new_getters. Qed.

Theorem c13_setters_are_spec : forall s v e,
  abs_style (st_fg_color s v) = sp_setc FFg v (abs_style s) /\
  abs_style (st_bg_color s v) = sp_setc FBg v (abs_style s) /\
  abs_style (st_underline_color s v) = sp_setc FUl v (abs_style s) /\
  abs_style (st_effects s e) = sp_set_eff e (abs_style s) /\
  abs_style st_new = sp_plain.
Proof. exact setters_are_spec. Qed.

(* bold() = self | BOLD, ..., for every convenience method of style.rs *)
Theorem c13_convenience_is_bitor : forall m s, st_conv m s = st_bitor s (conv_effect m).
Proof. exact conv_is_bitor. Qed.

Theorem c13_convenience_inserts : forall m s,
  st_get_effects (st_conv m s) = e_insert (st_get_effects s) (conv_effect m) /\
  st_get_fg_color (st_conv m s) = st_get_fg_color s /\ st_get_bg_color (st_conv m s) = st_get_bg_color s /\
  st_get_underline_color (st_conv m s) = st_get_underline_color s.
Proof. exact conv_getters. Qed.

(* ... and the effect it inserts is the single effect that carries its name *)
Theorem c13_convenience_named : forall m,
  exists k, k < 12 /\ conv_effect m = singleton k /\ map upper (conv_name m) = effect_name k.
Proof. exact conv_named. Qed.

Theorem c13_convenience_names : map conv_name all_conv = conv_names.
Proof. exact conv_names_table. Qed.

Theorem c13_convenience_is_named_effect : forall m, conv_effect m = sp_named_effect (conv_name m).
Proof. exact conv_is_named. Qed.

Theorem c13_style_bitor_is_union : forall s e,
  st_get_effects (st_bitor s e) = e_insert (st_get_effects s) e /\
  st_get_fg_color (st_bitor s e) = st_get_fg_color s /\ st_get_bg_color (st_bitor s e) = st_get_bg_color s /\
  st_get_underline_color (st_bitor s e) = st_get_underline_color s /\
  st_bitor_assign s e = st_bitor s e.
Proof. exact bitor_spec. Qed.

Theorem c13_style_sub_is_difference : forall s e,
  st_get_effects (st_sub s e) = e_remove (st_get_effects s) e /\
  st_get_fg_color (st_sub s e) = st_get_fg_color s /\ st_get_bg_color (st_sub s e) = st_get_bg_color s /\
  st_get_underline_color (st_sub s e) = st_get_underline_color s /\
  st_sub_assign s e = st_sub s e.
Proof. exact sub_spec. Qed.

Theorem c13_style_eq_effects : forall s e,
  st_eq_effects s e = true <->
  st_get_fg_color s = None /\ st_get_bg_color s = None /\ st_get_underline_color s = None /\ st_get_effects s = e.
Proof. exact eq_effects_iff. Qed.

Theorem c13_style_eq_effects_is_spec : forall s e, st_eq_effects s e = sp_eq_effects (abs_style s) e.
Proof. exact eq_effects_is_spec. Qed.

Theorem c13_style_from_effects : forall e,
  st_get_effects (st_from_effects e) = e /\ st_get_fg_color (st_from_effects e) = None /\
  st_get_bg_color (st_from_effects e) = None /\ st_get_underline_color (st_from_effects e) = None /\
  st_eq_effects (st_from_effects e) e = true.
Proof. exact from_effects_getters. Qed.

Theorem c13_style_is_plain : forall s, st_is_plain s = true <-> s = st_new.
Proof. exact st_is_plain_iff. Qed.

Theorem c13_style_equality_decides : forall a b, style_eqb a b = true <-> a = b.
Proof. exact style_eqb_eq. Qed.

Theorem c13_ansi_positions : map ansi_disc all_ansi = range_from 0 16.
Proof. exact ansi_disc_order. Qed.

Theorem c13_ansi_position_injective : forall a b, ansi_disc a = ansi_disc b -> a = b.
Proof. exact ansi_disc_inj. Qed.

Theorem c13_into_after_from : forall c, ansi256_into_ansi (ansi256_from_ansi c) = Some c.
Proof. exact into_from. Qed.

Theorem c13_from_after_into : forall n, n < 16 ->
  exists c, ansi256_into_ansi n = Some c /\ ansi256_from_ansi c = n.
Proof. exact from_into. Qed.

Theorem c13_into_none_above_15 : forall n, 16 <= n -> ansi256_into_ansi n = None.
Proof. exact into_none. Qed.

Theorem c13_from_is_position : forall c, ansi256_from_ansi c = sp_from_ansi (ansi_disc c).
Proof. exact from_is_disc. Qed.

Theorem c13_into_is_spec : forall n, n < 256 -> option_map ansi_disc (ansi256_into_ansi n) = sp_into_ansi n.
Proof. exact into_is_spec. Qed.

Theorem c13_from_injective : forall a b, ansi256_from_ansi a = ansi256_from_ansi b -> a = b.
Proof. exact from_ansi_inj. Qed.

Theorem c13_bright_projection : forall c b, ansi_bright (ansi_bright c b) b = ansi_bright c b.
Proof. exact bright_idem. Qed.

Theorem c13_bright_last_wins : forall c b b', ansi_bright (ansi_bright c b') b = ansi_bright c b.
Proof. exact bright_last. Qed.

Theorem c13_bright_preserves_hue : forall c b, hue (ansi_disc (ansi_bright c b)) = hue (ansi_disc c).
Proof. exact bright_hue. Qed.

Theorem c13_bright_sets_brightness : forall c b, ansi_is_bright (ansi_bright c b) = b.
Proof. exact bright_is_bright. Qed.

Theorem c13_bright_fixed_point : forall c, ansi_bright c (ansi_is_bright c) = c.
Proof. exact bright_fixed. Qed.

Theorem c13_bright_is_spec : forall c b, ansi_disc (ansi_bright c b) = with_bright (ansi_disc c) b.
Proof. exact bright_is_spec. Qed.

Theorem c13_is_bright_is_spec : forall c, ansi_is_bright c = is_bright_ix (ansi_disc c).
Proof. exact is_bright_is_spec. Qed.

Theorem c13_hue_and_brightness_determine : forall a b,
  hue (ansi_disc a) = hue (ansi_disc b) -> ansi_is_bright a = ansi_is_bright b -> a = b.
Proof. exact hue_bright_inj. Qed.

(* Generated/StyleFn.v is written by tools/gen_fn_style.py (tools/rs2v) from the Rust
   sources of effect.rs (Effects::{new, is_plain, contains, insert, remove, clear, set, iter,
   index_iter, render}, the operator impls, both `Iterator::next`, `Debug::fmt`), color.rs
   (AnsiColor::{bright, is_bright}, Ansi256Color::{index, into_ansi, from_ansi}) and style.rs (every
   builder, convenience method, getter, is_plain, the operator impls with Effects, From<Effects>,
   PartialEq<Effects>).  Each translated function computes what the hand model -- the subject of
   every theorem above -- computes; none of them panics.  Nothing in this area is hand-pinned. *)
Theorem c13_translated_effects_are_model :
  g_eff_new = e_new /\
  (forall e, g_eff_is_plain e = e_is_plain e /\ g_eff_clear e = e_clear e /\ g_eff_render e = e /\
             g_eff_iter_items e = e_iter e /\ g_eff_index_iter_items e = e_index_iter e /\ g_eff_debug e = e_debug e) /\
  (forall a b, g_eff_contains a b = e_contains a b /\ g_eff_insert a b = e_insert a b /\ g_eff_remove a b = e_remove a b /\
               g_eff_bitor a b = e_bitor a b /\ g_eff_bitor_assign a b = e_bitor_assign a b /\
               g_eff_sub a b = e_sub a b /\ g_eff_sub_assign a b = e_sub_assign a b) /\
  (forall a b en, g_eff_set a b en = e_set a b en).
Proof. exact translated_effects_are_model. Qed.

(* one call of the translated `next`, [n] table positions before the end: the next member (the
   singleton / the index) and the advanced iterator, or None at the end *)
Theorem c13_translated_iter_next : forall e n i, i + N.of_nat n = 12 ->
  g_eff_iter_next (mkEffIter i e) = e_next (fun _ effect => effect) e n i /\
  g_eff_index_iter_next (mkEffIter i e) = e_next (fun index _ => index) e n i.
Proof. exact (fun e n i H => conj (g_eff_iter_next_eq e n i H) (g_eff_index_iter_next_eq e n i H)). Qed.

(* <Effects as Debug>::fmt on a formatter that holds [f]: appends the text, answers Ok(()) *)
Theorem c13_translated_debug_fmt : forall e f,
  g_eff_debug_fmt e f = option_map (fun t => (f ++ t, inl tt)) (e_debug e).
Proof. exact g_eff_debug_fmt_eq. Qed.

Theorem c13_translated_colors_are_model :
  (forall c yes, g_ansi_bright c yes = Some (ansi_bright c yes)) /\
  (forall c, g_ansi_is_bright c = Some (ansi_is_bright c)) /\
  (forall n, g_a256_into_ansi n = Some (ansi256_into_ansi n)) /\
  (forall c, g_a256_from_ansi c = Some (ansi256_from_ansi c)).
Proof. exact translated_colors_are_model. Qed.

Theorem c13_translated_style_is_model :
  g_st_new = st_new /\
  (forall s v, g_st_fg_color s v = st_fg_color s v /\ g_st_bg_color s v = st_bg_color s v /\
               g_st_underline_color s v = st_underline_color s v) /\
  (forall s e, g_st_effects s e = st_effects s e /\ g_st_bitor s e = st_bitor s e /\ g_st_bitor_assign s e = st_bitor_assign s e /\
               g_st_sub s e = st_sub s e /\ g_st_sub_assign s e = st_sub_assign s e /\ g_st_eq_effects s e = st_eq_effects s e) /\
  (forall m s, g_st_conv m s = st_conv m s) /\
  (forall s, g_st_get_fg_color s = st_get_fg_color s /\ g_st_get_bg_color s = st_get_bg_color s /\
             g_st_get_underline_color s = st_get_underline_color s /\ g_st_get_effects s = st_get_effects s /\
             g_st_is_plain s = st_is_plain s) /\
  (forall e, g_st_from_effects e = st_from_effects e).
Proof. exact translated_style_is_model. Qed.

(* hence the translated code obeys the laws above; two of them spelled out on the translated functions:
   the translated iterator yields exactly the members, in declaration order, and the translated Debug
   prints their names *)
Theorem c13_translated_iter_members : forall e, g_eff_iter_items e = Some (map singleton (members e)).
Proof. exact (fun e => eq_trans (g_eff_iter_eq e) (iter_members e)). Qed.

Theorem c13_translated_debug_names_members : forall e, g_eff_debug e = Some (sp_debug e).
Proof. exact (fun e => eq_trans (g_eff_debug_eq e) (debug_is_spec e)). Qed.
