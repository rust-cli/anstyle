(* C04: no panic, overflow or memory error on any untrusted input.  Only statements,
   each closed by [exact]; the buffer capacity and one closed example by [vm_compute].

   Every hand model of this development returns the panic value
   [None] exactly where the Rust code would panic: array index out of bounds, slice
   range, `str` slicing off a character boundary, integer overflow at the Rust width
   (u8 / u16 / i32 arithmetic; `csub`, `cadd`), `unwrap` / `expect` on None,
   `unreachable!`, ArrayVec::push on a full vector.  This file is the list of the public
   entry points that consume terminal output or user-supplied style text, each with the
   theorem that its model NEVER returns [None], for EVERY input (bytes are < 256, the Rust
   type u8; nothing else is assumed unless the comment on the theorem says so), together
   with the preconditions of the `unsafe` blocks:
     - `from_utf8_unchecked` in the text strip adapter (pieces are valid UTF-8 inside
       the input: c04_strip_str_pieces_sound),
     - `transmute` from table nibbles to State / Action in `unpack`
       (c04_state_change_total: only valid discriminants),
     - the MaybeUninit array of OSC slices (the model's osc_params accesses are
       bounds-checked [aget]/[aset] and its slices checked [slice]: covered by
       c04_parser_never_panics; at most 16 fields: c04_parser_limits),
     - `from_utf8_unchecked` on the 19-byte colour DisplayBuffer (c04_display_buffer_bound:
       never more than 19 bytes; its content is ASCII digits and literals, C05).
   Most statements are theorems of C01-C03, C05, C06, C10-C12, C15, C18, C20; Proofs/NoPanic.v
   adds the totality of whole strip stream / AutoStream operation sequences over arbitrary
   scripted inner writers, of the fixed-buffer parser configuration, of the formatter paths,
   and of the SVG converter.

   PARTIAL.  The theorems are about the MODELS, tied to the code by the correspondence
   runs (debug + release, hostile inputs, every harness; vlib/props/c04.py).  That the
   compiled code has no OTHER source of undefined behaviour -- miscompilation, UB inside
   dependencies, the allocator, stack or heap exhaustion -- is outside a Coq model. *)
From Coq Require Import ZArith NArith List Bool.
From AV Require Import Generated.Table Generated.Style Generated.Render Generated.Palette Generated.ParseCfg
  Spec.Utf8 Spec.Vt Spec.Strip Spec.Sgr Spec.Io Spec.Lossy Spec.StyleRec Spec.Render
  Model.Base Model.Utf8parse Model.Parser Model.Strip Model.Wincon Model.Stream Model.WinconStream
  Model.Lossy Model.Svg Model.Git Model.Ls Model.Roff Model.ParseCfg Model.Render
  Proofs.TableFacts Proofs.ParserSim Proofs.VtLimits Proofs.ParserCor Proofs.StripMachine Proofs.StripSim Proofs.StripStr
  Proofs.StripPieces Proofs.WinconRuns Proofs.WinconConsole Proofs.Stream Proofs.StreamAuto
  Proofs.Lossy Proofs.Git Proofs.LsParse Proofs.Roff Proofs.ParseCfg Proofs.Render Proofs.Svg Proofs.NoPanic.
From AV Require Import Generated.ParserFn Proofs.ParserGen Generated.StripFn Proofs.StripGen Generated.WinconFn Proofs.WinconGen Generated.LossyFn
  Generated.LsFn Generated.GitFn Generated.RoffFn Proofs.NoPanicGen.
From AV Require Import Model.Utf8parse Model.Imp Generated.Utf8parseFn Proofs.Utf8parseGen.
Import ListNotations.
Local Open Scope N_scope.

(* anstyle-parse: Parser::advance, state::state_change *)

(* the public table lookup is total: `unpack`'s transmute only ever sees the nibbles of
   valid State / Action discriminants (checked for all 16 x 256 entries of the generated
   table) *)
Theorem c04_state_change_total :
  forall s b, b < 256 -> exists s' a, state_change s b = Some (s', a).
Proof. exact state_change_total. Qed.

(* one-shot: for every byte string the model of Parser::advance (bounds-checked params /
   intermediates / osc_params arrays, checked `byte - b'0'` and `len - current_subparams`,
   checked slices of osc_raw) never reaches a panic *)
Theorem c04_parser_never_panics :
  forall bs, Forall (fun b => b < 256) bs -> events_model bs <> None.
Proof. exact parser_never_panics. Qed.

(* incrementally: from EVERY state the parser can be in ([R p s]: related to a state of
   the specification machine by C02's simulation relation; [R parser_new vt_init]), any
   further bytes are processed without panic and leave such a state again *)
Theorem c04_parser_total_from_reachable :
  forall bs p s, Forall (fun b => b < 256) bs -> R p s ->
  exists p', run cfg_default p bs = Some (p', snd (vt_run s bs)) /\ R p' (fst (vt_run s bs)).
Proof. exact run_sim. Qed.

Theorem c04_parser_new_reachable : R parser_new vt_init.
Proof. exact R_init. Qed.

(* the is_full guards: whatever the input, no reported event carries more than 32
   parameter values, 2 intermediates, 16 OSC fields, a value above 65535 *)
Theorem c04_parser_limits :
  forall bs, bytes_ok bs -> exists evs, events_model bs = Some evs /\ Forall event_ok evs.
Proof. exact model_limits. Qed.

(* feature `core` (ArrayVec<u8, cap> for osc_raw) with `utf8`: total for every input and
   every capacity ... *)
Theorem c04_parser_fixed_buffer_total :
  forall cap bs, Forall (fun b => b < 256) bs ->
  exists p e, run (mkCfg (Some cap) true) parser_new bs = Some (p, e).
Proof. exact pc_fixed_total. Qed.

(* ... the buffer never holds more than its capacity, at any prefix of any input
   (conditional on the run answering: it does by the theorem above when `utf8` is on) ... *)
Theorem c04_osc_never_overflows :
  forall cap u bs1 bs2 p' e,
    run (mkCfg (Some cap) u) parser_new (bs1 ++ bs2) = Some (p', e) ->
    exists p1 e1, run (mkCfg (Some cap) u) parser_new bs1 = Some (p1, e1) /\
                  N.of_nat (length (osc_raw p1)) <= cap /\
                  N.of_nat (length (osc_raw p')) <= cap.
Proof. exact pc_osc_never_overflows. Qed.

(* ... and a byte is pushed only while there is room (ArrayVec::push cannot panic) *)
Theorem c04_osc_push_has_room :
  forall cap u p b p' e,
    N.of_nat (length (osc_raw p)) <= cap ->
    perform_action (mkCfg (Some cap) u) p AOscPut b = Some (p', e) ->
    length (osc_raw p') = S (length (osc_raw p)) -> N.of_nat (length (osc_raw p)) < cap.
Proof. exact pc_push_has_room. Qed.

(* NOT total: the configurations WITHOUT the `utf8` feature.  AsciiParser::add is
   `unreachable!`, reached by a byte C2..F4 in Ground; that is the only additional panic
   (documented limit of a non-default configuration: "only allow parsing 7-bit ASCII") *)
Theorem c04_no_utf8_panics_only_on_high_bytes :
  forall cap bs p,
    pstate p <> Utf8 ->
    run (mkCfg cap false) p bs = None -> run (mkCfg cap true) p bs <> None ->
    exists pre b post q e,
      bs = pre ++ b :: post /\ run (mkCfg cap true) p pre = Some (q, e) /\
      pstate q = Ground /\ 194 <= b <= 244.
Proof. exact pc_no_utf8_panic. Qed.

(* anstream::adapter::strip (strip_bytes, strip_str, StripBytes, StripStr) *)

(* one-shot byte adapter, every byte string *)
Theorem c04_strip_bytes_total :
  forall input, Forall (fun b => b < 256) input -> exists out, strip_bytes_model input = Some out.
Proof. exact strip_bytes_model_total. Qed.

(* one-shot text adapter: the model answers for every byte string (the type &str only
   hands it valid UTF-8) *)
Theorem c04_strip_str_total :
  forall input, Forall (fun b => b < 256) input -> exists out, strip_str_model input = Some out.
Proof. exact strip_str_model_total. Qed.

(* the iterators StrippedBytes / StrippedStr drained from ANY scanner state (incremental
   use); the fuel is the loop bound [length input + 1] *)
Theorem c04_strip_bytes_iter_total :
  forall fuel bs off st u,
  (length bs < fuel)%nat -> bytes_ok bs -> exists x, bytes_iter fuel bs off st u = Some x.
Proof. exact bytes_iter_total. Qed.

Theorem c04_strip_str_iter_total :
  forall fuel bs off st,
  (length bs < fuel)%nat -> bytes_ok bs -> exists x, str_iter fuel bs off st = Some x.
Proof. exact str_iter_total. Qed.

(* the last sentence of the property and the `from_utf8_unchecked` obligation of
   next_str: for valid UTF-8 input every returned piece is a non-empty substring of the
   input at the offset it reports, in order, non-overlapping ([pieces_in]), and is valid
   UTF-8 ([pieces_valid]) -- it starts and ends on character boundaries *)
Theorem c04_strip_str_pieces_sound :
  forall input, bytes_ok input -> valid_utf8 input = true ->
  exists ps, strip_str_pieces input = Some ps /\ pieces_in 0 input ps /\ pieces_valid ps.
Proof. exact strip_str_pieces_sound. Qed.

Theorem c04_strip_str_pieces_utf8 :
  forall input ps, bytes_ok input -> valid_utf8 input = true ->
  strip_str_pieces input = Some ps -> pieces_valid ps.
Proof. exact strip_str_pieces_utf8. Qed.

(* the byte adapter's pieces lie inside the input as well (every byte string) *)
Theorem c04_strip_bytes_pieces_inside :
  forall input ps, strip_bytes_pieces input = Some ps -> pieces_in 0 input ps.
Proof. exact strip_bytes_pieces_wf. Qed.

Theorem c04_strip_str_pieces_inside :
  forall input ps, strip_str_pieces input = Some ps -> pieces_in 0 input ps.
Proof. exact strip_str_pieces_wf. Qed.

(* anstream::StripStream / AutoStream (io::Write) *)

(* EVERY sequence of write / write_all / write_vectored / write_fmt / flush, over EVERY
   scripted inner writer (short writes, Interrupted / WouldBlock / other errors), from
   every reachable stream state ([SInv]; the new stream is one): never a panic -- in
   particular `offset_to(buf, &printable[written..])` never slices past the end when the
   inner writer keeps the Write contract -- and the state stays reachable, also after an
   error.  (C06 has this per call on the success paths.) *)
Theorem c04_strip_stream_ops_total :
  forall ops s w,
  SInv s -> Forall op_bytes_lt ops -> exists s' w' rs, ss_run s w ops = Some (s', w', rs) /\ SInv s'.
Proof. exact ss_run_total. Qed.

Theorem c04_strip_stream_new_reachable : SInv sb_new.
Proof. exact SInv_new. Qed.

(* AutoStream in either arm (strip / pass-through), vectored writes of either kind *)
Theorem c04_auto_stream_ops_total :
  forall b m ops s w,
  SInv s -> Forall op_bytes_lt ops -> exists s' w' rs, run_ops b m s w ops = Some (s', w', rs) /\ SInv s'.
Proof. exact run_ops_total. Qed.

(* the caller protocol over write (resubmit the tail, retry on Interrupted) terminates
   without panic for every script and buffer *)
Theorem c04_strip_stream_protocol_total :
  forall script buf, bytes_ok buf ->
  exists s' w' r, ss_drive_all script buf = Some (s', w', r) /\
    (exists q, spec_strip buf = w_received w' ++ q /\ (r = ROk -> q = [])) /\
    (forall n, r <> ROkN n).
Proof. exact protocol_delivers_spec_strip. Qed.

(* anstream::adapter::wincon (WinconBytes::extract_next) *)

(* the SGR decoder never fails: `to_ansi_color(v - 30).expect(..)` sits under the range
   pattern that excludes the failure, `v - 30` cannot underflow there *)
Theorem c04_sgr_dispatch_total :
  forall s ps, exists s', sgr_dispatch s ps = Some s'.
Proof. exact sgr_dispatch_total. Qed.

(* the extractor, from every reachable parser state and ANY capture *)
Theorem c04_extract_next_total :
  forall bs p v c, Forall (fun b => b < 256) bs -> R p v ->
  exists its p' c', extract_next bs p c = Some (its, p', c') /\ (exists v', R p' v').
Proof. exact extract_next_total. Qed.

(* anstream::WinconStream (legacy console) *)

Theorem c04_console_stream_ops_total :
  forall ops s c,
  ws_wf s -> Forall op_bytes_lt ops ->
  exists s1 c1 rs, wc_run_ops s c ops = Some (s1, c1, rs) /\ ws_wf s1.
Proof. exact ops_total. Qed.

Theorem c04_console_stream_new_reachable : ws_wf ws_new.
Proof. exact ws_new_wf. Qed.

(* anstyle: DisplayBuffer, Style / Color Display *)

(* every colour a Color can hold ([rn_color_wf]: palette index < 16, u8 components), in
   each of the three slots: no store past the end of the buffer and at most
   DISPLAY_BUFFER_CAPACITY = 19 bytes in it *)
Theorem c04_display_buffer_bound :
  forall c, rn_color_wf c ->
  (exists p, rn_color_fg_buffer c = Some p /\ N.of_nat (length p) <= rn_display_buffer_capacity) /\
  (exists p, rn_color_bg_buffer c = Some p /\ N.of_nat (length p) <= rn_display_buffer_capacity) /\
  (exists p, rn_color_ul_buffer c = Some p /\ N.of_nat (length p) <= rn_display_buffer_capacity).
Proof. exact buffer_bound. Qed.

Theorem c04_display_buffer_capacity : rn_display_buffer_capacity = 19.
Proof. vm_compute. reflexivity. Qed.

(* `{}` / `{:#}` with every width, fill, alignment, precision, for every style value
   ([rn_wf]: effect set below 2^12 -- all the public API can build, C13 -- u8 components) *)
Theorem c04_display_total :
  forall alternate flags s, rn_wf (rn_sstyle s) -> exists bs, rn_display alternate flags s = Some bs.
Proof. exact rn_display_total. Qed.

Theorem c04_write_to_total :
  forall s, rn_wf (rn_sstyle s) -> exists bufs, rn_write_to s = Some bufs.
Proof. exact rn_write_to_total. Qed.

(* anstyle-lossy, with ANY palette *)

(* no i32 intermediate of `distance` overflows: its value is the red-mean distance,
   which lies in [0, 2^31) ([distance] returns None on any overflow at width i32) *)
Theorem c04_distance_no_overflow :
  forall a b, rgb_ok a -> rgb_ok b ->
    distance a b = Some (Z.to_N (redmean_distance a b)) /\
    (0 <= redmean_distance a b < 2147483648)%Z.
Proof. exact distance_range. Qed.

(* best_index is bounded by the palette length: find_match answers an index < 16 (the
   `expect` on AnsiColor::from_index cannot fail), find_xterm_match an index in 16..255 *)
Theorem c04_find_match_in_range :
  forall p c, palette_ok p -> rgb_ok c ->
    exists i, rgb_to_ansi c p = Some i /\ i < 16 /\ is_argmin_lowest (redmean_distance c) p i.
Proof. exact find_match_argmin. Qed.

Theorem c04_find_xterm_match_in_range :
  forall c, rgb_ok c ->
    exists i, rgb_to_xterm c = Some i /\ 16 <= i < 256 /\
              is_argmin_lowest (redmean_distance c) (skipn 16 xterm_colors) (i - 16).
Proof. exact rgb_to_xterm_argmin. Qed.

(* every public conversion, every colour value, every palette of 16 entries with u8
   components (all-equal, duplicated, extreme entries included): total, results in range *)
Theorem c04_lossy_conversions_total :
  forall col p, color_ok col -> palette_ok p ->
    (exists r, color_to_rgb col p = Some r /\ rgb_ok r) /\
    (exists i, color_to_xterm col = Some i /\ i < 256) /\
    (exists a, color_to_ansi col p = Some a /\ a < 16).
Proof. exact conversions_total. Qed.

(* anstyle-git, anstyle-ls: every sequence of code points (a Rust &str): `&s[1..]`, `&hex[0..2]` ...
   never slice inside a character (as repaired in 62b35cd; the unrepaired code panics on "#é1") *)
Theorem c04_git_no_panic : forall s : list N, git_parse s <> None.
Proof. exact git_no_panic. Qed.

Theorem c04_ls_no_panic : forall s : list N, ls_parse s <> None.
Proof. exact ls_no_panic. Qed.

(* anstyle-roff: to_roff(text).to_roff() with cansi 2.2.1 and roff 0.2.1 as transcribed: every input *)
Theorem c04_roff_total : forall input : list N, exists doc, rf_to_roff input = Some doc.
Proof. exact rf_to_roff_total. Qed.

(* anstyle-svg: Term::render_svg, every input, every palette and default colours a Term can hold:
   the abstract document exists (color_name's AnsiColor lookup, rgb_value's lossy
   conversion and the span classes never fail, because every colour the extractor
   yields is in range); the printed text [svg_print] is a total function of it.
   (unicode_width -- third party -- enters svg_print as an arbitrary function; Props/C14.v
   puts the translated crate in its place.) *)
Theorem c04_svg_total :
  forall t input,
  palette_ok (svg_t_palette t) -> svg_colour_ok (svg_t_fg t) = true -> svg_colour_ok (svg_t_bg t) = true ->
  Forall (fun b => b < 256) input ->
  exists d, svg_doc t input = Some d.
Proof. exact svg_doc_total. Qed.

(* The same, of the code translated from the Rust source.
   Generated/*Fn.v is re-written from crates/**.rs on every run (tools/rs2v, DESIGN.md section 12);
   a translated function is [None] exactly where the function as written would panic (index,
   slice range, checked arithmetic, unwrap / expect, loop fuel).  These statements do not go through
   the hand-model tie by correspondence. *)

Theorem c04_translated_parser_never_panics :
  forall bs, Forall (fun b => b < 256) bs -> g_run cfg_default parser_new [] bs <> None.
Proof. exact translated_parser_never_panics. Qed.

Theorem c04_translated_strip_bytes_never_panics :
  forall input, Forall (fun b => b < 256) input -> g_stripped_bytes_into_vec (g_strip_bytes input) <> None.
Proof. exact translated_strip_bytes_never_panics. Qed.

Theorem c04_translated_strip_str_never_panics :
  forall input, Forall (fun b => b < 256) input -> g_strip_str_to_string input <> None.
Proof. exact translated_strip_str_never_panics. Qed.

Theorem c04_translated_extract_next_never_panics :
  forall bs p v c, Forall (fun b => b < 256) bs -> R p v -> g_extract_next bs p c <> None.
Proof. exact translated_extract_next_never_panics. Qed.

Theorem c04_translated_lossy_never_panics :
  forall col p, color_ok col -> palette_ok p ->
  g_color_to_rgb col p <> None /\ g_color_to_xterm col <> None /\ g_color_to_ansi col p <> None.
Proof. exact translated_lossy_never_panics. Qed.

Theorem c04_translated_ls_parse_never_panics : forall s, g_ls_parse s <> None.
Proof. exact translated_ls_parse_never_panics. Qed.

Theorem c04_translated_git_parse_never_panics : forall s, g_git_parse s <> None.
Proof. exact translated_git_parse_never_panics. Qed.

Theorem c04_translated_to_roff_never_panics : forall input, g_to_roff input <> None.
Proof. exact translated_to_roff_never_panics. Qed.

(* non-vacuity, one hostile input through the entry points:
   ESC [ with 34 parameters, among them a 25-digit number, ':' subparameters and a third
   intermediate; an OSC with 18 fields cut by CAN; a truncated 4-byte character followed
   by ESC; a lone continuation byte, an overlong form, FF; DCS ended by SUB; an
   unterminated CSI at the end.  None of the models answers the panic value. *)
Definition c04_hostile : list N :=
  [27; 91] ++ concat (repeat [49; 59] 33) ++ [57; 57; 57; 57; 57; 57; 57; 57; 57; 57; 57; 57; 57; 57; 57; 57; 57; 57; 57; 57; 57; 57; 57; 57; 57;
   58; 58; 51; 32; 33; 34; 109]
  ++ [27; 93] ++ concat (repeat [97; 59] 18) ++ [24]
  ++ [240; 159; 152; 27; 91; 51; 56; 59; 53; 59; 50; 53; 54; 109; 88; 128; 192; 175; 255; 10; 13; 10]
  ++ [27; 80; 49; 59; 50; 124; 0; 65; 26; 226; 130; 172; 27; 91; 52; 56; 59; 50; 59].

Theorem c04_example :
  events_model c04_hostile <> None /\
  strip_bytes_model c04_hostile <> None /\
  strip_str_model c04_hostile <> None /\
  extract_next c04_hostile parser_new capture_default <> None /\
  run (mkCfg (Some 8) true) parser_new c04_hostile <> None /\
  svg_doc svg_term_new c04_hostile <> None /\
  rf_to_roff c04_hostile <> None /\
  ls_parse c04_hostile <> None /\
  git_parse [35; 233; 49; 32; 35; 43; 102; 43; 102; 43; 102; 32; 43; 50; 53; 54; 32; 1114111; 0; 65533] <> None /\
  ss_run sb_new (writer_of [Accept 1; Fail Interrupted; Accept 0; Fail Other])
         [OWrite c04_hostile; OWriteAll c04_hostile; OWriteVectored [[]; c04_hostile]; OWriteFmt [[240; 159]; c04_hostile]; OFlush] <> None.
Proof. vm_compute. repeat split; discriminate. Qed.

(* the third-party decoder `utf8parse`, translated from the registry source of the version Cargo.lock pins
   (Generated/Utf8parseFn.v, tools/gen_fn_utf8parse.py): no step panics (the shifts stay inside the u32), whatever
   the decoder holds and whatever the byte *)
Theorem c04_translated_utf8parse_never_panics :
  forall p r b, g_u8_parser_advance p r b <> None.
Proof. exact translated_advance_never_panics. Qed.

Theorem c04_translated_utf8parse_run_never_panics :
  forall bs p r, g_u8_run p r bs <> None.
Proof. exact translated_run_never_panics. Qed.

(* ... and its one unsafe call, `char::from_u32_unchecked(point)` (read as the identity by the translation), is
   within its contract: every code point a decoder started from Parser::new() hands to its receiver is a Unicode
   scalar value (no surrogate, below 0x110000) *)
Theorem c04_translated_utf8parse_unchecked_char_is_scalar :
  forall bs p r, Forall (fun b => b < 256) bs ->
  g_u8_run g_u8_parser_new [] bs = Some (p, r) -> Forall u8_out_scalar r.
Proof. exact unchecked_char_is_scalar. Qed.
