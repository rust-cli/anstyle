(* C10: lossy colour conversion (anstyle-lossy) is total, exact on exact matches and
   nearest otherwise.  Domain everywhere: RGB components < 256 (u8), a palette of exactly 16
   such colours ([palette_ok], ANY such palette, not only the shipped ones), ANSI
   numbers < 16, 256-colour indices < 256 ([color_ok]).  A model result [None]
   means "the Rust code would panic / overflow". *)
From Coq Require Import ZArith NArith List Bool.
From AV Require Import Generated.Palette Spec.Lossy Model.Base Model.Lossy Proofs.Lossy
  Generated.LossyFn Proofs.LossyGen.
Import ListNotations.
Local Open Scope N_scope.

(* no i32 intermediate of `distance` overflows, and its value is the red-mean
   weighted distance, which lies in [0, 2^31) *)
Theorem c10_distance_range :
  forall a b, rgb_ok a -> rgb_ok b ->
    distance a b = Some (Z.to_N (redmean_distance a b)) /\
    (0 <= redmean_distance a b < 2147483648)%Z.
Proof. exact distance_range. Qed.

Theorem c10_distance_zero :
  forall a b, rgb_ok a -> rgb_ok b ->
    (redmean_distance a b = 0%Z <-> a = b) /\ (distance a b = Some 0 <-> a = b).
Proof. exact distance_zero_both. Qed.

(* 16-colour target: the result is an index < 16 of minimal distance, every lower
   index being strictly farther *)
Theorem c10_find_match_argmin :
  forall p c, palette_ok p -> rgb_ok c ->
    exists i, rgb_to_ansi c p = Some i /\ i < 16 /\ is_argmin_lowest (redmean_distance c) p i.
Proof. exact find_match_argmin. Qed.

(* 256-colour target: the candidates are exactly entries 16..255 of XTERM_COLORS *)
Theorem c10_rgb_to_xterm_argmin :
  forall c, rgb_ok c ->
    exists i, rgb_to_xterm c = Some i /\ 16 <= i < 256 /\
              is_argmin_lowest (redmean_distance c) (skipn 16 xterm_colors) (i - 16).
Proof. exact rgb_to_xterm_argmin. Qed.

(* ... and those entries are the standard 6x6x6 cube and 24-step grey ramp *)
Theorem c10_xterm_candidates_standard :
  @length rgb xterm_colors = 256%nat /\ skipn 16 xterm_colors = xterm240 /\
  forall i, 16 <= i < 256 -> nth_error xterm_colors (N.to_nat i) = Some (xterm_fixed i).
Proof. exact xterm_candidates_standard. Qed.

(* a 256-colour index >= 16 goes to the 16-colour palette through its fixed colour *)
Theorem c10_xterm_to_ansi_argmin :
  forall p i, palette_ok p -> 16 <= i < 256 ->
    exists a, xterm_to_ansi i p = Some a /\ a < 16 /\
              is_argmin_lowest (redmean_distance (xterm_fixed i)) p a.
Proof. exact xterm_to_ansi_argmin. Qed.

(* a colour equal to palette entry k maps to the lowest index that holds it *)
Theorem c10_exact_hit_ansi :
  forall p k e, palette_ok p -> nth_error p k = Some e ->
    exists i, rgb_to_ansi e p = Some i /\ (N.to_nat i <= k)%nat /\
              nth_error p (N.to_nat i) = Some e /\
              forall j, (j < N.to_nat i)%nat -> nth_error p j <> Some e.
Proof. exact exact_hit_ansi. Qed.

(* a colour equal to fixed entry k of the 256 palette maps to k *)
Theorem c10_exact_hit_xterm :
  forall k e, 16 <= k < 256 -> nth_error xterm_colors (N.to_nat k) = Some e ->
    rgb_to_xterm e = Some k.
Proof. exact exact_hit_xterm. Qed.

(* a colour already of the target kind is returned unchanged *)
Theorem c10_same_kind_identity :
  (forall c p, color_to_rgb (Rgb c) p = Some c) /\
  (forall i, color_to_xterm (Ansi256 i) = Some i) /\
  (forall a p, color_to_ansi (Ansi a) p = Some a).
Proof. exact same_kind_identity. Qed.

(* indices 0-15 of the 256-colour palette are the 16-colour palette and read the
   user palette *)
Theorem c10_low_indices :
  forall p a, palette_ok p -> a < 16 ->
    color_to_xterm (Ansi a) = Some a /\
    xterm_to_ansi a p = Some a /\
    color_to_ansi (Ansi256 a) p = Some a /\
    exists e, nth_error p (N.to_nat a) = Some e /\
              ansi_to_rgb a p = Some e /\ xterm_to_rgb a p = Some e /\
              palette_get p a = Some e /\ palette_index p a = Some e /\
              color_to_rgb (Ansi a) p = Some e /\ color_to_rgb (Ansi256 a) p = Some e.
Proof. exact low_indices. Qed.

Theorem c10_high_indices_rgb :
  forall p i, palette_ok p -> 16 <= i < 256 ->
    xterm_to_rgb i p = Some (xterm_fixed i) /\ color_to_rgb (Ansi256 i) p = Some (xterm_fixed i).
Proof. exact high_indices_rgb. Qed.

(* totality: no conversion panics, results are in range *)
Theorem c10_conversions_total :
  forall col p, color_ok col -> palette_ok p ->
    (exists r, color_to_rgb col p = Some r /\ rgb_ok r) /\
    (exists i, color_to_xterm col = Some i /\ i < 256) /\
    (exists a, color_to_ansi col p = Some a /\ a < 16).
Proof. exact conversions_total. Qed.

(* the model equals the executable specification used as the oracle of the
   correspondence runs *)
Theorem c10_model_is_spec :
  forall col p, color_ok col -> palette_ok p ->
    color_to_rgb col p = spec_to_rgb p col /\
    color_to_xterm col = spec_to_xterm col /\
    color_to_ansi col p = spec_to_ansi p col.
Proof. exact model_is_spec. Qed.

(* the executable arg-min of Spec/Lossy.v is the declarative one *)
Theorem c10_argmin_lowest_correct :
  forall (d : rgb -> Z) l i, argmin_lowest d l = Some i <-> is_argmin_lowest d l i.
Proof. exact argmin_lowest_correct. Qed.

Theorem c10_shipped_palettes_ok : palette_ok vga /\ palette_ok win10_console.
Proof. exact shipped_palettes_ok. Qed.

(* Generated/LossyFn.v is written on every run by tools/gen_fn_lossy.py (tools/rs2v) from the
   Rust sources of distance, find_xterm_match, Palette::{find_match, get, rgb_from_index, ...},
   rgb_to_ansi / rgb_to_xterm / xterm_to_rgb / xterm_to_ansi / color_to_{rgb,xterm,ansi} and
   the accessors of anstyle they call (RgbColor::{r,g,b}, Ansi256Color::{index, into_ansi,
   from_ansi}); each computes exactly what the hand model -- the subject of every theorem
   above -- computes, for ALL inputs (in range or not), a panic ([None]) included. *)
Theorem c10_translated_distance_is_model :
  forall c1 c2, g_distance c1 c2 = distance c1 c2.
Proof. exact g_distance_eq. Qed.

Theorem c10_translated_find_xterm_match_is_model :
  forall c, g_find_xterm_match c = find_xterm_match c.
Proof. exact g_find_xterm_match_eq. Qed.

Theorem c10_translated_find_match_is_model :
  forall p c, g_find_match p c = find_match p c.
Proof. exact g_find_match_eq. Qed.

Theorem c10_translated_palette_reads_are_model :
  forall p a i,
    g_palette_get p a = palette_get p a /\ g_palette_index p a = palette_index p a /\
    g_rgb_from_index p i = rgb_from_index p i.
Proof. exact translated_palette_reads. Qed.

Theorem c10_translated_xterm_is_model :
  forall i p, g_xterm_to_rgb i p = xterm_to_rgb i p /\ g_xterm_to_ansi i p = xterm_to_ansi i p.
Proof. exact translated_xterm. Qed.

Theorem c10_translated_lossy_is_model :
  forall col p,
    g_color_to_rgb col p = color_to_rgb col p /\
    g_color_to_xterm col = color_to_xterm col /\
    g_color_to_ansi col p = color_to_ansi col p.
Proof. exact translated_lossy_is_model. Qed.

(* hence the translated code computes the specification on the domain of C10 *)
Theorem c10_translated_lossy_is_spec :
  forall col p, color_ok col -> palette_ok p ->
    g_color_to_rgb col p = spec_to_rgb p col /\
    g_color_to_xterm col = spec_to_xterm col /\
    g_color_to_ansi col p = spec_to_ansi p col.
Proof. exact translated_lossy_is_spec. Qed.

(* impl Default for Palette (non-Windows configuration: `pub use VGA as DEFAULT`) *)
Theorem c10_translated_palette_default : g_palette_default = palette_default.
Proof. exact g_palette_default_eq. Qed.

(* impl From<[RgbColor; 16]> for Palette *)
Theorem c10_translated_palette_from : forall raw, g_palette_from raw = palette_from raw.
Proof. exact g_palette_from_eq. Qed.

(* the default palette lies in the domain of the property *)
Theorem c10_translated_palette_default_ok : palette_ok g_palette_default.
Proof. exact translated_palette_default_ok. Qed.
