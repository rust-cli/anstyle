(* C18: the legacy-console stream hands over each run once with 16-colour fg/bg.
   Only statements, each closed by [exact] (the example by evaluation).

   Vocabulary (Proofs/WinconConsole, Proofs/WinconSpecRuns):
     ws_wf s        the stream's parser is in a state the parser can be in (related
                    to a state of the specification machine by C02's simulation
                    relation R); ws_new is, every operation keeps it (also after an
                    error): c18_ops_total
     run_call (style, txt) = mkCC (cap_opt (s_fg style)) (cap_opt (s_bg style))
                                  (str_bytes txt) (inl (length (str_bytes txt)))
     accepted calls        the bytes the console accepted: [firstn n data] of every
                           [inl n] call, in order
     accepted_col calls    the same, every byte with the fg/bg it was written in
     runs_bytes / runs_col the UTF-8 bytes of a run list / with the capped colours
     err_from new k        new = pre ++ [last] and [last] answered [inr k], k not
                           Interrupted, or answered [inl 0] and k = WriteZero
     byte_clean b          b <> 27 /\ (b < 32 -> b = 9 \/ b = 10 \/ b = 12 \/ b = 13) *)
From Coq Require Import NArith List Bool.
From AV Require Import Generated.Table Spec.Utf8 Spec.Vt Spec.Sgr Spec.Io Model.Base Model.Parser
  Model.Wincon Model.Stream Model.WinconStream
  Proofs.TableFacts Proofs.ParserSim Proofs.WinconRuns Proofs.WinconSpecRuns Proofs.WinconConsole Generated.WinconFn Proofs.WinconGen
  Generated.WinconStreamFn Proofs.WinconStreamGen.
Import ListNotations.
Local Open Scope N_scope.

(* finite fact used by C02's simulation (Proofs/ParserSim.v) behind the runs theorems:
   the generated table is the by-range VT model (complete enumeration of states x 256 bytes) *)
Theorem c18_table_is_williams :
  forall s b, b < 256 -> trans_matches s b = true.
Proof. exact table_is_williams. Qed.

(* write_all over an accept-all console: Ok, and the new console calls are exactly
   the runs extract_next yields for the buffer from the same state -- every run once,
   in order, whole, colours capped *)
Theorem c18_write_all_hands_over :
  forall s buf c,
  ws_wf s -> Forall (fun b => b < 256) buf -> con_script c = [] ->
  exists its p' cap',
    extract_next buf (ws_parser s) (ws_capture s) = Some (its, p', cap') /\
    wc_write_all s buf c
      = Some (mkWS p' cap', mkCon [] (con_calls c ++ map run_call its) (con_flushes c), ROk).
Proof. exact write_all_hands_over. Qed.

(* write_all over ANY console script: total (never a panic); on Ok the bytes the
   console accepted, in order and each with the colours it was written in, are the
   bytes of the runs with their capped colours (short writes are completed, nothing
   is repeated or dropped); on Err k they are a prefix of that and k comes from the
   console's last answer (or is WriteZero after an accepted count of 0) *)
Theorem c18_write_all_scripted :
  forall s buf c,
  ws_wf s -> Forall (fun b => b < 256) buf ->
  exists its p' cap' s1 c1 r new,
    extract_next buf (ws_parser s) (ws_capture s) = Some (its, p', cap') /\
    wc_write_all s buf c = Some (s1, c1, r) /\
    con_calls c1 = con_calls c ++ new /\ con_flushes c1 = con_flushes c /\
    ((r = ROk /\ s1 = mkWS p' cap' /\ accepted_col new = runs_col its /\ accepted new = runs_bytes its)
     \/ (exists k, r = RErr k /\
           (exists rest, accepted_col new ++ rest = runs_col its) /\
           (exists rest, accepted new ++ rest = runs_bytes its) /\
           err_from new k)).
Proof. exact write_all_scripted. Qed.

(* the retry loop of one run: every call carries the run's colours and a suffix of
   its bytes; accepted bytes = the run (Ok) or a prefix (Err) *)
Theorem c18_run_loop :
  forall fuel c fg bg buf,
  (length (con_script c) < fuel)%nat ->
  exists new,
    con_calls (fst (wc_run_loop fuel c fg bg buf)) = con_calls c ++ new /\
    con_flushes (fst (wc_run_loop fuel c fg bg buf)) = con_flushes c /\
    (length (con_script (fst (wc_run_loop fuel c fg bg buf))) <= length (con_script c))%nat /\
    Forall (fun cc => cc_fg cc = fg /\ cc_bg cc = bg /\ exists pre, buf = pre ++ cc_data cc) new /\
    match snd (wc_run_loop fuel c fg bg buf) with
    | inl _ => accepted new = buf
    | inr k => (exists rest, accepted new ++ rest = buf) /\ err_from new k
    end.
Proof. exact run_loop_spec. Qed.

(* write reports Ok(len buf) -- and then all of buf's text was handed over -- or an
   error; never a partial count *)
Theorem c18_write_reports_all_or_error :
  forall s buf c,
  ws_wf s -> Forall (fun b => b < 256) buf ->
  exists its p' cap' s1 c1 r new,
    extract_next buf (ws_parser s) (ws_capture s) = Some (its, p', cap') /\
    wc_write s buf c = Some (s1, c1, r) /\
    con_calls c1 = con_calls c ++ new /\
    ((r = ROkN (N.of_nat (length buf)) /\ s1 = mkWS p' cap' /\
      accepted_col new = runs_col its /\ accepted new = runs_bytes its)
     \/ (exists k, r = RErr k /\ (exists rest, accepted new ++ rest = runs_bytes its) /\ err_from new k)).
Proof. exact write_reports_all_or_error. Qed.

Theorem c18_write_never_partial :
  forall s buf c s1 c1 n,
  ws_wf s -> Forall (fun b => b < 256) buf ->
  wc_write s buf c = Some (s1, c1, ROkN n) -> n = N.of_nat (length buf).
Proof. exact write_never_partial. Qed.

(* colours are capped to the 16-colour palette *)
Theorem c18_cap_colour :
  (forall a, cap_wincon_color (CAnsi a) = Some a) /\
  (forall i, i < 16 -> cap_wincon_color (CIdx i) = Some i) /\
  (forall i, 16 <= i -> cap_wincon_color (CIdx i) = None) /\
  (forall r g b, cap_wincon_color (CRgb r g b) = None).
Proof. exact cap_colour. Qed.

(* no byte of a run's text is ESC, and every byte below 0x20 is TAB, LF, FF or CR:
   the text consists of code points the parser printed (>= 0x20 from Ground, a
   well-formed multi-byte character >= 0x80, or U+FFFD) and whitespace executes;
   for any input *)
Theorem c18_no_escape_bytes :
  forall input, Forall (fun b => b < 256) input ->
  exists its p c,
    extract_next input parser_new capture_default = Some (its, p, c) /\
    Forall (fun r => Forall byte_clean (str_bytes (snd r))) its.
Proof. exact no_escape_bytes. Qed.

(* ... hence whatever operations are applied to a new stream over whatever console
   script, every byte of every write_colored call is clean *)
Theorem c18_no_escape_stream :
  forall script ops s1 c1 rs,
  Forall op_bytes_lt ops ->
  wc_run_ops ws_new (console_of script) ops = Some (s1, c1, rs) ->
  Forall (fun cc => Forall byte_clean (cc_data cc)) (con_calls c1).
Proof. exact stream_no_escape. Qed.

(* no sequence of operations panics, and the state stays well-formed *)
Theorem c18_ops_total :
  forall ops s c,
  ws_wf s -> Forall op_bytes_lt ops ->
  exists s1 c1 rs, wc_run_ops s c ops = Some (s1, c1, rs) /\ ws_wf s1.
Proof. exact ops_total. Qed.

(* write_vectored = write of the first non-empty buffer *)
Theorem c18_vectored :
  forall s c bufs, wc_op s c (OWriteVectored bufs) = wc_write s (first_nonempty bufs) c.
Proof. exact vectored_is_write. Qed.

(* write_fmt = write_all of the fragments one after the other, stopping at the first
   error ... *)
Theorem c18_write_fmt :
  forall frags s c, wc_write_fmt s frags c = write_all_seq s frags c.
Proof. exact write_fmt_is_seq. Qed.

(* ... and over an accept-all console, from a state without pending text, it hands
   over the runs of the fragments, one call each, which as coloured bytes is what
   write_all of the concatenation hands over (with C03's chunking theorem) *)
Theorem c18_write_fmt_hands_over :
  forall frags s c,
  ws_wf s -> c_printable (ws_capture s) = [] -> c_ready (ws_capture s) = None ->
  Forall (fun b => b < 256) (concat frags) -> con_script c = [] ->
  exists itss its p' cap' c1,
    extract_chunks frags (ws_parser s) (ws_capture s) = Some (itss, p', cap') /\
    extract_next (concat frags) (ws_parser s) (ws_capture s) = Some (its, p', cap') /\
    wc_write_fmt s frags c = Some (mkWS p' cap', c1, ROk) /\
    con_calls c1 = con_calls c ++ map run_call (concat itss) /\
    accepted_col (map run_call (concat itss)) = runs_col its.
Proof. exact write_fmt_hands_over. Qed.

Theorem c18_ws_new_wf : ws_wf ws_new.
Proof. exact ws_new_wf. Qed.

(* non-vacuity: "hello ESC[31m world" with the script [Accept 2]: the first run needs
   two calls (2 bytes, then the remaining 4 with the script exhausted), the second
   run goes out in red *)
Theorem c18_example :
  exists s1,
  wc_write_all ws_new [104; 101; 108; 108; 111; 32; 27; 91; 51; 49; 109; 32; 119; 111; 114; 108; 100]
               (console_of [Accept 2])
  = Some (s1,
          mkCon [] [mkCC None None [104; 101; 108; 108; 111; 32] (inl 2);
                    mkCC None None [108; 108; 111; 32] (inl 4);
                    mkCC (Some 1) None [32; 119; 111; 114; 108; 100] (inl 6)] 0,
          ROk).
Proof. vm_compute. eexists. reflexivity. Qed.

(* WinconStream pulls its runs with next_bytes (Model/Wincon.v wincon_next, called by Model/WinconStream.v); the function
   translated from the Rust source (Generated/WinconFn.g_next_bytes, tools/gen_fn_wincon.py) is
   that model, up to the order of the result components ([next_shape]), panics included *)
Theorem c18_translated_next_bytes_is_model :
  forall bs p c, g_next_bytes bs p c = next_shape (wincon_next bs p c).
Proof. exact g_next_bytes_eq. Qed.

Theorem c18_translated_extract_next_is_model :
  forall bs p c, g_extract_next bs p c = extract_next bs p c.
Proof. exact translated_extract_next_is_model. Qed.

(* the iterator glue is translated too: `WinconBytes::new` (a derived Default) is the hand model's initial state, and
   new().extract_next(bytes).collect() written over the TRANSLATED `extract_next` / `WinconBytesIter::next`
   ([gt_extract_next]: reset the capture, copy parser and capture into the iterator, drain it, carry what it leaves) is
   [g_extract_next] on the carried parser and capture *)
Theorem c18_translated_wincon_bytes_new : g_wb_new = mkWB parser_new capture_default.
Proof. exact g_wb_new_eq. Qed.

Theorem c18_translated_extract_next_drive :
  forall bs wb,
  gt_extract_next bs wb =
  match g_extract_next bs (wb_parser wb) (wb_capture wb) with
  | Some (its, p, c) => Some (its, mkWB p c)
  | None => None
  end.
Proof. exact gt_extract_next_eq. Qed.

Theorem c18_translated_new_extract_next_is_model :
  forall bs,
  gt_extract_next bs g_wb_new =
  match extract_next bs parser_new capture_default with
  | Some (its, p, c) => Some (its, mkWB p c)
  | None => None
  end.
Proof. exact translated_wb_extract_next_is_model. Qed.

(* The Rust functions themselves.
   Generated/WinconStreamFn.v is the translation (tools/rs2v, tools/gen_fn_stream.py) of
   cap_wincon_color / write_all / write / write_fmt of crates/anstream/src/wincon.rs and of the
   `impl io::Write for WinconStream` methods that delegate to them, regenerated from the
   working tree on every run.  The translated code computes exactly what the hand model -- the
   subject of every theorem above -- computes (wconv_n / wconv_u only reorder the result triple
   and rename io::Result to sres).  (The console, extract_next and the anstyle accessors are vocabulary:
   see tools/gen_fn_stream.py; write_vectored and fmt::Adapter (Generated/FmtFn.v, Props/C06.v
   c06_translated_adapter_is_model) are translated too.) *)
Theorem c18_translated_cap_wincon_color_is_model :
  forall c, g_cap_wincon_color c = Some (cap_wincon_color c).
Proof. exact g_cap_wincon_color_eq. Qed.

Theorem c18_translated_write_all_is_model :
  forall raw s buf, wconv_u (g_wc_write_all raw s buf) = wc_write_all s buf raw.
Proof. exact g_wc_write_all_eq. Qed.

Theorem c18_translated_write_is_model :
  forall raw s buf, wconv_n (g_wc_write raw s buf) = wc_write s buf raw.
Proof. exact g_wc_write_eq. Qed.

Theorem c18_translated_write_fmt_is_model :
  forall raw s frags, wconv_u (g_wc_write_fmt raw s frags) = wc_write_fmt s frags raw.
Proof. exact g_wc_write_fmt_eq. Qed.

(* the Write methods of WinconStream { raw, state }, any operation sequence *)
Theorem c18_translated_stream_is_model :
  forall ops x,
  match g_wcs_run x ops with Some (x1, rs) => Some (wcs_state x1, wcs_raw x1, rs) | None => None end
  = wc_run_ops (wcs_state x) (wcs_raw x) ops.
Proof. exact translated_wincon_stream_is_model. Qed.

(* the constructors / accessors of WinconStream are translated too (Generated/WinconStreamFn.v): `new` starts from the
   initial state, which is the TRANSLATED `WinconBytes::new` (c18_translated_wincon_bytes_new); a stream made by `new`,
   driven by any operations and taken apart with `into_inner` is the hand model run from its initial state ... *)
Theorem c18_translated_new_run_into_inner : forall cf raw ops,
  match g_wcs_run (g_wcs_new cf raw) ops with
  | Some (x1, rs) => Some (wcs_state x1, g_wcs_into_inner cf x1, rs)
  | None => None
  end = wc_run_ops ws_new raw ops.
Proof. exact translated_wincon_new_run_into_inner. Qed.

Theorem c18_translated_initial_state_is_new : ws_new = mkWS (wb_parser g_wb_new) (wb_capture g_wb_new).
Proof. exact ws_new_is_translated_new. Qed.

(* ... and `lock` (Stdout and Stderr) hands the state at the time of the call to the locked stream: operations, lock, more
   operations = the same operations without the lock *)
Theorem c18_translated_lock_preserves_state : forall cf x ops1 ops2,
  match g_wcs_run x ops1 with
  | Some (x1, rs1) =>
      match g_wcs_run (g_wcs_lock_stdout cf x1) ops2 with Some (x2, rs2) => Some (x2, rs1 ++ rs2) | None => None end
  | None => None
  end = g_wcs_run x (ops1 ++ ops2) /\
  match g_wcs_run x ops1 with
  | Some (x1, rs1) =>
      match g_wcs_run (g_wcs_lock_stderr cf x1) ops2 with Some (x2, rs2) => Some (x2, rs1 ++ rs2) | None => None end
  | None => None
  end = g_wcs_run x (ops1 ++ ops2).
Proof. exact translated_wincon_lock_preserves_state. Qed.

Theorem c18_translated_is_terminal : forall cf x, g_wcs_is_terminal cf x = ac_tty cf.
Proof. exact g_wcs_is_terminal_eq. Qed.

(* WinconStream::write_vectored, TRANSLATED: the translated `write` on the hand model's first_nonempty *)
Theorem c18_translated_write_vectored_is_first_nonempty :
  forall x bufs, g_wcs_write_vectored x bufs = g_wcs_write x (first_nonempty bufs).
Proof. exact g_wcs_write_vectored_first. Qed.
