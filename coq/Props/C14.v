(* C14: SVG rendering (anstyle-svg) is well-formed, text-preserving and style-faithful.

   Vocabulary.  [svg_doc t input] is the abstract document of Model/Svg.v (layer 1),
   [svg_print width_px wf d] its text (layer 2; [width_px] and [wf] stand for what
   unicode_width contributes and are universally quantified).  [runs] are the styled
   runs of the MODEL of anstream's WinconBytes (Model/Wincon.extract_next on a fresh
   state); that these runs are the visible text tagged with the SGR rendition in
   effect (Spec/Sgr.spec_runs) is C07's business and is not repeated here.
   [svg_visible runs] is the visible text.  A term [t] is a palette, the two default
   colours and the background flag; every theorem holds for every palette and
   defaults the hypotheses allow ([palette_ok]: 16 entries of byte components;
   [svg_colour_ok]: a colour value an anstyle::Color can hold). *)
From Coq Require Import NArith List Bool.
From AV Require Import Generated.Style Generated.Palette Generated.Svg Spec.Sgr Spec.Lossy Spec.SvgSpec
  Model.Base Model.Parser Model.Wincon Model.Lossy Model.Svg Proofs.Svg Generated.WinconFn Proofs.WinconGen
  Generated.SvgFn Proofs.SvgGen.
Import ListNotations.
Local Open Scope N_scope.

(* The text of the foreground spans, line by line, is the visible text split at
   newlines, one carriage return before a newline dropped -- for every input
   (c14_text_two_cr_example: a CR separated from CR LF by a style change stays). *)
Theorem c14_text_preserved :
  forall t input d runs p c,
  extract_next input parser_new capture_default = Some (runs, p, c) -> svg_doc t input = Some d ->
  map svg_line_text (svg_fg_lines d) = svg_split_nl_dropping_cr (svg_visible runs).
Proof. exact svg_text_preserved. Qed.

Theorem c14_text_two_cr_example :
  exists d, svg_doc svg_term_new [97; 13; 27; 91; 51; 49; 109; 13; 10; 98] = Some d /\
    map svg_line_text (svg_fg_lines d) = [[97; 13]; [98]].
Proof. exact svg_text_two_cr_example. Qed.

(* Every colour class on any span (foreground or background row) is the name of a
   colour, and the style sheet defines it with the RGB value the configured palette
   assigns to that colour -- and with no other value. *)
Theorem c14_classes_defined :
  forall t input d runs p c,
  svg_colour_ok (svg_t_fg t) = true -> svg_colour_ok (svg_t_bg t) = true ->
  extract_next input parser_new capture_default = Some (runs, p, c) -> svg_doc t input = Some d ->
  forall l span, In l (svg_d_lines d) ->
  (In span (svg_l_fg l) \/ exists bg, svg_l_bg l = Some bg /\ In span bg) ->
  forall cls, In cls (fst span) -> svg_is_colour_class cls = true ->
  exists prefix col v,
    In prefix svg_prefixes /\ svg_color_name prefix col = Some cls
    /\ color_to_rgb (svg_to_color col) (svg_t_palette t) = Some v
    /\ In (cls, svg_rgb_hex v) (svg_d_sheet d)
    /\ forall v', In (cls, v') (svg_d_sheet d) -> v' = svg_rgb_hex v.
Proof. exact svg_classes_defined. Qed.

(* The sheet is what iterating a BTreeMap gives: strictly ascending class names
   (Ord for str), hence no class is defined twice. *)
Theorem c14_sheet_sorted :
  forall t input d, svg_doc t input = Some d -> svg_sorted (svg_d_sheet d).
Proof. exact svg_sheet_sorted. Qed.

(* The class list of a foreground span is exactly the image (Spec/SvgSpec
   svg_spec_classes: foreground colour class, underline colour class, then the
   effect classes in source order) of the style of the run it shows, after the
   INVERT swap against the configured defaults (svg_drawn = Spec/SvgSpec
   svg_spec_invert); a background span carries the class of that style's
   background colour, or none.  Every span shows a non-empty piece of a run. *)
Theorem c14_classes_denote_style :
  forall t input d runs p c,
  extract_next input parser_new capture_default = Some (runs, p, c) -> svg_doc t input = Some d ->
  forall l, In l (svg_d_lines d) ->
  (forall span, In span (svg_l_fg l) ->
     exists s0 t0, In (s0, t0) runs /\ svg_sub (snd span) t0 /\ snd span <> [] /\
       fst span = svg_spec_classes colour (svg_name_of svg_fg_prefix) (svg_name_of svg_underline_prefix) svg_effect_classes (svg_drawn t s0))
  /\ (forall bg span, svg_l_bg l = Some bg -> In span bg ->
     exists s0 t0, In (s0, t0) runs /\ svg_sub (snd span) t0 /\ snd span <> [] /\
       fst span = match snd (fst (fst (svg_drawn t s0))) with Some col => [svg_name_of svg_bg_prefix col] | None => [] end).
Proof. exact svg_classes_denote_style. Qed.

(* The same against the CONCRETE specification of Spec/SvgSpec (the oracle the
   correspondence compares the real output with): a foreground span's classes are
   svg_spec_fg_classes of its run's style under the configured defaults -- drawn
   foreground (invert swapped against the defaults) as fg-<name> / fg-ansi256-NNN /
   fg-rgb-RRGGBB, underline colour, then the documented effect classes (none for
   INVERT and BLINK); a background span carries svg_spec_bg_class, or nothing. *)
Theorem c14_classes_denote_spec_style :
  forall t input d runs p c,
  svg_colour_ok (svg_t_fg t) = true -> svg_colour_ok (svg_t_bg t) = true ->
  extract_next input parser_new capture_default = Some (runs, p, c) -> svg_doc t input = Some d ->
  forall l, In l (svg_d_lines d) ->
  (forall span, In span (svg_l_fg l) ->
     exists s0 t0, In (s0, t0) runs /\ svg_sub (snd span) t0 /\ snd span <> [] /\
       fst span = svg_spec_fg_classes (svg_t_fg t) (svg_t_bg t) s0)
  /\ (forall bg span, svg_l_bg l = Some bg -> In span bg ->
     exists s0 t0, In (s0, t0) runs /\ svg_sub (snd span) t0 /\ snd span <> [] /\
       fst span = match svg_spec_bg_class (svg_t_fg t) (svg_t_bg t) s0 with Some cls => [cls] | None => [] end).
Proof. exact svg_classes_denote_spec_style. Qed.

(* The canvas height is line_height for every line plus the padding on both sides,
   and there are as many lines as the visible text has. *)
Theorem c14_height_counts_lines :
  forall t input d runs p c,
  extract_next input parser_new capture_default = Some (runs, p, c) -> svg_doc t input = Some d ->
  svg_d_height d = N.of_nat (length (svg_d_lines d)) * svg_line_height + svg_padding * 2
  /\ length (svg_d_lines d) = length (svg_split_nl_dropping_cr (svg_visible runs)).
Proof. exact svg_height_counts_lines. Qed.

(* encode_text: undone by replacing the three references; the escaped text has no
   '<' and no '&' other than the three references. *)
Theorem c14_escape_roundtrip :
  forall t, xml_unescape (svg_encode_text t) = t /\ ~ In 60 (svg_encode_text t) /\ XEscaped (svg_encode_text t).
Proof. exact (fun t => conj (svg_escape_roundtrip t) (conj (svg_encoded_no_lt t) (svg_encoded_escaped t))). Qed.

(* The text of a foreground span as written (encode_text, then every CR as the
   reference &#13;): what an XML processor hands over for it (end-of-line
   normalisation, XML 1.0 section 2.11, then the references) is the text itself,
   for EVERY text; it has no '<', no literal CR and no '&' outside the four
   references.  Without the reference a CR would come back as LF (second part). *)
Theorem c14_parsed_text_roundtrip :
  (forall t, xml_text_value (svg_encode_fg t) = t
             /\ XEscaped (svg_encode_fg t) /\ ~ In 60 (svg_encode_fg t) /\ ~ In 13 (svg_encode_fg t))
  /\ xml_text_value (svg_encode_text [97; 13; 98]) = [97; 10; 98].
Proof. exact (conj (fun t => conj (svg_parsed_text_roundtrip t) (svg_fg_escaped t)) svg_parsed_text_cr_witness). Qed.

(* The template is well-formed for every document whose span texts are XML
   characters, whose class names are name characters and whose colour values are
   plain character data ([svg_doc_ok]), for every answer of unicode_width. *)
Theorem c14_print_doc_wf :
  forall width_px wf d, svg_doc_ok d = true -> WF (svg_print width_px wf d).
Proof. exact svg_print_doc_wf. Qed.

(* ... and the document of every input whose visible text is XML-representable is
   such a document: the rendered SVG is well-formed. *)
Theorem c14_rendered_wf :
  forall t input d runs p c,
  palette_ok (svg_t_palette t) -> svg_colour_ok (svg_t_fg t) = true -> svg_colour_ok (svg_t_bg t) = true ->
  extract_next input parser_new capture_default = Some (runs, p, c) -> svg_doc t input = Some d ->
  forallb xml_char (svg_visible runs) = true ->
  forall width_px wf, WF (svg_print width_px wf d).
Proof. exact svg_rendered_wf. Qed.

(* non-vacuity: a document with all ingredients (invert against the defaults, three
   colour kinds, an effect, escaped text, a CR LF) *)
Theorem c14_example :
  exists d, svg_doc (mkSvgTerm win10_console (CRgb 1 2 3) (CIdx 200) true)
              [27; 91; 49; 59; 52; 109; 97; 38; 27; 91; 55; 109; 98; 13; 10; 27; 91; 51; 56; 59; 50; 59; 49; 59; 50; 59; 51; 109; 99] = Some d
    /\ svg_d_height d = 56
    /\ svg_d_sheet d = [([98; 103; 45; 114; 103; 98; 45; 48; 49; 48; 50; 48; 51], [35; 48; 49; 48; 50; 48; 51]);
                        ([102; 103; 45; 97; 110; 115; 105; 50; 53; 54; 45; 50; 48; 48], [35; 70; 70; 48; 48; 68; 55])]
    /\ map svg_line_text (svg_fg_lines d) = [[97; 38; 98]; [99]].
Proof. eexists. split; [vm_compute; reflexivity|]. repeat split; vm_compute; reflexivity. Qed.

(* the [runs] of the theorems above are those of the code translated from
   crates/anstream/src/adapter/wincon.rs (Generated/WinconFn.v, tools/gen_fn_wincon.py) *)
Theorem c14_translated_extract_next_is_model :
  forall bs p c, g_extract_next bs p c = extract_next bs p c.
Proof. exact translated_extract_next_is_model. Qed.

(* [svg_doc], [svg_print] and the helpers the theorems above are about are the code translated from
   crates/anstyle-svg/src/lib.rs (Generated/SvgFn.v, tools/gen_fn_svg.py).  The oracle [o] stands for
   unicode_width, the f64 expression of the width and Term::min_width_px: what the hand model leaves to
   its arguments [width_px] / [wf]; [svg_width_px o lines] is render_svg's width arithmetic over it. *)
Theorem c14_translated_render_svg_is_model :
  forall o t input,
  g_svg_render o t input =
  (styled <- svg_styled t input ;;
   d <- svg_doc t input ;;
   Some (svg_print (svg_width_px o (svg_split_lines styled)) (svg_o_uw o) d)).
Proof. exact translated_render_svg_is_model. Qed.

Theorem c14_translated_render_svg_prints_doc :
  forall o t input d, svg_doc t input = Some d ->
  exists styled, svg_styled t input = Some styled /\
    g_svg_render o t input = Some (svg_print (svg_width_px o (svg_split_lines styled)) (svg_o_uw o) d).
Proof. exact translated_render_svg_prints_doc. Qed.

Theorem c14_translated_render_svg_panics :
  forall o t input, svg_doc t input = None -> g_svg_render o t input = None.
Proof. exact translated_render_svg_panics. Qed.

Theorem c14_translated_split_lines_is_model :
  forall o styled, g_svg_split_lines o styled = Some (svg_split_lines styled).
Proof. exact g_svg_split_lines_eq. Qed.

Theorem c14_translated_color_name_is_model :
  forall o prefix c, g_svg_color_name o prefix (svg_to_color c) = svg_color_name prefix c.
Proof. exact g_svg_color_name_eq. Qed.

Theorem c14_translated_rgb_value_is_model :
  forall o c p, g_svg_rgb_value o (svg_to_color c) p = svg_rgb_value c p.
Proof. exact g_svg_rgb_value_eq. Qed.

Theorem c14_translated_color_styles_is_model :
  forall o styled p, g_svg_color_styles o styled p = svg_color_styles styled p [].
Proof. exact g_svg_color_styles_eq. Qed.

Theorem c14_translated_write_fg_span_is_model :
  forall o buffer s fragment,
  g_svg_write_fg_span o buffer s fragment = (cl <- svg_fg_classes s ;; Some (buffer ++ svg_print_fg_span (cl, fragment))).
Proof. exact g_svg_write_fg_span_eq. Qed.

Theorem c14_translated_write_bg_span_is_model :
  forall o buffer s fragment,
  g_svg_write_bg_span o buffer s fragment =
  (cl <- svg_bg_classes s ;; Some (buffer ++ svg_print_bg_span (svg_o_uw o) (cl, fragment))).
Proof. exact g_svg_write_bg_span_eq. Qed.

(* the terms [t]: Term::new, impl Default, the builders, translated over the whole `struct Term`.
   ([svg_term_full]: all seven fields; [svg_tf_term] projects to the record [t] of the theorems above,
   [svg_tf_min_width_px] is the oracle's minimal width, [svg_tf_consts] says that font_family / padding_px hold the
   generated constants the template is printed with) *)
Theorem c14_translated_term_new :
  g_svg_term_new =
  mkSvgTermFull vga (Ansi svg_default_fg_ansi) (Ansi svg_default_bg_ansi) true svg_font_family svg_min_width svg_padding.
Proof. exact g_svg_term_new_eq. Qed.

Theorem c14_translated_term_new_projects :
  svg_tf_term g_svg_term_new = svg_term_new /\
  svg_tf_min_width_px g_svg_term_new = svg_min_width /\
  svg_tf_consts g_svg_term_new.
Proof. exact g_svg_term_new_projects. Qed.

Theorem c14_translated_term_default : g_svg_term_default = g_svg_term_new.
Proof. exact g_svg_term_default_eq. Qed.

(* every builder sets its own field to the argument and leaves the other six alone *)
Theorem c14_translated_term_builders :
  forall t,
  (forall p, svg_tf_fields (g_svg_term_palette t p) =
     (p, svg_tf_fg_color t, svg_tf_bg_color t, svg_tf_background t, svg_tf_font_family t, svg_tf_min_width_px t, svg_tf_padding_px t)) /\
  (forall c, svg_tf_fields (g_svg_term_fg_color t c) =
     (svg_tf_palette t, c, svg_tf_bg_color t, svg_tf_background t, svg_tf_font_family t, svg_tf_min_width_px t, svg_tf_padding_px t)) /\
  (forall c, svg_tf_fields (g_svg_term_bg_color t c) =
     (svg_tf_palette t, svg_tf_fg_color t, c, svg_tf_background t, svg_tf_font_family t, svg_tf_min_width_px t, svg_tf_padding_px t)) /\
  (forall y, svg_tf_fields (g_svg_term_background t y) =
     (svg_tf_palette t, svg_tf_fg_color t, svg_tf_bg_color t, y, svg_tf_font_family t, svg_tf_min_width_px t, svg_tf_padding_px t)) /\
  (forall n, svg_tf_fields (g_svg_term_min_width_px t n) =
     (svg_tf_palette t, svg_tf_fg_color t, svg_tf_bg_color t, svg_tf_background t, svg_tf_font_family t, n, svg_tf_padding_px t)).
Proof. exact translated_term_builders_frame. Qed.

Theorem c14_translated_term_builders_are_setters :
  forall t b, g_svg_build1 t b = svg_build1 t b.
Proof. exact g_svg_build1_eq. Qed.

Theorem c14_translated_term_builders_commute :
  forall t a b, svg_builder_field a <> svg_builder_field b ->
  g_svg_build1 (g_svg_build1 t a) b = g_svg_build1 (g_svg_build1 t b) a.
Proof. exact translated_term_builders_commute. Qed.

Theorem c14_translated_term_builders_last_wins :
  forall t a b, svg_builder_field a = svg_builder_field b ->
  g_svg_build1 (g_svg_build1 t a) b = g_svg_build1 t b.
Proof. exact translated_term_builders_last_wins. Qed.

(* whatever chain of builders is applied to Term::new(): the two fields without a setter keep the constants *)
Theorem c14_translated_term_built_consts :
  forall bs, svg_tf_consts (g_svg_build g_svg_term_new bs).
Proof. exact translated_term_built_consts. Qed.

(* the fully configured term is the [t] = mkSvgTerm p fg bg y of the theorems above (and of the correspondence
   runs), rendered with the oracle whose minimal width is the argument of min_width_px *)
Theorem c14_translated_term_configured :
  forall p fg bg y n,
  let t := g_svg_term_min_width_px (g_svg_term_background (g_svg_term_bg_color (g_svg_term_fg_color
             (g_svg_term_palette g_svg_term_new p) (svg_to_color fg)) (svg_to_color bg)) y) n in
  svg_tf_term t = mkSvgTerm p fg bg y /\
  svg_tf_min_width_px t = n /\
  svg_tf_consts t /\
  (forall uw ceil84 input,
     g_svg_render (svg_tf_oracle uw ceil84 t) (svg_tf_term t) input =
     g_svg_render (mkSvgOracle uw ceil84 n) (mkSvgTerm p fg bg y) input).
Proof. exact translated_term_configured. Qed.

(* render_svg translated a second time with every `self.<field>` read from the whole struct: on a term that
   keeps the two constants it is [g_svg_render] on the projections, so the theorems above speak about
   `Term::new().<builders>.render_svg(input)` as translated, for every chain of builders *)
Theorem c14_translated_render_svg_full :
  forall o t input,
  svg_tf_consts t -> svg_o_min_width o = svg_tf_min_width_px t ->
  g_svg_render_full o t input = g_svg_render o (svg_tf_term t) input.
Proof. exact translated_render_svg_full_eq. Qed.

Theorem c14_translated_built_term_renders :
  forall uw ceil84 bs input,
  let t := g_svg_build g_svg_term_new bs in
  g_svg_render_full (svg_tf_oracle uw ceil84 t) t input =
  (styled <- svg_styled (svg_tf_term t) input ;;
   d <- svg_doc (svg_tf_term t) input ;;
   Some (svg_print (svg_width_px (svg_tf_oracle uw ceil84 t) (svg_split_lines styled)) uw d)).
Proof. exact translated_built_term_renders. Qed.

(* the third-party crate html-escape 0.2.13, translated from the cargo registry (tools/gen_fn_htmlescape.py, generator
   HtmlEscapeFn: the expansion of its macro_rules tables `escape_impl!` / `encode_impl!`; Proofs/HtmlEscapeGen.v).  The
   crate works on the UTF-8 bytes of a &str, the hand model on code points; [str_bytes] is UTF-8 (Model/Text.v). *)
From AV Require Import Model.Text Generated.HtmlEscapeFn Proofs.HtmlEscapeGen.

(* `html_escape::encode_text` is [svg_encode_text], byte for byte, on EVERY byte string; it never panics *)
Theorem c14_translated_htmlescape_encode_text_is_model : forall text, g_he_encode_text text = Some (svg_encode_text text).
Proof. exact g_he_encode_text_eq. Qed.

(* `encode_text_to_vec` (what encode_text hands the rest of the text to after the first escaped byte): appends the
   escaped text to the vector and returns the part appended *)
Theorem c14_translated_htmlescape_encode_text_to_vec_is_model : forall text out,
  g_he_encode_text_to_vec text out = Some (out ++ svg_encode_text text, svg_encode_text text).
Proof. exact g_he_encode_text_to_vec_eq. Qed.

(* escaping commutes with UTF-8: no byte of a multi-byte character is '&', '<' or '>', the entities are ASCII *)
Theorem c14_translated_htmlescape_commutes_with_utf8 : forall w, svg_encode_text (str_bytes w) = str_bytes (svg_encode_text w).
Proof. exact enc_str_bytes. Qed.

(* what the translation of anstyle-svg assumes of `html_escape::encode_text(fragment)` (tools/gen_fn_svg.py: a &str is the
   list of its chars, the call is [svg_encode_text]): on the &str holding the chars [w] the translated crate function
   returns the &str holding the chars [svg_encode_text w], for every text *)
Theorem c14_translated_htmlescape_encode_text_utf8 : forall w,
  g_he_encode_text (str_bytes w) = Some (str_bytes (svg_encode_text w)).
Proof. exact translated_encode_text_utf8. Qed.

(* a text without '&', '<', '>' comes back unchanged (the Cow::Borrowed exit of the scan loop) *)
Theorem c14_translated_htmlescape_plain_unchanged : forall text,
  forallb (fun c => negb (he_special c)) text = true -> g_he_encode_text text = Some text.
Proof. exact translated_encode_text_plain. Qed.
(* third-party unicode-width, TRANSLATED (tools/gen_fn_unicodewidth.py -> Generated/UnicodeWidthFn.v): the width
   oracle of the svg model is the translated `<str as UnicodeWidthStr>::width` *)
From AV Require Import Model.UnicodeWidth Generated.UnicodeWidthFn Proofs.UnicodeWidthGen Model.SvgWidth Proofs.SvgWidthGen.

(* no panic: every index into WIDTH_ROOT / WIDTH_MIDDLE / WIDTH_LEAVES / EMOJI_PRESENTATION_LEAVES is in bounds, for
   every code point below 2^21 (a char is below 0x110000) and every state of the look-ahead machine *)
Theorem c14_translated_unicodewidth_lookup_in_bounds :
  forall c, c < 2097152 -> exists r, g_uw_lookup_width c = Some r.
Proof. exact g_uw_lookup_width_total. Qed.

Theorem c14_translated_unicodewidth_step_total :
  forall c info, c < 2097152 -> exists r, g_uw_width_in_str c info = Some r.
Proof. exact g_uw_width_in_str_total. Qed.

Theorem c14_translated_unicodewidth_total :
  forall s, Forall (fun c => c < 2097152) s -> exists n, g_uw_str_trait_width s = Some n.
Proof. exact g_uw_str_trait_width_total. Qed.

(* the lists handed to binary_search_by are sorted (disjoint increasing ranges), and on the one-byte lists the
   bisection of Model/UnicodeWidth.v finds a range iff there is one *)
Theorem c14_translated_unicodewidth_tables_sorted :
  forallb (uw_sorted_ranges None) uw_leaves8 = true /\ uw_sorted_ranges None uw_ranges24 = true.
Proof. exact uw_tables_sorted. Qed.

Theorem c14_translated_unicodewidth_bsearch_is_scan :
  forall t b, In t uw_leaves8 -> b < 256 ->
  uw_res_is_ok (uw_binary_search_by (uw_cmp_range b) t) = uw_in_ranges b t.
Proof. exact uw_bsearch8_is_scan. Qed.

(* printable ASCII: one column per character (strings and single characters); CR LF is one column *)
Theorem c14_translated_unicodewidth_ascii :
  forall s, Forall (fun c => 32 <= c /\ c < 127) s -> N.of_nat (length s) < 18446744073709551616 ->
  g_uw_str_width s = Some (N.of_nat (length s)).
Proof. exact g_uw_str_width_ascii. Qed.

Theorem c14_translated_unicodewidth_char_ascii :
  forall c, 32 <= c /\ c < 127 -> g_uw_single_char_width c = Some (Some 1).
Proof. exact g_uw_char_width_printable_ascii. Qed.

Theorem c14_translated_unicodewidth_crlf :
  g_uw_str_width [13; 10] = Some 1 /\ g_uw_str_width [10] = Some 1 /\ g_uw_str_width [13] = Some 1.
Proof. exact g_uw_str_width_crlf. Qed.

(* the oracle component svg_o_uw, instantiated: on a string of chars the Rust call answers uw_width, a usize *)
Theorem c14_translated_unicodewidth_is_oracle :
  forall ceil84 minw s, forallb uw_is_char s = true ->
  g_uw_str_trait_width s = Some (svg_o_uw (svg_uw_oracle ceil84 minw) s).
Proof. exact svg_oracle_uw_is_translated. Qed.

Theorem c14_translated_unicodewidth_usize : forall s, uw_width s < 18446744073709551616.
Proof. exact uw_width_lt. Qed.

(* write_bg_span: the fill drawn behind a fragment is as wide as the (escaped) fragment *)
Theorem c14_translated_unicodewidth_fill :
  forall x, uw_width (repeat svg_fill_on (N.to_nat (uw_width x))) = uw_width x /\
            uw_width (repeat svg_fill_off (N.to_nat (uw_width x))) = uw_width x.
Proof. exact (fun x => conj (uw_width_fill_on x) (uw_width_fill_off x)). Qed.

(* render_svg, translated, with the widths COMPUTED by the translated unicode-width: the only parameter left is the
   f64 product `(x as f64 * 8.4).ceil() as usize` *)
Theorem c14_translated_unicodewidth_render_svg :
  forall ceil84 minw t input,
  g_svg_render (mkSvgOracle uw_width ceil84 minw) t input =
  (styled <- svg_styled t input ;;
   d <- svg_doc t input ;;
   Some (svg_print (svg_width_px (mkSvgOracle uw_width ceil84 minw) (svg_split_lines styled)) uw_width d)).
Proof. exact translated_render_svg_uw. Qed.

Theorem c14_translated_unicodewidth_built_term_renders :
  forall ceil84 bs input,
  let t := g_svg_build g_svg_term_new bs in
  g_svg_render_full (svg_tf_oracle uw_width ceil84 t) t input =
  (styled <- svg_styled (svg_tf_term t) input ;;
   d <- svg_doc (svg_tf_term t) input ;;
   Some (svg_print (svg_width_px (svg_tf_oracle uw_width ceil84 t) (svg_split_lines styled)) uw_width d)).
Proof. exact translated_built_term_renders_uw. Qed.

(* what `driver model` runs for case kind svgraw *)
Theorem c14_translated_unicodewidth_driver_model :
  forall palette fg bg background minw input,
  g_svg_render (mkSvgOracle uw_width svg_ceil84_exact minw) (mkSvgTerm palette fg bg background) input =
  svg_m_render_uw palette fg bg background minw input.
Proof. exact translated_render_svg_is_driver_model. Qed.

(* the rules the crate documents, as worked examples of the translation (one per arm of the look-ahead machine) *)
Theorem c14_translated_unicodewidth_documented_rules :
  (* CR LF is one column *)
  g_uw_str_width [13; 10] = Some 1 /\
  (* ASCII *)
  g_uw_str_width [97; 98; 99] = Some 3 /\
  (* East_Asian_Width=Wide *)
  g_uw_str_width [20013] = Some 2 /\
  (* Emoji_Presentation *)
  g_uw_str_width [128512] = Some 2 /\
  (* emoji ZWJ sequence: 2 *)
  g_uw_str_width [128104; 8205; 128105; 8205; 128103; 8205; 128102] = Some 2 /\
  (* emoji modifier sequence: 2 *)
  g_uw_str_width [128077; 127995] = Some 2 /\
  (* emoji presentation sequence (VS16): 2 *)
  g_uw_str_width [10084; 65039] = Some 2 /\
  (* VS15 on a text-default character *)
  g_uw_str_width [10084; 65038] = Some 1 /\
  (* U+231A alone *)
  g_uw_str_width [8986] = Some 2 /\
  (* text presentation sequence (VS15): 1 *)
  g_uw_str_width [8986; 65038] = Some 1 /\
  (* U+1F004 VS15 *)
  g_uw_str_width [126980; 65038] = Some 1 /\
  (* VS15 in Enclosed Ideographic Supplement: still 2 *)
  g_uw_str_width [127514; 65038] = Some 2 /\
  (* Arabic lam-alef ligature: 1 *)
  g_uw_str_width [1604; 1575] = Some 1 /\
  (* lam, transparent mark, alef: 1 *)
  g_uw_str_width [1604; 1611; 1575] = Some 1 /\
  (* lam alone *)
  g_uw_str_width [1604] = Some 1 /\
  (* Buginese <a, -i> ya: 1 *)
  g_uw_str_width [6677; 6679; 8205; 6672] = Some 1 /\
  (* Hebrew alef ZWJ lamed: 1 *)
  g_uw_str_width [1488; 8205; 1500] = Some 1 /\
  (* Khmer coeng sign: 0 *)
  g_uw_str_width [6098; 6016] = Some 0 /\
  (* letter + coeng sign *)
  g_uw_str_width [6016; 6098; 6016] = Some 1 /\
  (* Lisu tone letters: 1 *)
  g_uw_str_width [42232; 42236] = Some 1 /\
  (* Old Turkic ligature: 1 *)
  g_uw_str_width [68658; 8205; 68611] = Some 1 /\
  (* Tifinagh bi-consonant (joiner): 1 *)
  g_uw_str_width [11569; 11647; 11569] = Some 1 /\
  (* Tifinagh bi-consonant (ZWJ): 1 *)
  g_uw_str_width [11569; 8205; 11569] = Some 1 /\
  (* U+2D7F alone: 1 *)
  g_uw_str_width [11647] = Some 1 /\
  (* U+115F: 2 *)
  g_uw_str_width [4447] = Some 2 /\
  (* U+17A4: 2 *)
  g_uw_str_width [6052] = Some 2 /\
  (* U+17D8: 3 *)
  g_uw_str_width [6104] = Some 3 /\
  (* U+0CC0: 0 *)
  g_uw_str_width [3264] = Some 0 /\
  (* Hangul vowel jamo: 0 *)
  g_uw_str_width [4448] = Some 0 /\
  (* prepended concatenation mark U+0605: 0 *)
  g_uw_str_width [1541] = Some 0 /\
  (* U+A8FA: 0 *)
  g_uw_str_width [43258] = Some 0 /\
  (* a base letter and a Grapheme_Extend mark (width 0): 1 *)
  g_uw_str_width [233] = Some 1 /\
  (* Default_Ignorable U+00AD: 0 *)
  g_uw_str_width [173] = Some 0 /\
  (* U+200B: 0 *)
  g_uw_str_width [8203] = Some 0 /\
  (* regional indicator pair *)
  g_uw_str_width [127482; 127480] = Some 2 /\
  (* three regional indicators *)
  g_uw_str_width [127482; 127480; 127462] = Some 3 /\
  (* keycap sequence *)
  g_uw_str_width [35; 65039; 8419] = Some 2 /\
  (* tag sequence (flag of England) *)
  g_uw_str_width [127988; 917607; 917602; 917605; 917614; 917607; 917631] = Some 2 /\
  (* emoji ZWJ flags *)
  g_uw_str_width [128512; 8205; 127482; 127480; 127482; 127480] = Some 4 /\
  (* control characters count 1 each inside a string *)
  g_uw_str_width [0; 7; 127; 159] = Some 4 /\
  (* U+10FFFF *)
  g_uw_str_width [1114111] = Some 1 /\
  (* Ambiguous: narrow *)
  g_uw_str_width [161; 9608] = Some 2.
Proof. exact g_uw_documented_examples. Qed.
