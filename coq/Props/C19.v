(* Props/C19.v -- property theorems for C19 (the output of one print call is never
   interleaved with another thread's; the process-wide colour choice is an atomic
   register).  Only statements, each closed by [exact].

   PARTIAL: the theorems carry the logical core -- every modelled operation takes
   the stream's lock once around all its inner writes, hence no schedule can
   interleave two operations; the choice cell run in linearisation order is a legal
   register history and its decoding cannot fail.  That std's stdout/stderr lock
   excludes other threads (the enabling condition of [lk_step]'s Acquire), that
   SeqCst accesses are linearisable (a run of the cell IS a list of operations) and
   that the pipe keeps the order of writes are assumptions, named in the evidence. *)
From Coq Require Import NArith List Bool.
From AV Require Import Generated.Table Generated.Locking Spec.Atomicity
  Model.Base Model.Utf8parse Model.Parser Model.Strip Model.Locking Proofs.Locking
  Spec.Io Model.Stream Generated.StreamFn Proofs.StreamGen Generated.AutoFn Proofs.AutoGen
  Model.Glue Generated.GlueFn Proofs.GlueGen Generated.MacrosFn Proofs.MacrosGen.
Import ListNotations.

(* every modelled call (write, write_vectored, flush, write_all, write_fmt with any
   fragments; pass-through and stripping stream, any stream state): Acquire, then
   inner calls on the guard only, then Release *)
Theorem c19_ops_lock_once :
  forall s op tr s',
  lk_op_trace s op = Some (tr, s') ->
  exists ins, tr = LkAcquire :: map LkInner ins ++ [LkRelease].
Proof. exact ops_lock_once. Qed.

(* hence its lock profile is the one the specification states: taken once, given back once *)
Theorem c19_ops_profile :
  forall s op tr s',
  lk_op_trace s op = Some (tr, s') -> lk_profile tr = at_call_profile.
Proof. exact ops_profile. Qed.

(* for EVERY finite set of thread programs made of lock-once operations, EVERY
   schedule and EVERY length of execution: the calls that reached the inner writer
   are whole operations one after the other, in the order the lock was taken, each
   thread's in program order, plus the emitted part of at most one operation that
   is still under way *)
Theorem c19_no_interleaving_abstract :
  forall (progs : list (list (list lk_inner))) sched final,
  lk_exec (lk_init (map lk_thread_events progs)) sched final ->
  at_atomic_output progs (lk_acqs final) (lk_out final).
Proof. exact no_interleaving_abstract. Qed.

(* the same for programs written with the modelled methods of AutoStream /
   StripStream (each thread has its own stream value, in either mode, whose strip
   state is carried from call to call); a finished run is serial *)
Theorem c19_no_interleaving :
  forall (threads : list (lk_stream * list lk_op)) (trs : list (list (list lk_event))),
  Forall2 (fun th tr => lk_prog_ops (fst th) (snd th) = Some tr) threads trs ->
  forall sched final,
  lk_exec (lk_init (map (@concat lk_event) trs)) sched final ->
  at_atomic_output (map (map lk_inner_of) trs) (lk_acqs final) (lk_out final) /\
  (lk_finished final -> at_serial (map (map lk_inner_of) trs) (lk_acqs final) (lk_out final)).
Proof. exact no_interleaving. Qed.

(* on the byte stream: the bytes of every single call sit contiguously in the output *)
Theorem c19_print_bytes_contiguous :
  forall (threads : list (lk_stream * list lk_op)) (trs : list (list (list lk_event))),
  Forall2 (fun th tr => lk_prog_ops (fst th) (snd th) = Some tr) threads trs ->
  forall sched final,
  lk_exec (lk_init (map (@concat lk_event) trs)) sched final -> lk_finished final ->
  forall t tr, In tr (nth t trs []) ->
  exists pre post,
    at_bytes lk_inner_bytes (lk_out final) = pre ++ at_op_bytes lk_inner_bytes (lk_inner_of tr) ++ post.
Proof. exact print_bytes_contiguous. Qed.

(* the colour choice: for every sequence of global() / write_global() operations in
   linearisation order no read panics, the run is a legal register history starting
   from the initial choice, so every read returns the initial value or a written
   one, and the last write once no write follows *)
Theorem c19_register :
  forall ops : list lk_reg_op,
  exists h,
    lk_reg_run lk_reg_init ops = Some h /\
    length h = length ops /\
    reg_legal lk_choice_init h /\
    reg_reads_written lk_choice_init h /\
    reg_reads_last lk_choice_init h.
Proof. exact register. Qed.

(* the values a read can see are exactly the values handed to write_global *)
Theorem c19_register_writes_are_sets :
  forall ops cell h, lk_reg_run cell ops = Some h -> reg_writes h = lk_sets ops.
Proof. exact register_writes_are_sets. Qed.

(* "the last write": the register's value is the last value written, the initial
   one when nothing was written *)
Theorem c19_register_value_is_last_write :
  forall (V : Type) (h : list (reg_ev V)) init,
  reg_value init h = match reg_last_write h with Some w => w | None => init end.
Proof. exact reg_value_last_write. Qed.

(* AtomicChoice's encoding round-trips, so the `expect` in get never fires *)
Theorem c19_choice_roundtrip :
  forall c, lk_to_choice (lk_from_choice c) = Some c.
Proof. exact choice_roundtrip. Qed.

(* non-vacuity: two threads (one stripping, one pass-through), a schedule in which
   thread 1 takes the stream first *)
Theorem c19_example_premises :
  Forall2 (fun th tr => lk_prog_ops (fst th) (snd th) = Some tr) ex_threads ex_trs.
Proof. exact ex_premises. Qed.

Theorem c19_example_locked_run :
  exists final,
    lk_exec (lk_init (map (@concat lk_event) ex_trs)) [1; 1; 1; 1; 0; 0; 0; 0]%nat final /\
    lk_finished final /\
    lk_acqs final = [1; 0]%nat /\
    lk_out final = [(1%nat, LkWA [120%N]); (1%nat, LkWA [121%N]); (0%nat, LkWA [97%N]); (0%nat, LkWA [98%N])].
Proof. exact ex_locked_run. Qed.

(* and WITHOUT the lock (the same inner calls, Acquire / Release removed) the
   machine does produce an interleaved output that is not serial: the lock
   discipline is what the theorem rests on *)
Theorem c19_example_unlocked_interleaves :
  exists final,
    lk_exec (lk_init ex_unlocked) [0; 1; 0; 1]%nat final /\
    lk_finished final /\
    lk_out final = [(0%nat, LkWA [97%N]); (1%nat, LkWA [120%N]); (0%nat, LkWA [98%N]); (1%nat, LkWA [121%N])] /\
    forall acqs, ~ at_serial (map (map lk_inner_of) ex_trs) acqs (lk_out final).
Proof. exact ex_unlocked_interleaves. Qed.

(* the lock discipline read off the Rust code itself: the five Write methods of AutoStream and of
   StripStream TRANSLATED a second time (Generated/AutoFn.v `gl_*`, tools/gen_fn_auto.py; regenerated on
   every run) over a raw stream that logs its lock events -- `as_locked_write()` logs an Acquire and
   hands out the guard, the guard's destructor at the end of its temporary scope logs a Release, both
   with the length of the inner writer's call history at that moment.  For every method, either arm,
   any stream state, any script of the inner writer: the answer is that of the translation without
   the log (the one C08's hand model is proved equal to) and the log grows by [lock_once]: ONE
   Acquire at the length of the history before the call, ONE Release at its length after the call --
   every inner call of the operation lies between them, none outside.
   [las_with log a] = the stream value a whose raw stream carries the log. *)
Theorem c19_translated_ops_lock_once :
  forall cf log a o,
  gl_as_op cf (las_with log a) o =
  match g_as_op cf a o with
  | Some (a1, r) => Some (las_with (lock_once log (as_writer a) (as_writer a1)) a1, r)
  | None => None
  end.
Proof. exact translated_ops_lock_once. Qed.

(* the same, read through the hand model of the stream (Model/Stream.v auto_op) *)
Theorem c19_translated_ops_lock_once_model :
  forall cf log m s w o,
  gl_as_op cf (las_with log (as_of m s w)) o =
  match auto_op (ac_wv_all cf) m s w o with
  | Some (s1, w1, r) => Some (las_with (lock_once log w w1) (as_of m s1 w1), r)
  | None => None
  end.
Proof. exact translated_ops_lock_once_model. Qed.

(* StripStream driven directly (anstream::StripStream is public): the five translated methods (write_vectored takes no
   lock itself and delegates once to `self.write`) *)
Theorem c19_translated_strip_lock_once :
  forall x,
  (forall buf, gl_ss_write x buf =
     match g_ss_write (lss_erase x) buf with Some (x1, r) => Some (lss_locked x x1, r) | None => None end) /\
  (forall buf, gl_ss_write_all x buf =
     match g_ss_write_all (lss_erase x) buf with Some (x1, r) => Some (lss_locked x x1, r) | None => None end) /\
  (forall frags, gl_ss_write_fmt x frags =
     match g_ss_write_fmt (lss_erase x) frags with Some (x1, r) => Some (lss_locked x x1, r) | None => None end) /\
  (forall bufs, gl_ss_write_vectored x bufs =
     match g_ss_write_vectored (lss_erase x) bufs with Some (x1, r) => Some (lss_locked x x1, r) | None => None end) /\
  gl_ss_flush x = (lss_locked x (fst (g_ss_flush (lss_erase x))), snd (g_ss_flush (lss_erase x))).
Proof. exact translated_strip_lock_once. Qed.

(* `as_locked_write` itself, translated (crates/anstream/src/stream.rs, Generated/GlueFn.v):
   for Stdout / Stderr it is `self.lock()`: one Acquire at the current length of the inner call history, the guard views
   the SAME stream -- the reading `x.as_locked_write()` has in the translation above (lr_acquire, lr_w) *)
Theorem c19_translated_as_locked_write_std : forall x,
  g_as_locked_write_stdout x = (lr_acquire x, lr_w x) /\ g_as_locked_write_stderr x = (lr_acquire x, lr_w x).
Proof. exact translated_as_locked_write_std. Qed.

(* an already locked handle and the streams without a lock hand out themselves, no lock event; `&mut T` / `Box<T>` forward *)
Theorem c19_translated_as_locked_write_self : forall f, In f g_as_locked_write_self_impls -> forall x, f x = (x, x).
Proof. exact translated_as_locked_write_self. Qed.
Theorem c19_translated_as_locked_write_forward : forall G (talw : lraw -> lraw * G) x,
  g_as_locked_write_refmut G talw x = talw x /\ g_as_locked_write_box G talw x = talw x.
Proof. exact translated_as_locked_write_forward. Qed.

(* the Acquire of `as_locked_write` and the Release of the guard's destructor bracket the inner calls: lock_once *)
Theorem c19_translated_stdout_lock_once : forall x w',
  let '(x1, g) := g_as_locked_write_stdout x in
  g = lr_w x /\ lr_log (lr_release (set_lr_w x1 w')) = lock_once (lr_log x) (lr_w x) w'.
Proof. exact translated_stdout_lock_once. Qed.

(* the print macros (crates/anstream/src/_macros.rs, translated arm by arm: Generated/MacrosFn.v).  Outside tests ONE call
   of print! / println! / eprint! / eprintln! ([mac_arm err nl]) is ONE Write-method call -- write_fmt -- on a stream it
   has just made over its own std handle and that nobody else holds (first conjunct: the call's whole effect is that
   operation, and a panic when it fails); that operation, translated over the raw stream that logs its lock events, takes
   the lock exactly once around all its inner writes (second conjunct: the log grows by lock_once).  Hence one lock
   acquisition per macro call, and a call's bytes are contiguous in the output (c19_print_bytes_contiguous) *)
Theorem c19_translated_macro_lock_once :
  forall lossy fmt_nl (err nl : bool) cfv ch cf (so se : writer) world args log a,
  g_as_auto cf (if err then se else so) = Some a ->
  mac_arm lossy fmt_nl err nl false false cfv ch cf so se world args =
  match g_as_op cf a (OWriteFmt (if nl then fmt_nl args else args)) with
  | Some (a1, r) =>
      Some (world ++ MWriteFmt a1 (match r with RErr e => inr e | _ => inl tt end)
                     :: match r with RErr e => [MPanicIo (if err then mac_msg_stderr else mac_msg_stdout) e] | _ => [] end)
  | None => None
  end /\
  gl_as_op cf (las_with log a) (OWriteFmt (if nl then fmt_nl args else args)) =
  match g_as_op cf a (OWriteFmt (if nl then fmt_nl args else args)) with
  | Some (a1, r) => Some (las_with (lock_once log (as_writer a) (as_writer a1)) a1, r)
  | None => None
  end.
Proof. exact translated_macro_lock_once. Qed.
