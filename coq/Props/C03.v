(* C03: incremental processing equals one-shot processing for every chunking.  Only statements, each closed by
   [exact] of a theorem of Proofs/. *)
From Coq Require Import NArith List Bool.
From AV Require Import Generated.Table Spec.Utf8 Spec.Vt Spec.Strip Spec.Sgr Model.Base Model.Utf8parse Model.Parser Model.Strip
  Model.Wincon Proofs.TableFacts Proofs.ParserSim Proofs.StripMachine Proofs.StripSim Proofs.StripStr Proofs.WinconRuns
  Generated.StripFn Proofs.StripGen Generated.WinconFn Proofs.WinconGen.
From AV Require Import Spec.Io Model.Stream Generated.StreamFn Proofs.StreamGen.
From AV Require Import Model.Utf8parse Model.Imp Generated.Utf8parseFn Proofs.Utf8parseGen.
Import ListNotations.
Local Open Scope N_scope.

(* byte API: for EVERY list of chunks (cuts anywhere: inside a sequence, inside a
   character), feeding them through StripBytes never panics, the concatenated
   output equals the specification of the concatenated input and the one-shot
   result, and the state carried after the last chunk is the one-shot state *)
Theorem c03_strip_bytes_chunked :
  forall chunks, bytes_ok (concat chunks) ->
  exists pss st u,
    strip_bytes_chunks chunks Ground u8_new = Some (pss, st, u) /\
    concat (map (fun ps => concat (map p_bytes ps)) pss) = spec_strip (concat chunks) /\
    Some (concat (map (fun ps => concat (map p_bytes ps)) pss)) = strip_bytes_model (concat chunks) /\
    exists ps1, strip_next_bytes (concat chunks) Ground u8_new = Some (ps1, [], st, u).
Proof. exact strip_bytes_chunked. Qed.

(* text API: every list of chunks that are each valid UTF-8 (cuts at character
   boundaries, possibly inside an escape sequence) *)
Theorem c03_strip_str_chunked :
  forall chunks, bytes_ok (concat chunks) -> Forall (fun c => valid_utf8 c = true) chunks ->
  exists pss st,
    strip_str_chunks chunks Ground = Some (pss, st) /\
    concat (map (fun ps => concat (map p_bytes ps)) pss) = spec_strip (concat chunks) /\
    Some (concat (map (fun ps => concat (map p_bytes ps)) pss)) = strip_str_model (concat chunks).
Proof. exact strip_str_chunked. Qed.

(* the scanner machines are folds *)
Theorem c03_machine_is_fold :
  forall a b st u st1 u1 o1,
  mrun st u a = Some (st1, u1, o1) ->
  mrun st u (a ++ b) =
    match mrun st1 u1 b with
    | Some (st2, u2, o2) => Some (st2, u2, o1 ++ o2)
    | None => None
    end.
Proof. exact mrun_app. Qed.

(* each incremental iterator leaves exactly the fold state behind *)
Theorem c03_iterator_leaves_fold_state :
  forall fuel bs off st u ps bs' st' u',
  (length bs < fuel)%nat -> bytes_ok bs -> Inv st u ->
  bytes_iter fuel bs off st u = Some (ps, bs', st', u') ->
  bs' = [] /\ mrun st u bs = Some (st', u', concat (map p_bytes ps)).
Proof. exact bytes_iter_spec. Qed.

(* non-vacuity: a sequence cut in the middle, and a character cut in the middle *)
Theorem c03_example :
  exists pss st u,
    strip_bytes_chunks [[97; 27; 91]; [51; 50; 109; 226; 130]; [172; 98]] Ground u8_new = Some (pss, st, u) /\
    concat (map (fun ps => concat (map p_bytes ps)) pss) = [97; 226; 130; 172; 98].
Proof. vm_compute. eauto. Qed.

(* for EVERY list of chunks (no grammar hypothesis; cuts anywhere): feeding them
   through WinconBytes::extract_next chunk by chunk never panics and yields, after
   flattening the runs to tagged characters ([flatten : list (sstyle * list N) ->
   list (sstyle * N)]), the same list as handing the whole input over at once; the
   parser state and the capture carried after the last chunk are the one-shot
   ones; no run is empty, hence the merged runs are equal too.  Both sides equal
   the tagging obtained by folding the capture over the parser's event stream
   (c03_wincon_extractor_is_fold): the extractor only decides where runs are cut. *)
Theorem c03_wincon_chunked :
  forall chunks, Forall (fun b => b < 256) (concat chunks) ->
  exists itss its p c,
    extract_chunks chunks parser_new capture_default = Some (itss, p, c) /\
    extract_next (concat chunks) parser_new capture_default = Some (its, p, c) /\
    flatten (concat itss) = flatten its /\
    Forall (fun r => snd r <> []) (concat itss) /\ Forall (fun r => snd r <> []) its /\
    merge_runs (concat itss) = merge_runs its.
Proof. exact wincon_chunked. Qed.

(* the same from any parser state the parser can be in (R: C02's simulation
   relation) and any capture without pending text *)
Theorem c03_wincon_chunked_from :
  forall chunks p v c,
  Forall (fun b => b < 256) (concat chunks) -> R p v -> c_printable c = [] -> c_ready c = None ->
  exists itss its p' c',
    extract_chunks chunks p c = Some (itss, p', c') /\
    extract_next (concat chunks) p c = Some (its, p', c') /\
    flatten (concat itss) = flatten its /\
    merge_runs (concat itss) = merge_runs its.
Proof. exact wincon_chunked_from. Qed.

(* the characterisation behind it: one call of extract_next yields, flattened, the
   pending text followed by the characters pushed by the events of the input, each
   tagged with the capture's style at the time it was pushed ([tags]); it leaves
   the parser state of the fold [run] and the style of the fold [style_after] *)
Theorem c03_wincon_extractor_is_fold :
  forall bs p v c,
  Forall (fun b => b < 256) bs -> R p v ->
  exists its p',
    extract_next bs p c
      = Some (its, p', mkCap (style_after (c_style c) (snd (vt_run v bs))) [] None) /\
    run cfg_default p bs = Some (p', snd (vt_run v bs)) /\ R p' (fst (vt_run v bs)) /\
    flatten its = pend0 c ++ tags (c_style c) (snd (vt_run v bs)) /\
    Forall (fun r => snd r <> []) its.
Proof. exact extract_next_spec. Qed.

(* merging neighbouring runs of equal style is a function of the flattening *)
Theorem c03_merge_is_function_of_flattening :
  forall rs, Forall (fun r => snd r <> []) rs -> merge_runs rs = group_runs (flatten rs).
Proof. exact merge_is_group. Qed.

(* the SGR decoder never fails (the `expect` in to_ansi_color sits under a guard
   that excludes it), so the extractor's only source of [None] is the parser *)
Theorem c03_sgr_dispatch_total :
  forall s ps, exists s', sgr_dispatch s ps = Some s'.
Proof. exact sgr_dispatch_total. Qed.

(* non-vacuity: "a ESC[31m b c ESC[0m d" cut inside the first sequence and between
   b and c: four runs chunked, three one-shot, the same after merging *)
Theorem c03_example_wincon :
  exists itss its p c,
    extract_chunks [[97; 27; 91; 51]; [49; 109; 98]; [99; 27; 91; 48; 109; 100]] parser_new capture_default
      = Some (itss, p, c) /\
    extract_next [97; 27; 91; 51; 49; 109; 98; 99; 27; 91; 48; 109; 100] parser_new capture_default
      = Some (its, p, c) /\
    length (concat itss) = 4%nat /\ length its = 3%nat /\
    merge_runs (concat itss) = merge_runs its /\
    merge_runs its = [(style_default, [97]); (mkStyle (Some (CAnsi 1)) None None 0, [98; 99]); (style_default, [100])].
Proof. vm_compute. do 4 eexists. repeat split; reflexivity. Qed.

(* Generated/StripFn.v (tools/gen_fn_strip.py, rewritten on every run) holds the translations of the
   incremental iterators' `next` methods (StripStrIter, StripBytesIter) and of the scanners below
   them.  Feeding chunks through them -- [g_bytes_chunks] / [g_str_chunks]: `strip_next` (it returns a
   struct holding `&mut self.state`; translated too, see c03_translated_strip_next below) copies the carried
   state in, the drained iterator leaves the new one -- computes exactly what the hand model computes. *)
Theorem c03_translated_bytes_iter_next_is_model :
  forall it off, g_strip_bytes_iter_next it = bytes_next_result (next_bytes (bi_bytes it) off (bi_state it) (bi_utf8 it)).
Proof. exact g_strip_bytes_iter_next_eq. Qed.

Theorem c03_translated_str_iter_next_is_model :
  forall it off, g_strip_str_iter_next it = str_next_result (next_str (si_bytes it) off (si_state it)).
Proof. exact g_strip_str_iter_next_eq. Qed.

Theorem c03_translated_bytes_chunks_is_model :
  forall chunks st u,
  g_bytes_chunks chunks st u =
  match strip_bytes_chunks chunks st u with
  | Some (pss, st', u') => Some (map (map p_bytes) pss, st', u')
  | None => None
  end.
Proof. exact g_bytes_chunks_is_model. Qed.

Theorem c03_translated_str_chunks_is_model :
  forall chunks st,
  g_str_chunks chunks st =
  match strip_str_chunks chunks st with
  | Some (pss, st') => Some (map (map p_bytes) pss, st')
  | None => None
  end.
Proof. exact g_str_chunks_is_model. Qed.

(* hence the translated incremental code refines the specification and agrees with the
   translated one-shot code *)
Theorem c03_translated_bytes_chunks_refine_spec :
  forall chunks, bytes_ok (concat chunks) ->
  exists pss st u,
    g_bytes_chunks chunks Ground u8_new = Some (pss, st, u) /\
    concat (map (@concat N) pss) = spec_strip (concat chunks) /\
    Some (concat (map (@concat N) pss)) = g_stripped_bytes_into_vec (g_strip_bytes (concat chunks)).
Proof. exact translated_bytes_chunks_refine_spec. Qed.

Theorem c03_translated_str_chunks_refine_spec :
  forall chunks, bytes_ok (concat chunks) -> Forall (fun c => valid_utf8 c = true) chunks ->
  exists pss st,
    g_str_chunks chunks Ground = Some (pss, st) /\
    concat (map (@concat N) pss) = spec_strip (concat chunks) /\
    Some (concat (map (@concat N) pss)) = g_strip_str_to_string (concat chunks).
Proof. exact translated_str_chunks_refine_spec. Qed.

(* `StripStr::new` / `StripBytes::new` (a derived Default: every field's default), `strip_next` and
   `StrippedBytes::{is_empty, extend}` are translated too: the initial states are the hand model's, `strip_next`
   copies the carried state into an iterator over the bytes handed in ... *)
Theorem c03_translated_new_is_initial :
  g_strip_str_new = Ground /\ g_strip_bytes_new = mkStripBytesSt Ground u8_new.
Proof. exact (conj g_strip_str_new_eq g_strip_bytes_new_eq). Qed.

Theorem c03_translated_strip_next :
  (forall s c, g_strip_str_strip_next s c = (s, mkStrIt c s)) /\
  (forall s c, g_strip_bytes_strip_next s c = (s, mkBytesIt c (sbs_state s) (sbs_utf8 s))).
Proof. exact (conj g_strip_str_strip_next_eq g_strip_bytes_strip_next_eq). Qed.

Theorem c03_translated_stripped_bytes_extend :
  forall it bs, g_stripped_bytes_extend it bs =
  match bi_bytes it with [] => Some (mkBytesIt bs (bi_state it) (bi_utf8 it)) | _ => None end.
Proof. exact g_stripped_bytes_extend_eq. Qed.

(* ... and the chunked drive written over them ([gt_*_chunks]: new, then per chunk strip_next, drain, carry the
   state the iterator leaves) is the drive above, hence refines the specification from `new()` on *)
Theorem c03_translated_str_drive_is_model : forall chunks s, gt_str_chunks chunks s = g_str_chunks chunks s.
Proof. exact gt_str_chunks_eq. Qed.

Theorem c03_translated_bytes_drive_is_model : forall chunks s,
  gt_bytes_chunks chunks s =
  match g_bytes_chunks chunks (sbs_state s) (sbs_utf8 s) with
  | Some (pss, st, u) => Some (pss, mkStripBytesSt st u)
  | None => None
  end.
Proof. exact gt_bytes_chunks_eq. Qed.

Theorem c03_translated_str_new_chunks_refine_spec :
  forall chunks, bytes_ok (concat chunks) -> Forall (fun c => valid_utf8 c = true) chunks ->
  exists pss st,
    gt_str_chunks chunks g_strip_str_new = Some (pss, st) /\
    concat (map (@concat N) pss) = spec_strip (concat chunks).
Proof. exact translated_str_new_chunks_refine_spec. Qed.

Theorem c03_translated_bytes_new_chunks_refine_spec :
  forall chunks, bytes_ok (concat chunks) ->
  exists pss s,
    gt_bytes_chunks chunks g_strip_bytes_new = Some (pss, s) /\
    concat (map (@concat N) pss) = spec_strip (concat chunks).
Proof. exact translated_bytes_new_chunks_refine_spec. Qed.

(* the functions translated from crates/anstream/src/adapter/wincon.rs (Generated/WinconFn.v,
   tools/gen_fn_wincon.py), called chunk by chunk, compute what the hand model computes ... *)
Theorem c03_translated_wincon_chunks_is_model :
  forall chunks p c, g_extract_chunks chunks p c = extract_chunks chunks p c.
Proof. exact translated_extract_chunks_is_model. Qed.

(* ... hence chunking does not change what the translated code yields *)
Theorem c03_translated_wincon_chunked :
  forall chunks, Forall (fun b => b < 256) (concat chunks) ->
  exists itss its p c,
    g_extract_chunks chunks parser_new capture_default = Some (itss, p, c) /\
    g_extract_next (concat chunks) parser_new capture_default = Some (its, p, c) /\
    flatten (concat itss) = flatten its /\
    merge_runs (concat itss) = merge_runs its.
Proof. exact translated_wincon_chunked. Qed.

(* the strip stream fed chunk by chunk: the translated functions of crates/anstream/src/strip.rs are the
   stream model, for any operation sequence (hence for write_all per chunk) *)
Theorem c03_translated_stream_is_model :
  forall b ops x,
  match g_ss_run x ops with Some (x1, rs) => Some (ss_state x1, ss_raw x1, rs) | None => None end
  = run_ops b MStrip (ss_state x) (ss_raw x) ops.
Proof. exact translated_stream_is_model. Qed.

(* the third-party decoder `utf8parse`, translated on every run from the registry source of the version
   <repo>/Cargo.lock pins (Generated/Utf8parseFn.v; how the source is authenticated: HACKING.d/utf8parse.md).
   `State::advance`, `Parser::{new, perform_action, advance}` and the derived Default are the hand model
   Model/Utf8parse.v -- the decoder every theorem above goes through -- for EVERY state, accumulated code
   point and byte.  A `Receiver` is the list of calls it gets. *)
Theorem c03_translated_utf8parse_advance :
  forall p r b, g_u8_parser_advance p r b =
    Some (fst (u8_parser_advance p b), r ++ u8_events (snd (u8_parser_advance p b))).
Proof. exact g_u8_parser_advance_eq. Qed.

(* the decoder carried from one chunk to the next: a byte string through the translated decoder *)
Theorem c03_translated_utf8parse_run :
  forall bs p r, g_u8_run p r bs = Some (fst (u8_model_run p bs), r ++ snd (u8_model_run p bs)).
Proof. exact translated_run_is_model. Qed.
