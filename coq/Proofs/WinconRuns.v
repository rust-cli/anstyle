(* The styled-run extractor of the wincon adapter (Model/Wincon: wn_loop /
   wincon_next / wincon_iter / extract_next / extract_chunks) only decides where
   the runs are cut:
   flattened to tagged characters, what it yields is the tagging obtained by folding
   the capture over the parser's event stream, each character tagged with the
   capture's style at the time it was pushed.  Hence chunk-by-chunk extraction
   equals one-shot extraction (C03), for ALL inputs. *)
From Coq Require Import NArith List Bool Lia Arith.
From AV Require Import Generated.Table Spec.Utf8 Spec.Vt Spec.Sgr Model.Base Model.Utf8parse
  Model.Parser Model.Strip Model.Wincon
  Proofs.TableFacts Proofs.VtFacts Proofs.ParserSim Proofs.VtCancel Proofs.SgrRender Proofs.WinconSgr.
Import ListNotations.
Local Open Scope N_scope.

Definition bytes_lt (bs : list N) : Prop := Forall (fun b => b < 256) bs.

Ltac conj_split := repeat match goal with |- _ /\ _ => split end.

(* the only partial operations (csub, to_ansi_color) sit under the range test that makes them succeed *)
Lemma value_step_total : forall d v, exists r, value_step d v = Some r.
Proof.
  intros d v. unfold value_step.
  destruct (d_state d); [| | |destruct (d_r d), (d_g d)|];
    repeat match goal with |- exists r, (if ?c then _ else _) = Some r => destruct c eqn:? end;
    try (eexists; reflexivity).
  all: match goal with H : in_rng ?lo _ ?x = true |- _ => destruct (rng_digit lo x H) as [-> ->] end;
    eexists; reflexivity.
Qed.

Lemma values_loop_total : forall vs d, exists d', values_loop d vs = Some d'.
Proof.
  induction vs as [|v vs IH]; intros d; cbn [values_loop].
  - eexists; reflexivity.
  - destruct (value_step_total d v) as [[d1 brk] E]. rewrite E.
    destruct brk; [eexists; reflexivity | apply IH].
Qed.

Lemma params_loop_total : forall ps d, exists d', params_loop d ps = Some d'.
Proof.
  induction ps as [|p ps IH]; intros d; cbn [params_loop].
  - eexists; reflexivity.
  - destruct (values_loop_total p d) as [d1 E]. rewrite E. apply IH.
Qed.

Lemma sgr_dispatch_total : forall s ps, exists s', sgr_dispatch s ps = Some s'.
Proof.
  intros s ps. unfold sgr_dispatch.
  destruct (params_loop_total ps (mkD s WNormal None None TFg)) as [d E]. rewrite E.
  eexists; reflexivity.
Qed.

Lemma colour_eqb_eq a b : colour_eqb a b = true -> a = b.
Proof.
  destruct a, b; cbn; try discriminate.
  - intros H. apply N.eqb_eq in H. now subst.
  - intros H. apply N.eqb_eq in H. now subst.
  - intros H. repeat rewrite andb_true_iff in H. destruct H as [[A B] C].
    apply N.eqb_eq in A, B, C. now subst.
Qed.

Lemma opt_colour_eqb_eq a b : opt_colour_eqb a b = true -> a = b.
Proof.
  destruct a, b; cbn; try discriminate; [|reflexivity].
  intros H. apply colour_eqb_eq in H. now subst.
Qed.

Lemma sstyle_eqb_eq a b : sstyle_eqb a b = true -> a = b.
Proof.
  unfold sstyle_eqb. intros H. repeat rewrite andb_true_iff in H.
  destruct H as [[[A B] C] D].
  apply opt_colour_eqb_eq in A, B, C. apply N.eqb_eq in D.
  destruct a, b; cbn in *; now subst.
Qed.

(* characters an event pushes onto the capture *)
Definition ev_chars (e : event) : list N :=
  match e with
  | EPrint cp => [cp]
  | EExecute b => if is_ascii_whitespace b then [b] else []
  | _ => []
  end.

(* the capture's style after an event (the decoder is total, see above) *)
Definition cap_style_step (s : sstyle) (e : event) : sstyle :=
  match e with
  | ECsi ps ints ign action =>
      if ign then s
      else if negb (action =? 109) then s
      else if negb (match ints with [] => true | _ => false end) then s
      else match sgr_dispatch s ps with Some s' => s' | None => s end
  | _ => s
  end.

Definition tag_ev (s : sstyle) (e : event) : list (sstyle * N) := map (pair s) (ev_chars e).

Fixpoint tags (s : sstyle) (es : list event) : list (sstyle * N) :=
  match es with
  | [] => []
  | e :: rest => tag_ev s e ++ tags (cap_style_step s e) rest
  end.

Definition style_after (s : sstyle) (es : list event) : sstyle := fold_left cap_style_step es s.

Lemma tags_app : forall a b s, tags s (a ++ b) = tags s a ++ tags (style_after s a) b.
Proof.
  induction a as [|e a IH]; intros b s; cbn [app tags style_after fold_left].
  - reflexivity.
  - rewrite IH. rewrite app_assoc. reflexivity.
Qed.

Lemma style_after_app : forall a b s, style_after s (a ++ b) = style_after (style_after s a) b.
Proof. intros. unfold style_after. apply fold_left_app. Qed.

Definition flatten (rs : list (sstyle * list N)) : list (sstyle * N) :=
  flat_map (fun r => map (pair (fst r)) (snd r)) rs.

Lemma flatten_app a b : flatten (a ++ b) = flatten a ++ flatten b.
Proof. unfold flatten. apply flat_map_app. Qed.

Lemma flatten_concat : forall xss, flatten (concat xss) = concat (map flatten xss).
Proof.
  induction xss as [|x xss IH]; cbn [concat map]; [reflexivity|].
  rewrite flatten_app, IH. reflexivity.
Qed.

(* what the next run will carry: the pending text tagged with [ready]'s style (the
   style before the change) or, if no change is pending, the current style *)
Definition pstyle (c : capture) : sstyle :=
  match c_ready c with Some s => s | None => c_style c end.
Definition pend (c : capture) : list (sstyle * N) := map (pair (pstyle c)) (c_printable c).
Definition pend0 (c : capture) : list (sstyle * N) := map (pair (c_style c)) (c_printable c).

Definition is_csi (e : event) : bool := match e with ECsi _ _ _ _ => true | _ => false end.

Definition csi_alone (evs : list event) : Prop :=
  Forall (fun e => is_csi e = false) evs \/ exists ps i g a, evs = [ECsi ps i g a].

Lemma capture_event_noncsi c e : is_csi e = false ->
  capture_event c e = Some (mkCap (c_style c) (c_printable c ++ ev_chars e) (c_ready c))
  /\ cap_style_step (c_style c) e = c_style c.
Proof.
  intros H. destruct c as [s pr rd]. destruct e; try discriminate H;
    cbn [capture_event ev_chars cap_style_step c_style c_printable c_ready];
    rewrite ?app_nil_r; try (split; reflexivity).
  destruct (is_ascii_whitespace b); rewrite ?app_nil_r; split; reflexivity.
Qed.

Lemma capture_events_noncsi : forall evs c, Forall (fun e => is_csi e = false) evs ->
  capture_events c evs = Some (mkCap (c_style c) (c_printable c ++ flat_map ev_chars evs) (c_ready c))
  /\ tags (c_style c) evs = map (pair (c_style c)) (flat_map ev_chars evs)
  /\ style_after (c_style c) evs = c_style c.
Proof.
  induction evs as [|e evs IH]; intros c H.
  - cbn [capture_events flat_map tags map style_after fold_left]. rewrite app_nil_r.
    destruct c; repeat split; reflexivity.
  - inversion H as [|? ? He Hr]; subst.
    destruct (capture_event_noncsi c e He) as [E1 E2].
    cbn [capture_events flat_map tags style_after fold_left]. rewrite E1, E2.
    destruct (IH (mkCap (c_style c) (c_printable c ++ ev_chars e) (c_ready c)) Hr) as (A & B & C).
    cbn [c_style c_printable c_ready] in A, B, C.
    rewrite A. rewrite <- app_assoc. split; [reflexivity|]. split.
    + rewrite B. unfold tag_ev. rewrite map_app. reflexivity.
    + exact C.
Qed.

Lemma capture_event_csi c ps i g a :
  exists c1, capture_event c (ECsi ps i g a) = Some c1 /\
    c_printable c1 = c_printable c /\
    c_style c1 = cap_style_step (c_style c) (ECsi ps i g a) /\
    (c_ready c = None ->
       pstyle c1 = pstyle c \/ c_printable c = []) /\
    (c_ready c = None -> c_ready c1 <> None -> c_printable c1 <> []).
Proof.
  cbn [capture_event cap_style_step].
  destruct g.
  { exists c. repeat split; auto; try (intros H1 H2; congruence). }
  destruct (negb (a =? 109)).
  { exists c. repeat split; auto; try (intros H1 H2; congruence). }
  destruct (negb match i with [] => true | _ :: _ => false end).
  { exists c. repeat split; auto; try (intros H1 H2; congruence). }
  destruct (sgr_dispatch_total (c_style c) ps) as [s' E]. rewrite E.
  eexists. split; [reflexivity|]. cbn [c_printable c_style c_ready].
  split; [reflexivity|]. split; [reflexivity|].
  unfold pstyle. cbn [c_ready c_style]. unfold style_eqb.
  destruct (sstyle_eqb s' (c_style c)) eqn:Eq; cbn [negb andb].
  - apply sstyle_eqb_eq in Eq. subst s'. split.
    + intros H. rewrite H. left. reflexivity.
    + intros H H1. congruence.
  - destruct (c_printable c) eqn:Ep; cbn [negb].
    + split; [intros; right; reflexivity | intros H H1; congruence].
    + split; [intros H; rewrite H; left; reflexivity | intros; discriminate].
Qed.

(* the events of ONE byte, no change ready before: the pending tagged text grows by exactly the tags of
   these events (a CSI comes alone, so the retagging by [ready] cannot hit text pushed by the same byte);
   [ready] is set only when text is pending *)
Lemma cap_byte : forall evs c, c_ready c = None -> csi_alone evs ->
  exists c1, capture_events c evs = Some c1 /\
    pend c1 = pend c ++ tags (c_style c) evs /\
    c_style c1 = style_after (c_style c) evs /\
    (c_ready c1 <> None -> c_printable c1 <> []).
Proof.
  intros evs c Hr [Hn | (ps & i & g & a & ->)].
  - destruct (capture_events_noncsi evs c Hn) as (A & B & C).
    eexists. split; [exact A|]. unfold pend, pstyle. cbn [c_ready c_style c_printable].
    rewrite Hr, B, C, map_app. repeat split. intros H. congruence.
  - destruct (capture_event_csi c ps i g a) as (c1 & E & P1 & P2 & P3 & P4).
    exists c1. cbn [capture_events]. rewrite E. split; [reflexivity|].
    cbn [tags tag_ev ev_chars map app style_after fold_left]. rewrite app_nil_r.
    split; [|split; [exact P2 | exact (P4 Hr)]].
    unfold pend. rewrite P1. destruct (P3 Hr) as [H | H].
    + rewrite H. reflexivity.
    + rewrite H. reflexivity.
Qed.

Lemma trans_csi_dispatch v b tgt : b < 256 -> vt_trans v b = (tgt, TCsiDispatch) ->
  tgt = Some VGround /\ v <> VDcsPass /\ v <> VOsc.
Proof.
  intros Hb E. destruct (vt_trans_facts v b Hb) as [Hbook _ _ Hdisp _ _]. rewrite E in Hbook, Hdisp.
  split; [exact (Hdisp eq_refl)|]. specialize (Hbook eq_refl). split; intros ->; discriminate Hbook.
Qed.

(* SP and ESC are never executed: 0x20 prints, collects or is ignored; ESC is an "anywhere" transition *)
Lemma trans_execute v b tgt : vt_trans v b = (tgt, TExecute) -> b <> 32 /\ b <> 27.
Proof. intros H. split; intros ->; [destruct v|]; discriminate H. Qed.

(* a byte below 0x20 is CAN, SUB, ESC or a C0 control, and no state prints on those *)
Lemma trans_print v b tgt : vt_trans v b = (tgt, TPrint) -> 32 <= b.
Proof.
  intros H. apply N.le_ngt. intros Hb. unfold vt_trans in H.
  destruct ((b =? 24) || (b =? 26)) eqn:E1; [discriminate H|].
  destruct (b =? 27) eqn:E2; [discriminate H|].
  assert (Hc : c0 b = true).
  { apply orb_false_iff in E1. rewrite !N.eqb_neq in E1. apply N.eqb_neq in E2.
    unfold c0, in_range. rewrite !orb_true_iff, !andb_true_iff, !N.leb_le, N.eqb_eq. lia. }
  destruct v; rewrite Hc in H; try discriminate H. destruct (b =? 7); discriminate H.
Qed.

Lemma vact_eqb_refl a : vact_eqb a a = true.
Proof. now apply vact_eqb_eq. Qed.

(* outside a multi-byte character a step adds to the events of its action only the DCS / OSC events of
   leaving the old state and entering the new one *)
Lemma step_events_forall (P : event -> Prop) v b tgt a :
  uni v = None -> vt_trans (vs v) b = (tgt, a) ->
  P EUnhook -> (forall fs bel, P (EOsc fs bel)) -> (forall ps i g c, P (EHook ps i g c)) ->
  Forall P (snd (do_action v a b)) -> Forall P (snd (vt_step v b)).
Proof.
  intros Hu E Hunhook Hosc Hhook Hact. rewrite (vt_step_none v b Hu), E. cbn [fst snd].
  destruct tgt as [t|]; [|exact Hact]. cbn [snd].
  apply Forall_app. split; [unfold exit_events; destruct (vs v); auto|].
  apply Forall_app. split; [exact Hact|].
  unfold enter. destruct t; try destruct (final_params _); cbn [snd]; auto.
Qed.

Lemma action_noncsi s a b : a <> TCsiDispatch ->
  Forall (fun e => is_csi e = false) (snd (do_action s a b)).
Proof.
  intros H. destruct a; try congruence; cbn [do_action snd]; repeat constructor.
  destruct (utf8_lead b); cbn [snd]; constructor.
Qed.

Lemma step_csi_alone : forall v b, b < 256 -> csi_alone (snd (vt_step v b)).
Proof.
  intros v b Hb. destruct (uni v) as [[u acc]|] eqn:Eu.
  { left. unfold vt_step. rewrite Eu. destruct (utf8_cont u b); cbn [snd]; repeat constructor. }
  destruct (vt_trans (vs v) b) as [tgt a] eqn:E.
  destruct (vact_eqb a TCsiDispatch) eqn:Ea.
  - apply vact_eqb_eq in Ea. subst a.
    destruct (trans_csi_dispatch _ _ _ Hb E) as (-> & B & C).
    right. rewrite (vt_step_none v b Eu), E. cbn [fst snd]. rewrite do_action_csi. unfold exit_events.
    destruct (vs v); try congruence; eexists _, _, _, _; reflexivity.
  - left. apply (step_events_forall _ v b tgt a Eu E); [reflexivity | reflexivity | reflexivity |].
    apply action_noncsi. intros ->. discriminate Ea.
Qed.

Lemma wn_loop_ready : forall bs p c s, c_ready c = Some s -> wn_loop bs p c = Some (bs, p, c).
Proof. intros bs p c s H. destruct bs; cbn [wn_loop]; rewrite H; reflexivity. Qed.

Lemma run_app : forall a b p p1 e1,
  run cfg_default p a = Some (p1, e1) ->
  run cfg_default p (a ++ b) =
    match run cfg_default p1 b with Some (p2, e2) => Some (p2, e1 ++ e2) | None => None end.
Proof.
  induction a as [|x a IH]; intros b p p1 e1 H.
  - cbn [run] in H. inversion H; subst. cbn [app].
    destruct (run cfg_default p1 b) as [[p2 e2]|]; reflexivity.
  - cbn [run app] in *. destruct (advance cfg_default p x) as [[q ex]|]; [|discriminate].
    destruct (run cfg_default q a) as [[q2 e2]|] eqn:E; [|discriminate].
    inversion H; subst. rewrite (IH b q p1 e2 E).
    destruct (run cfg_default p1 b) as [[p3 e3]|]; [|reflexivity].
    rewrite app_assoc. reflexivity.
Qed.

Lemma pend_reset c : pend (mkCap (c_style c) (c_printable c) None) = pend0 c.
Proof. reflexivity. Qed.

(* [v] is the specification machine's state related to the parser by C02's [R]; [bs0] is what this call
   consumed.  The last conjunct is the measure for wincon_iter: a call that yields text consumed at least
   one byte, unless text was already pending on entry (then the fuel pays one extra unit: the `+ 1` in the
   hypothesis of wincon_iter_spec) *)
Lemma wn_loop_spec : forall bs p v c,
  bytes_lt bs -> R p v -> c_ready c = None ->
  exists bs0 bs1 p1 c1,
    wn_loop bs p c = Some (bs1, p1, c1) /\ bs = bs0 ++ bs1 /\
    R p1 (fst (vt_run v bs0)) /\
    run cfg_default p bs0 = Some (p1, snd (vt_run v bs0)) /\
    pend c1 = pend c ++ tags (c_style c) (snd (vt_run v bs0)) /\
    c_style c1 = style_after (c_style c) (snd (vt_run v bs0)) /\
    (c_ready c1 = None -> bs1 = []) /\
    (c_ready c1 <> None -> c_printable c1 <> []) /\
    (c_printable c1 <> [] ->
     (length bs1 < length bs + match c_printable c with [] => 0 | _ => 1 end)%nat).
Proof.
  induction bs as [|b rest IH]; intros p v c Hbs HR Hrd.
  - exists [], [], p, c. cbn [wn_loop]. rewrite Hrd.
    cbn [vt_run fst snd tags style_after fold_left run app]. rewrite app_nil_r.
    conj_split; auto; try (intros; congruence).
    destruct (c_printable c); [congruence | cbn; lia].
  - inversion Hbs as [|? ? Hb Hrest]; subst.
    destruct (step_sim p v b HR Hb) as (p1 & Ha & HR1).
    destruct (cap_byte (snd (vt_step v b)) c Hrd (step_csi_alone v b Hb))
      as (c1 & Hc & Hp & Hs & Hne).
    cbn [wn_loop]. rewrite Hrd, Ha, Hc.
    destruct (c_ready c1) as [sr|] eqn:Hr1.
    + (* a style change is ready: stop after this byte *)
      exists [b], rest, p1, c1.
      rewrite (wn_loop_ready rest p1 c1 sr Hr1).
      rewrite vt_run_single. cbn [fst snd run]. rewrite Ha, !app_nil_r.
      assert (Hne' : c_printable c1 <> []) by (apply Hne; discriminate).
      conj_split; auto; try (intros; first [congruence | cbn [length]; lia]).
    + destruct (IH p1 (fst (vt_step v b)) c1 Hrest HR1 Hr1)
        as (bs0 & bs1 & p2 & c2 & Hw & Hsplit & HR2 & Hrun & Hp2 & Hs2 & Hend & Hne2 & Hlen).
      exists (b :: bs0), bs1, p2, c2.
      rewrite Hw. rewrite vt_run_cons. cbn [fst snd run]. rewrite Ha, Hrun.
      conj_split; auto.
      * cbn [app]. now rewrite Hsplit.
      * rewrite Hp2, Hp, Hs, tags_app, app_assoc. reflexivity.
      * rewrite Hs2, Hs, style_after_app. reflexivity.
      * intros Hne3. specialize (Hlen Hne3). cbn [length]. destruct (c_printable c1); lia.
Qed.

Lemma wincon_iter_spec : forall fuel bs p v c,
  bytes_lt bs -> R p v ->
  (length bs + (match c_printable c with [] => 0 | _ => 1 end) < fuel)%nat ->
  exists its p',
    wincon_iter fuel bs p c
      = Some (its, p', mkCap (style_after (c_style c) (snd (vt_run v bs))) [] None) /\
    run cfg_default p bs = Some (p', snd (vt_run v bs)) /\ R p' (fst (vt_run v bs)) /\
    flatten its = pend0 c ++ tags (c_style c) (snd (vt_run v bs)) /\
    Forall (fun r => snd r <> []) its.
Proof.
  induction fuel as [|f IH]; intros bs p v c Hbs HR Hfuel; [lia|].
  cbn [wincon_iter]. unfold wincon_next.
  destruct (wn_loop_spec bs p v (mkCap (c_style c) (c_printable c) None) Hbs HR eq_refl)
    as (bs0 & bs1 & p1 & c1 & Hw & Hsplit & HR1 & Hrun & Hp & Hs & Hend & Hne & Hlen).
  rewrite Hw. rewrite pend_reset in Hp. cbn [c_style] in Hp, Hs.
  destruct (c_printable c1) as [|ch t] eqn:Hpr.
  - (* nothing pending: the input is consumed *)
    assert (Hr1 : c_ready c1 = None).
    { destruct (c_ready c1) eqn:E; [|reflexivity]. exfalso. apply Hne; congruence. }
    pose proof (Hend Hr1) as Hb1. subst bs1. rewrite app_nil_r in Hsplit. subst bs0.
    exists [], p1. split.
    { f_equal. f_equal. destruct c1 as [s1 pr1 rd1]. cbn [c_style c_printable c_ready] in *.
      subst. reflexivity. }
    split; [exact Hrun|]. split; [exact HR1|]. split; [|constructor].
    unfold pend in Hp. rewrite Hpr in Hp. cbn [map] in Hp. cbn [flatten flat_map]. exact Hp.
  - (* a run is cut *)
    assert (Hbs1 : bytes_lt bs1).
    { unfold bytes_lt in *. rewrite Hsplit in Hbs. apply Forall_app in Hbs. tauto. }
    assert (Hf : (length bs1 + 0 < f)%nat).
    { specialize (Hlen ltac:(discriminate)). cbn [c_printable] in Hlen. destruct (c_printable c); lia. }
    destruct (IH bs1 p1 (fst (vt_run v bs0)) (mkCap (c_style c1) [] (c_ready c1)) Hbs1 HR1 Hf)
      as (its & p' & Hit & Hrun2 & HR2 & Hfl & Hall).
    cbn [c_style c_printable] in Hit, Hfl. rewrite Hit.
    exists ((match c_ready c1 with Some s => s | None => c_style c1 end, ch :: t) :: its), p'.
    subst bs. rewrite (VtCancel.vt_run_app bs0 v bs1). cbn [fst snd].
    split.
    { rewrite style_after_app, <- Hs. reflexivity. }
    split.
    { rewrite (run_app bs0 bs1 p p1 _ Hrun), Hrun2. reflexivity. }
    split; [exact HR2|]. split.
    + change (flatten ((match c_ready c1 with Some s => s | None => c_style c1 end, ch :: t) :: its))
        with (map (pair (pstyle c1)) (ch :: t) ++ flatten its).
      rewrite <- Hpr. fold (pend c1). rewrite Hp, Hfl. unfold pend0 at 2. cbn [c_printable map app].
      rewrite tags_app, <- Hs, app_assoc. reflexivity.
    + constructor; [cbn [snd]; discriminate | exact Hall].
Qed.

Theorem extract_next_spec : forall bs p v c,
  bytes_lt bs -> R p v ->
  exists its p',
    extract_next bs p c
      = Some (its, p', mkCap (style_after (c_style c) (snd (vt_run v bs))) [] None) /\
    run cfg_default p bs = Some (p', snd (vt_run v bs)) /\ R p' (fst (vt_run v bs)) /\
    flatten its = pend0 c ++ tags (c_style c) (snd (vt_run v bs)) /\
    Forall (fun r => snd r <> []) its.
Proof.
  intros bs p v c Hbs HR. unfold extract_next.
  destruct (wincon_iter_spec (S (S (length bs))) bs p v (mkCap (c_style c) (c_printable c) None) Hbs HR)
    as (its & p' & H).
  { cbn [c_printable]. destruct (c_printable c); lia. }
  exists its, p'. exact H.
Qed.

Theorem extract_chunks_spec : forall chunks p v c,
  bytes_lt (concat chunks) -> R p v -> c_printable c = [] -> c_ready c = None ->
  exists itss p',
    extract_chunks chunks p c
      = Some (itss, p', mkCap (style_after (c_style c) (snd (vt_run v (concat chunks)))) [] None) /\
    run cfg_default p (concat chunks) = Some (p', snd (vt_run v (concat chunks))) /\
    R p' (fst (vt_run v (concat chunks))) /\
    flatten (concat itss) = tags (c_style c) (snd (vt_run v (concat chunks))) /\
    Forall (fun r => snd r <> []) (concat itss).
Proof.
  induction chunks as [|ch rest IH]; intros p v c Hbs HR Hpr Hrd.
  - exists [], p. cbn [extract_chunks concat vt_run fst snd style_after fold_left tags run flatten flat_map].
    destruct c as [s pr rd]. cbn [c_style c_printable c_ready] in *. subst.
    conj_split; auto.
  - cbn [concat] in Hbs. unfold bytes_lt in Hbs. apply Forall_app in Hbs. destruct Hbs as [Hb1 Hb2].
    destruct (extract_next_spec ch p v c Hb1 HR) as (its & p1 & He & Hrun & HR1 & Hfl & Hall).
    cbn [extract_chunks]. rewrite He.
    destruct (IH p1 (fst (vt_run v ch)) (mkCap (style_after (c_style c) (snd (vt_run v ch))) [] None)
                 Hb2 HR1 eq_refl eq_refl)
      as (itss & p2 & Hc & Hrun2 & HR2 & Hfl2 & Hall2).
    cbn [c_style] in Hc, Hfl2. rewrite Hc.
    exists (its :: itss), p2. cbn [concat].
    rewrite (VtCancel.vt_run_app ch v (concat rest)). cbn [fst snd].
    split.
    { rewrite style_after_app. reflexivity. }
    split.
    { rewrite (run_app ch (concat rest) p p1 _ Hrun), Hrun2. reflexivity. }
    split; [exact HR2|]. split.
    + rewrite flatten_app, Hfl, Hfl2, tags_app. unfold pend0. rewrite Hpr. reflexivity.
    + apply Forall_app. split; assumption.
Qed.

Lemma merge_runs_head : forall s t rest, t <> [] ->
  exists t' rest', merge_runs ((s, t) :: rest) = (s, t ++ t') :: rest'.
Proof.
  intros s t rest _. cbn [merge_runs].
  destruct (merge_runs rest) as [|[s' t'] rest'].
  - exists [], []. rewrite app_nil_r. reflexivity.
  - destruct (style_eqb s s').
    + exists t', rest'. reflexivity.
    + exists [], ((s', t') :: rest'). rewrite app_nil_r. reflexivity.
Qed.

Lemma group_runs_run : forall t s c cs,
  group_runs ((s, c) :: map (pair s) t ++ cs) =
  match group_runs cs with
  | (s', t') :: rest' =>
      if sstyle_eqb s s' then (s, (c :: t) ++ t') :: rest' else (s, c :: t) :: (s', t') :: rest'
  | [] => [(s, c :: t)]
  end.
Proof.
  induction t as [|c2 t IH]; intros s c cs.
  - cbn [map app group_runs]. reflexivity.
  - cbn [map app]. change (group_runs ((s, c) :: (s, c2) :: map (pair s) t ++ cs))
      with (match group_runs ((s, c2) :: map (pair s) t ++ cs) with
            | (s', t0) :: rest' =>
                if sstyle_eqb s s' then (s, c :: t0) :: rest' else (s, [c]) :: (s', t0) :: rest'
            | [] => [(s, [c])]
            end).
    rewrite IH.
    destruct (group_runs cs) as [|[s' t'] rest']; [|destruct (sstyle_eqb s s')];
      rewrite sstyle_eqb_refl; reflexivity.
Qed.

Lemma merge_is_group : forall rs, Forall (fun r => snd r <> []) rs ->
  merge_runs rs = group_runs (flatten rs).
Proof.
  induction rs as [|[s t] rest IH]; intros H; [reflexivity|].
  inversion H as [|? ? Ht Hrest]; subst. cbn [snd] in Ht.
  destruct t as [|c t]; [congruence|].
  change (flatten ((s, c :: t) :: rest)) with ((s, c) :: map (pair s) t ++ flatten rest).
  rewrite group_runs_run. cbn [merge_runs]. rewrite (IH Hrest). unfold style_eqb. reflexivity.
Qed.

Lemma chunked_eq_oneshot : forall chunks p v c,
  bytes_lt (concat chunks) -> R p v -> c_printable c = [] -> c_ready c = None ->
  exists itss its p' c',
    extract_chunks chunks p c = Some (itss, p', c') /\
    extract_next (concat chunks) p c = Some (its, p', c') /\
    flatten (concat itss) = flatten its /\
    Forall (fun r => snd r <> []) (concat itss) /\ Forall (fun r => snd r <> []) its /\
    merge_runs (concat itss) = merge_runs its.
Proof.
  intros chunks p v c Hbs HR Hpr Hrd.
  destruct (extract_chunks_spec chunks p v c Hbs HR Hpr Hrd) as (itss & p1 & Hc & Hrun1 & _ & Hfl1 & Hall1).
  destruct (extract_next_spec (concat chunks) p v c Hbs HR) as (its & p2 & He & Hrun2 & _ & Hfl2 & Hall2).
  assert (p1 = p2) by congruence. subst p2.
  assert (Hfl : flatten (concat itss) = flatten its).
  { rewrite Hfl1, Hfl2. unfold pend0. rewrite Hpr. reflexivity. }
  eexists itss, its, p1, _. repeat split; try eassumption.
  rewrite (merge_is_group _ Hall1), (merge_is_group _ Hall2), Hfl. reflexivity.
Qed.

Theorem wincon_chunked : forall chunks, bytes_lt (concat chunks) ->
  exists itss its p c,
    extract_chunks chunks parser_new capture_default = Some (itss, p, c) /\
    extract_next (concat chunks) parser_new capture_default = Some (its, p, c) /\
    flatten (concat itss) = flatten its /\
    Forall (fun r => snd r <> []) (concat itss) /\ Forall (fun r => snd r <> []) its /\
    merge_runs (concat itss) = merge_runs its.
Proof.
  intros chunks Hbs. exact (chunked_eq_oneshot chunks parser_new vt_init capture_default Hbs R_init eq_refl eq_refl).
Qed.

Theorem wincon_chunked_from : forall chunks p v c,
  bytes_lt (concat chunks) -> R p v -> c_printable c = [] -> c_ready c = None ->
  exists itss its p' c',
    extract_chunks chunks p c = Some (itss, p', c') /\
    extract_next (concat chunks) p c = Some (its, p', c') /\
    flatten (concat itss) = flatten its /\
    merge_runs (concat itss) = merge_runs its.
Proof.
  intros chunks p v c Hbs HR Hpr Hrd.
  destruct (chunked_eq_oneshot chunks p v c Hbs HR Hpr Hrd) as (itss & its & p' & c' & A & B & C & _ & _ & D).
  exists itss, its, p', c'. auto.
Qed.
