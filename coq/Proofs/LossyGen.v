(* Proofs/LossyGen.v -- the functions TRANSLATED from crates/anstyle-lossy/src/{lib.rs,palette.rs}
   and the colour accessors of crates/anstyle/src/color.rs (Generated/LossyFn.v, written by
   tools/gen_fn_lossy.py on every run) are extensionally equal to the hand model
   Model/Lossy.v that the theorems of C10 are about: same inputs, same result, a panic
   ([None]) included.  A change to the Rust functions changes the translation; if it changes
   their meaning, one of these proofs fails. *)
From Coq Require Import ZArith NArith List Bool Lia.
From AV Require Import Generated.Palette Spec.Lossy Model.Base Model.Imp Model.Lossy Generated.LossyFn
  Proofs.Lossy.
Import ListNotations.
Local Open Scope N_scope.

(* crates/anstyle/src/color.rs *)

Lemma g_rgb_r_eq r g b : g_rgb_r (r, g, b) = r.
Proof. reflexivity. Qed.
Lemma g_rgb_g_eq r g b : g_rgb_g (r, g, b) = g.
Proof. reflexivity. Qed.
Lemma g_rgb_b_eq r g b : g_rgb_b (r, g, b) = b.
Proof. reflexivity. Qed.

Lemma g_a256_index_eq i : g_a256_index i = i.
Proof. reflexivity. Qed.

(* the outer option of the translation is "panics" (never), the inner one the Rust Option *)
Lemma g_into_ansi_eq i : g_into_ansi i = Some (into_ansi i).
Proof.
  unfold g_into_ansi, g_a256_index, a256_f0, into_ansi, into_ansi_arms. cbn [assoc]. cbv zeta.
  repeat (destruct (i =? _); [reflexivity|]). reflexivity.
Qed.

(* an AnsiColor is its ANSI number: a number that is no AnsiColor reaches no arm *)
Lemma g_from_ansi_eq a : g_from_ansi a = from_ansi a.
Proof.
  unfold g_from_ansi, from_ansi, a256_new. cbv beta zeta.
  repeat match goal with
         | |- context [N.eqb a ?k] => destruct (N.eqb_spec a k) as [-> | ?]; [reflexivity|]
         end.
  symmetry. apply nth_error_None. cbn [length from_ansi_tbl]. lia.
Qed.

(* lib.rs: distance *)

Lemma ci32_i32 z : ci32 z = i32 z.
Proof.
  unfold ci32, i32.
  destruct (Z.leb_spec (-2147483648) z), (Z.leb_spec z 2147483647), (Z.ltb_spec z 2147483648);
    try reflexivity; lia.
Qed.

Lemma i32_some z z' : i32 z = Some z' -> (-2147483648 <= z' < 2147483648)%Z.
Proof.
  unfold i32. destruct (Z.leb_spec (-2147483648) z), (Z.ltb_spec z 2147483648); cbn [andb];
    intros E; inversion E; subst; lia.
Qed.

(* `x as u32` on an i32 value *)
Lemma as_u32_mod z : (-2147483648 <= z < 2147483648)%Z -> Z.to_N (z mod 4294967296) = i32_as_u32 z.
Proof.
  intros H. unfold i32_as_u32. destruct (Z.leb_spec 0 z).
  - rewrite Z.mod_small by lia. reflexivity.
  - replace (z mod 4294967296)%Z with (z + 4294967296)%Z; [reflexivity|].
    rewrite <- (Z.mod_add z 1 4294967296) by lia. rewrite Z.mod_small by lia. lia.
Qed.

Lemma g_distance_eq c1 c2 : g_distance c1 c2 = distance c1 c2.
Proof.
  destruct c1 as [[r1 g1] b1], c2 as [[r2 g2] b2].
  unfold g_distance, distance. rewrite !g_rgb_r_eq, !g_rgb_g_eq, !g_rgb_b_eq. cbv zeta.
  repeat (rewrite ?ci32_i32; match goal with
         | |- context [match i32 ?x with _ => _ end] =>
             lazymatch x with
             | context [match _ with _ => _ end] => fail
             | _ => destruct (i32 x) eqn:?; [|reflexivity]
             end
         end).
  f_equal. apply as_u32_mod.
  match goal with H : i32 _ = Some ?z |- (_ <= ?z < _)%Z => exact (i32_some _ _ H) end.
Qed.

(* One turn of the `while` of the nearest-colour search (find_xterm_match / Palette::find_match), for any table [t],
   told without reference to the spelling of the translated body; the loop state is (best_index, best_distance, index). *)
Definition scan_turn (c : rgb) (t : list rgb) (s : N * N * N) : option (bctl (N * N * N)) :=
  let '(bi, bd, i) := s in
  if i <? len t then
    match aget t i with
    | None => None
    | Some e =>
        match distance c e with
        | None => None
        | Some d => Some (BNext (if d <? bd then (i, d, i + 1) else (bi, bd, i + 1)))
        end
    end
  else Some (BBreak (bi, bd, i)).

(* a test of [scan_turn_tac] on the body tools/gen_fn_lossy.py emits for the unchanged source; not used below *)
Definition scan_step (c : rgb) (t : list rgb) : N * N * N -> option (bctl (N * N * N)) :=
  fun '(best_index1, best_distance1, index1) =>
    if (index1 <? (len t)) then
      el1 <- aget t index1 ;;
      r1 <- g_distance c el1 ;;
      '(best_index3, best_distance3) <- (if (r1 <? best_distance1) then
        let best_index2 := index1 in
        let best_distance2 := r1 in
        Some (best_index2, best_distance2)
      else
        Some (best_index1, best_distance1)) ;;
      let index2 := (index1 + 1) in
      Some (BNext (best_index3, best_distance3, index2))
    else Some (BBreak (best_index1, best_distance1, index1)).

(* the loop variables in another order (the order of their `let mut`s): the same loop up to a renaming [f] of the state *)
Definition bctl_map {S S'} (f : S -> S') (r : option (bctl S)) : option (bctl S') :=
  match r with
  | Some (BNext x) => Some (BNext (f x))
  | Some (BBreak x) => Some (BBreak (f x))
  | None => None
  end.

Lemma while_fuel0_iso {S S'} (f : S -> S') (step : S -> option (bctl S)) (step' : S' -> option (bctl S')) :
  (forall s, step' (f s) = bctl_map f (step s)) ->
  forall fuel s, while_fuel0 fuel step' (f s) = option_map f (while_fuel0 fuel step s).
Proof.
  intros H. induction fuel as [|n IH]; intros s; [reflexivity|].
  cbn [while_fuel0]. rewrite H. destruct (step s) as [[x|x]|]; cbn [bctl_map option_map]; auto.
Qed.

(* "this translated loop body is a scan turn": case analysis driven by the goal, whatever the nesting and the
   names of the body (distance computed first or inside the test, a join or two branches, `continue`) *)
Ltac scan_turn_tac :=
  intros ? ? ?; unfold scan_turn, bctl_map; cbv beta iota zeta; unfold rgb in *;
  repeat first
    [ reflexivity
    | rewrite g_distance_eq
    | progress cbv beta iota zeta
    | match goal with
      | |- context [match ?x with _ => _ end] =>
          lazymatch x with
          | context [match _ with _ => _ end] => fail
          | _ => destruct x eqn:?
          end
      end
    | congruence
    | match goal with
      | H : (_ <? _) = true |- _ => apply N.ltb_lt in H
      | H : (_ <? _) = false |- _ => apply N.ltb_ge in H
      | H : (_ <=? _) = true |- _ => apply N.leb_le in H
      | H : (_ <=? _) = false |- _ => apply N.leb_gt in H
      end
    | exfalso; lia ].

Lemma scan_step_turn c t : forall bi bd i, scan_step c t (bi, bd, i) = scan_turn c t (bi, bd, i).
Proof. unfold scan_step. scan_turn_tac. Qed.

Lemma aget_lt {A} (t : list A) i e : aget t i = Some e -> i < len t.
Proof.
  unfold aget, len. intros H.
  assert (N.to_nat i < length t)%nat by (apply nth_error_Some; congruence). lia.
Qed.

(* enough fuel: one step per remaining entry and one for the final test *)
Lemma scan_loop c t step :
  (forall bi bd i, step (bi, bd, i) = scan_turn c t (bi, bd, i)) ->
  forall fuel i bi bd,
  i <= len t -> (length t - N.to_nat i < fuel)%nat ->
  while_fuel0 fuel step (bi, bd, i) =
  match scan c (skipn (N.to_nat i) t) i bi bd with
  | Some (bi', bd') => Some (bi', bd', len t)
  | None => None
  end.
Proof.
  intros Hstep.
  induction fuel as [|f IH]; intros i bi bd Hi Hf; [lia|].
  cbn [while_fuel0]. rewrite Hstep. unfold scan_turn.
  destruct (N.ltb_spec i (len t)) as [Hlt | Hge].
  - destruct (aget t i) as [e|] eqn:He.
    2:{ exfalso. unfold aget in He. apply nth_error_None in He. unfold len in Hlt. lia. }
    rewrite (skipn_cons_nth t (N.to_nat i) e He). cbn [scan].
    destruct (distance c e) as [d|]; [|reflexivity].
    replace (S (N.to_nat i)) with (N.to_nat (i + 1)) by lia.
    unfold len in *.
    destruct (d <? bd); apply IH; lia.
  - assert (i = len t) by lia. subst i. unfold len. rewrite Nat2N.id, skipn_all. reflexivity.
Qed.

(* the common text of the searches: seed with entry [start], scan from start + 1 *)
Lemma find_loop c t step fuel start i e d0 :
  (forall bi bd i, step (bi, bd, i) = scan_turn c t (bi, bd, i)) ->
  aget t start = Some e -> i = start + 1 -> (length t < fuel)%nat ->
  while_fuel0 fuel step (start, d0, i) =
  match scan c (skipn (N.to_nat (start + 1)) t) (start + 1) start d0 with
  | Some (bi', bd') => Some (bi', bd', len t)
  | None => None
  end.
Proof.
  intros Hstep He -> Hf. apply aget_lt in He. apply scan_loop; [exact Hstep | unfold len in *; lia ..].
Qed.

(* [f] is one of the six orders in which the three `let mut`s can be declared; [search_tac] tries them all *)
Lemma find_loop_perm c t (f : N * N * N -> N * N * N) step fuel init start i e d0 :
  (forall bi bd i, step (f (bi, bd, i)) = bctl_map f (scan_turn c t (bi, bd, i))) ->
  init = f (start, d0, i) ->
  aget t start = Some e -> i = start + 1 -> (length t < fuel)%nat ->
  while_fuel0 fuel step init =
  match scan c (skipn (N.to_nat (start + 1)) t) (start + 1) start d0 with
  | Some (bi', bd') => Some (f (bi', bd', len t))
  | None => None
  end.
Proof.
  intros Hstep -> He Hi Hf.
  rewrite (while_fuel0_iso f (scan_turn c t) step) by (intros [[bi bd] j]; apply Hstep).
  rewrite (find_loop c t (scan_turn c t) fuel start i e d0 (fun _ _ _ => eq_refl) He Hi Hf).
  destruct (scan c _ _ _ _) as [[bi bd]|]; reflexivity.
Qed.

(* A translated search at the head of the goal, `<translated code> = <model>` with the model's [find_best] unfolded:
   the seed read, its distance and the loop are consumed one by one, each found by its SHAPE in the goal (the table, the
   start index, the fuel and the loop body are read off the goal, not named), leaving the continuation after the loop
   with the loop's answer [(bi, bd, len t)] in place of the loop. *)
Ltac search_tac c :=
  cbv zeta;
  change (@aget (N * N * N)%type) with (@aget rgb); change (@length (N * N * N)%type) with (@length rgb);
  let He := fresh "He" in
  lazymatch goal with
  | |- match aget ?t ?s with _ => _ end = _ =>
      destruct (@aget rgb t s) as [?e|] eqn:He; [|reflexivity];
      rewrite ?g_distance_eq;
      lazymatch goal with
      | |- match distance c ?e' with _ => _ end = _ =>
          destruct (distance c e') as [?d0|]; [|reflexivity]
      end;
      lazymatch goal with
      | |- match while_fuel0 ?f ?body ?init with _ => _ end = _ =>
          (* the order of (best_index, best_distance, index) in the loop state is the order of their declarations *)
          let go perm :=
            let Hb := fresh "Hb" in
            assert (Hb : forall bi bd i0, body (perm (bi, bd, i0)) = bctl_map perm (scan_turn c t (bi, bd, i0))) by scan_turn_tac;
            erewrite (find_loop_perm c t perm body f init s _ _ _ Hb ltac:(cbv beta iota; reflexivity) He
                        ltac:(first [reflexivity | lia]) ltac:(cbn [length]; unfold pal_f0; lia));
            clear Hb in
          first [ go (fun '(bi, bd, i0) => (bi, bd, i0) : N * N * N)
                | go (fun '(bi, bd, i0) => (bd, bi, i0) : N * N * N)
                | go (fun '(bi, bd, i0) => (bi, i0, bd) : N * N * N)
                | go (fun '(bi, bd, i0) => (i0, bi, bd) : N * N * N)
                | go (fun '(bi, bd, i0) => (bd, i0, bi) : N * N * N)
                | go (fun '(bi, bd, i0) => (i0, bd, bi) : N * N * N) ]
      end
  end.

Lemma g_find_xterm_match_eq c : g_find_xterm_match c = find_xterm_match c.
Proof.
  (* if the source has no private find_xterm_match, tools/gen_fn_lossy.py defines g_find_xterm_match as the model's
     search (first branch); g_rgb_to_xterm_eq then proves the inlined loop *)
  lazymatch eval cbv delta [g_find_xterm_match] in g_find_xterm_match with
  | (fun c0 => find_xterm_match c0) => reflexivity
  | _ =>
      unfold g_find_xterm_match, find_xterm_match, find_best;
      search_tac c;
      destruct (scan c _ _ _ _) as [[bi bd]|]; reflexivity
  end.
Qed.

Lemma g_rgb_to_xterm_eq c : g_rgb_to_xterm c = rgb_to_xterm c.
Proof.
  unfold g_rgb_to_xterm, rgb_to_xterm, a256_new.
  first [ rewrite g_find_xterm_match_eq; destruct (find_xterm_match c); reflexivity
        | unfold find_xterm_match, find_best;
          search_tac c;
          destruct (scan c _ _ _ _) as [[bi bd]|]; reflexivity ].
Qed.

(* palette.rs *)

Lemma g_get_ansi256_ref_eq p i : g_get_ansi256_ref p i = get_ansi256_ref p i.
Proof.
  unfold g_get_ansi256_ref, get_ansi256_ref, g_a256_index, a256_f0, pal_f0. cbv zeta.
  destruct (aget p i); reflexivity.
Qed.

Lemma g_palette_get_eq p a : g_palette_get p a = palette_get p a.
Proof.
  unfold g_palette_get, palette_get. rewrite g_from_ansi_eq.
  destruct (from_ansi a) as [i|]; [|reflexivity].
  rewrite g_get_ansi256_ref_eq. destruct (get_ansi256_ref p i); reflexivity.
Qed.

Lemma g_palette_index_eq p a : g_palette_index p a = palette_index p a.
Proof. exact (g_palette_get_eq p a). Qed.

Lemma g_rgb_from_ansi_eq p a : g_rgb_from_ansi p a = rgb_from_ansi p a.
Proof.
  unfold g_rgb_from_ansi, rgb_from_ansi. rewrite g_palette_get_eq.
  destruct (palette_get p a); reflexivity.
Qed.

Lemma g_rgb_from_index_eq p i : g_rgb_from_index p i = rgb_from_index p i.
Proof.
  unfold g_rgb_from_index, rgb_from_index, pal_f0, len.
  destruct (i <? N.of_nat (length p)); [|reflexivity].
  destruct (aget p i); reflexivity.
Qed.

Lemma g_find_match_eq p c : g_find_match p c = find_match p c.
Proof.
  unfold g_find_match, find_match, find_best, pal_f0, a256_new. cbv zeta.
  search_tac c.
  destruct (scan c _ _ _ _) as [[bi bd]|]; [|reflexivity].
  rewrite g_into_ansi_eq.
  destruct (into_ansi (bi mod 256)) as [a|] eqn:Ha; [reflexivity|].
  (* no 16-colour value: the deliberate out-of-bounds read of a one-element array *)
  destruct (N.eqb_spec bi 0) as [-> | Hnz]; [discriminate Ha|].
  replace (aget _ bi) with (@None (list N)); [reflexivity|].
  symmetry. apply nth_error_None. cbn [length]. lia.
Qed.

(* lib.rs *)

Lemma g_rgb_to_ansi_eq c p : g_rgb_to_ansi c p = rgb_to_ansi c p.
Proof.
  unfold g_rgb_to_ansi, rgb_to_ansi. rewrite g_find_match_eq. destruct (find_match p c); reflexivity.
Qed.

Lemma g_ansi_to_rgb_eq a p : g_ansi_to_rgb a p = ansi_to_rgb a p.
Proof.
  unfold g_ansi_to_rgb, ansi_to_rgb. rewrite g_rgb_from_ansi_eq. destruct (rgb_from_ansi p a); reflexivity.
Qed.

Lemma g_xterm_to_rgb_eq i p : g_xterm_to_rgb i p = xterm_to_rgb i p.
Proof.
  unfold g_xterm_to_rgb, xterm_to_rgb, a256_f0. rewrite g_rgb_from_index_eq.
  destruct (rgb_from_index p i) as [[e|]|]; try reflexivity.
  destruct (aget xterm_colors i); reflexivity.
Qed.

Lemma g_xterm_to_ansi_eq i p : g_xterm_to_ansi i p = xterm_to_ansi i p.
Proof.
  unfold g_xterm_to_ansi, xterm_to_ansi, a256_f0, xterm_to_ansi_arms. cbn [assoc]. cbv zeta.
  repeat (destruct (i =? _); [reflexivity|]).
  destruct (aget xterm_colors i) as [e|]; [|reflexivity].
  rewrite g_find_match_eq. destruct (find_match p e); reflexivity.
Qed.

Lemma g_color_to_rgb_eq col p : g_color_to_rgb col p = color_to_rgb col p.
Proof.
  destruct col as [a | i | c]; unfold g_color_to_rgb, color_to_rgb.
  - rewrite g_ansi_to_rgb_eq. destruct (ansi_to_rgb a p); reflexivity.
  - rewrite g_xterm_to_rgb_eq. destruct (xterm_to_rgb i p); reflexivity.
  - reflexivity.
Qed.

Lemma g_color_to_xterm_eq col : g_color_to_xterm col = color_to_xterm col.
Proof.
  destruct col as [a | i | c]; unfold g_color_to_xterm, color_to_xterm.
  - rewrite g_from_ansi_eq. destruct (from_ansi a); reflexivity.
  - reflexivity.
  - rewrite g_rgb_to_xterm_eq. destruct (rgb_to_xterm c); reflexivity.
Qed.

Lemma g_color_to_ansi_eq col p : g_color_to_ansi col p = color_to_ansi col p.
Proof.
  destruct col as [a | i | c]; unfold g_color_to_ansi, color_to_ansi.
  - reflexivity.
  - rewrite g_xterm_to_ansi_eq. destruct (xterm_to_ansi i p); reflexivity.
  - rewrite g_rgb_to_ansi_eq. destruct (rgb_to_ansi c p); reflexivity.
Qed.

Lemma translated_palette_reads (p : list rgb) (a i : N) :
  g_palette_get p a = palette_get p a /\ g_palette_index p a = palette_index p a /\
  g_rgb_from_index p i = rgb_from_index p i.
Proof. repeat split; [apply g_palette_get_eq | apply g_palette_index_eq | apply g_rgb_from_index_eq]. Qed.

Lemma translated_xterm (i : N) (p : list rgb) :
  g_xterm_to_rgb i p = xterm_to_rgb i p /\ g_xterm_to_ansi i p = xterm_to_ansi i p.
Proof. split; [apply g_xterm_to_rgb_eq | apply g_xterm_to_ansi_eq]. Qed.

(* the three public conversions, any colour, any palette (in range or not) *)
Theorem translated_lossy_is_model (col : color) (p : list rgb) :
  g_color_to_rgb col p = color_to_rgb col p /\
  g_color_to_xterm col = color_to_xterm col /\
  g_color_to_ansi col p = color_to_ansi col p.
Proof.
  repeat split; [apply g_color_to_rgb_eq | apply g_color_to_xterm_eq | apply g_color_to_ansi_eq].
Qed.

(* [color_ok], [palette_ok]: the domain of C10 *)
Theorem translated_lossy_is_spec (col : color) (p : list rgb) :
  color_ok col -> palette_ok p ->
  g_color_to_rgb col p = spec_to_rgb p col /\
  g_color_to_xterm col = spec_to_xterm col /\
  g_color_to_ansi col p = spec_to_ansi p col.
Proof.
  intros Hc Hp. rewrite g_color_to_rgb_eq, g_color_to_xterm_eq, g_color_to_ansi_eq.
  exact (model_is_spec col p Hc Hp).
Qed.

(* impl Default for Palette, impl From<[RgbColor; 16]> for Palette *)

Lemma g_palette_default_eq : g_palette_default = palette_default.
Proof. reflexivity. Qed.

Lemma g_palette_from_eq (raw : list rgb) : g_palette_from raw = palette_from raw.
Proof. reflexivity. Qed.

Lemma translated_palette_default_ok : palette_ok g_palette_default.
Proof. exact (proj1 shipped_palettes_ok). Qed.

Lemma translated_palette_from_reads (raw : list rgb) (a : N) :
  g_palette_get (g_palette_from raw) a = palette_get raw a.
Proof. rewrite g_palette_from_eq. apply g_palette_get_eq. Qed.
