(* The functions translated from crates/anstyle-query/src/lib.rs,
   crates/colorchoice/src/lib.rs, crates/colorchoice-clap/src/lib.rs and
   crates/anstream/src/auto.rs (Generated/ChoiceFn.v, written by tools/gen_fn_choice.py on
   every run) are extensionally equal to the hand model Model/Choice.v that the theorems of
   C09 are about.  A change to the Rust functions changes the translation; if it changes
   their meaning, one of these proofs fails. *)
From Coq Require Import NArith List Bool.
From AV Require Import Spec.Choice Generated.Choice Model.Base Model.Imp Model.Choice Generated.ChoiceFn Proofs.Choice.
Import ListNotations.
Local Open Scope N_scope.

(* the names and literals of Generated/Choice.v are the string literals of the same Rust
   functions: unfolding them makes both sides speak about the same bytes *)
Ltac names :=
  unfold ch_var_clicolor, ch_lit_clicolor_off, ch_var_clicolor_force, ch_var_no_color, ch_var_term, ch_lit_term_dumb,
         ch_var_colorterm, ch_lit_truecolor, ch_var_ci in *.

(* anstyle_query (non-Windows configuration) *)

(* The probes are a few tests on `e NAME`.  [ch_probe] does not follow the shape of the generated term: it unfolds
   the Option / OsStr adapters on both sides, then destructs whatever the goal still branches on (a variable, a
   lookup `e NAME`, a comparison `ch_bytes_eq a b` -- the same term on both sides), so that `x.unwrap_or_default()`,
   `match x { Some(v) => .., None => .. }`, `if let`, `let .. else`, `x.map(..).unwrap_or(..)`, `!x.is_none()` ..
   are all accepted, and a different answer in any case is not *)
Ltac ch_probe :=
  unfold ch_non_empty, ch_unwrap_or, opt_unwrap_or, opt_is_some, opt_is_none, ch_is_empty, ch_opt_eqb; names;
  cbv beta zeta; cbn [existsb];
  repeat (match goal with
          | |- context [match ?x with _ => _ end] => is_var x; destruct x
          | |- context [match ?f ?k with _ => _ end] => is_var f; destruct (f k)
          | |- context [ch_bytes_eq ?a ?b] => destruct (ch_bytes_eq a b)
          end; cbv beta iota zeta);
  reflexivity.

Lemma g_non_empty_eq e v : g_non_empty e v = ch_non_empty v.
Proof. unfold g_non_empty. ch_probe. Qed.

Lemma g_clicolor_eq e : g_clicolor e = Some (ch_clicolor e).
Proof. unfold g_clicolor, ch_clicolor. ch_probe. Qed.

Lemma g_clicolor_force_eq e : g_clicolor_force e = ch_clicolor_force e.
Proof. unfold g_clicolor_force, ch_clicolor_force. rewrite ?g_non_empty_eq. ch_probe. Qed.

Lemma g_no_color_eq e : g_no_color e = ch_no_color e.
Proof. unfold g_no_color, ch_no_color. rewrite ?g_non_empty_eq. ch_probe. Qed.

Lemma g_term_supports_color_eq e : g_term_supports_color e = Some (ch_term_supports_color e).
Proof. unfold g_term_supports_color, ch_term_supports_color. ch_probe. Qed.

Lemma g_term_supports_ansi_color_eq e : g_term_supports_ansi_color e = Some (ch_term_supports_ansi_color e).
Proof.
  unfold g_term_supports_ansi_color, ch_term_supports_ansi_color. rewrite ?g_term_supports_color_eq.
  unfold ch_term_supports_color. ch_probe.
Qed.

Lemma g_truecolor_eq e : g_truecolor e = ch_truecolor e.
Proof. unfold g_truecolor, ch_truecolor. ch_probe. Qed.

Lemma g_is_ci_eq e : g_is_ci e = ch_is_ci e.
Proof. unfold g_is_ci, ch_is_ci. ch_probe. Qed.

(* colorchoice: the atomic and the global *)

Lemma g_from_choice_eq c : g_from_choice c = Some (ch_from_choice c).
Proof. destruct c; reflexivity. Qed.

(* by the binary digits of [n] (0, 1, 2, 3, and the eight shapes of a number >= 4): every comparison with a
   literal below 8 computes, whichever way round and in whichever order the arms are tested *)
Lemma g_to_choice_eq n : g_to_choice n = Some (ch_to_choice n).
Proof.
  unfold g_to_choice, ch_to_choice.
  destruct n as [|p]; [reflexivity|].
  destruct p as [p|p|]; [| |reflexivity]; (destruct p as [p|p|]; [| |reflexivity]); destruct p; reflexivity.
Qed.

Lemma g_atomic_new_eq : g_atomic_new = Some ch_atomic_new.
Proof. unfold g_atomic_new. rewrite g_from_choice_eq. reflexivity. Qed.

Lemma g_user_initial_eq : g_user_initial = Some ch_user_initial.
Proof. exact g_atomic_new_eq. Qed.

Lemma g_atomic_get_eq a : g_atomic_get a = ch_atomic_get a.
Proof.
  unfold g_atomic_get, ch_atomic_get, ch_reg_load, ac_f0. cbv zeta. rewrite g_to_choice_eq.
  destruct (ch_to_choice a); reflexivity.
Qed.

Lemma g_atomic_set_eq a c : g_atomic_set a c = Some (ch_atomic_set a c).
Proof. unfold g_atomic_set. rewrite g_from_choice_eq. reflexivity. Qed.

Lemma g_global_eq user : g_global user = ch_global user.
Proof. unfold g_global, ch_global. rewrite g_atomic_get_eq. destruct (ch_atomic_get user); reflexivity. Qed.

Lemma g_write_global_eq c user : g_write_global c user = Some (ch_write_global c user).
Proof. unfold g_write_global. rewrite g_atomic_set_eq. reflexivity. Qed.

(* colorchoice_clap *)

Lemma g_as_choice_eq f : g_as_choice f = Some (ch_as_choice (cc_color f)).
Proof. destruct f; reflexivity. Qed.

Lemma g_color_write_global_eq f user : g_color_write_global f user = Some (ch_color_write_global f user).
Proof. unfold g_color_write_global. rewrite g_as_choice_eq, g_write_global_eq. reflexivity. Qed.

(* anstream::auto::choice *)

(* robust to the spelling of the decision (if/else chain | early returns | a private helper that is inlined |
   `x.unwrap_or(false)` | `x == Some(true)` | a `match` on the option ..): the callees are replaced by their hand
   models wherever they occur, then the decision is compared on the whole truth table of the probes
   (2 * 2 * 3 * 2 * 2 * 2 = 96 closed cases); no step depends on the shape of the generated term *)
Lemma g_choice_eq e user raw : g_choice e user raw = ch_choice_fn e user raw.
Proof.
  unfold g_choice, ch_choice_fn. rewrite g_global_eq.
  destruct (ch_global user) as [g|]; [|reflexivity].
  destruct g; try reflexivity.
  unfold choice_model.
  rewrite ?g_clicolor_eq, ?g_no_color_eq, ?g_clicolor_force_eq, ?g_term_supports_color_eq, ?g_is_ci_eq.
  unfold ch_raw_is_terminal.
  destruct (ch_no_color e), (ch_clicolor_force e), (ch_clicolor e) as [[|]|], raw, (ch_term_supports_color e), (ch_is_ci e);
    reflexivity.
Qed.

(* AutoStream::<S>::choice(&raw) forwards to it *)
Lemma g_autostream_choice_eq e user raw : g_autostream_choice e user raw = ch_choice_fn e user raw.
Proof. unfold g_autostream_choice. rewrite g_choice_eq. destruct (ch_choice_fn e user raw); reflexivity. Qed.

Theorem translated_choice_is_model : forall e user raw,
  g_choice e user raw =
  match ch_to_choice user with Some g => Some (choice_model g e raw) | None => None end.
Proof. intros. rewrite g_choice_eq. reflexivity. Qed.

Theorem translated_autostream_choice_is_model : forall e user raw,
  g_autostream_choice e user raw =
  match ch_to_choice user with Some g => Some (choice_model g e raw) | None => None end.
Proof. intros. rewrite g_autostream_choice_eq. reflexivity. Qed.

(* `c.write_global(); AutoStream::choice(&raw)` over the translated code: whatever the static held, the
   decision is the hand model's decision for the global [c] -- and therefore the decision list
   of the property (Spec/Choice.choice_spec) *)
Theorem translated_write_then_choice : forall c e user raw,
  (u <- g_write_global c user ;; g_autostream_choice e u raw) = Some (choice_model c e raw).
Proof.
  intros. rewrite g_write_global_eq, g_autostream_choice_eq. unfold ch_choice_fn, ch_global, ch_write_global, ch_atomic_get, ch_atomic_set.
  rewrite atomic_roundtrip. reflexivity.
Qed.

Theorem translated_write_then_choice_is_spec : forall c e user raw,
  (u <- g_write_global c user ;; g_autostream_choice e u raw) = Some (choice_spec c e raw).
Proof. intros. rewrite translated_write_then_choice, choice_is_spec. reflexivity. Qed.

(* the command-line flag: `Color { color: f }.write_global(); ColorChoice::global()` *)
Theorem translated_flag_then_global : forall f user,
  (u <- g_color_write_global f user ;; g_global u) = Some (ch_as_choice f).
Proof.
  intros. rewrite g_color_write_global_eq, g_global_eq.
  unfold ch_color_write_global, ch_global, ch_write_global, ch_atomic_get, ch_atomic_set, cc_color.
  apply atomic_roundtrip.
Qed.

Theorem translated_flag_then_global_is_spec : forall f user,
  (u <- g_color_write_global f user ;; g_global u) = Some (flag_choice_spec f).
Proof. intros f user. rewrite <- flag_is_spec. exact (translated_flag_then_global f user). Qed.

(* before any write_global the global is what AtomicChoice::new() stored *)
Theorem translated_initial_global : (u <- g_user_initial ;; g_global u) = Some ch_global_initial.
Proof.
  rewrite g_user_initial_eq, g_global_eq. unfold ch_user_initial, ch_atomic_new, ch_global, ch_atomic_get.
  apply atomic_roundtrip.
Qed.

Theorem translated_probes_are_model : forall e,
  g_clicolor e = Some (ch_clicolor e) /\ g_clicolor_force e = ch_clicolor_force e /\ g_no_color e = ch_no_color e /\
  g_term_supports_color e = Some (ch_term_supports_color e) /\
  g_term_supports_ansi_color e = Some (ch_term_supports_ansi_color e) /\
  g_truecolor e = ch_truecolor e /\ g_is_ci e = ch_is_ci e.
Proof.
  intro e.
  exact (conj (g_clicolor_eq e) (conj (g_clicolor_force_eq e) (conj (g_no_color_eq e) (conj (g_term_supports_color_eq e)
        (conj (g_term_supports_ansi_color_eq e) (conj (g_truecolor_eq e) (g_is_ci_eq e))))))).
Qed.

(* impl Default for ColorChoice / AtomicChoice *)
Lemma g_choice_default_eq : g_choice_default = ch_choice_default.
Proof. reflexivity. Qed.

Lemma g_atomic_default_eq : g_atomic_default = Some ch_atomic_default.
Proof. unfold g_atomic_default. rewrite g_atomic_new_eq. reflexivity. Qed.

Theorem translated_default_atomic_holds_default_choice :
  g_atomic_default = g_user_initial /\
  (a <- g_atomic_default ;; g_atomic_get a) = Some g_choice_default /\
  (u <- g_user_initial ;; g_global u) = Some g_choice_default.
Proof.
  refine (conj _ (conj _ _)).
  - rewrite g_atomic_default_eq, g_user_initial_eq. reflexivity.
  - rewrite g_atomic_default_eq. cbv beta iota. rewrite g_atomic_get_eq.
    unfold ch_atomic_default, ch_atomic_new, ch_atomic_get. rewrite atomic_roundtrip. reflexivity.
  - rewrite translated_initial_global. reflexivity.
Qed.
