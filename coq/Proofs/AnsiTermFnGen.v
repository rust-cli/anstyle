(* The rendering code of the third-party library ansi_term (0.12.1, translated from the cargo registry source
   by tools/gen_fn_ansiterm.py -> Generated/AnsiTermFn.v).  Every translated function is the hand model of
   Model/AnsiTerm.v (no panic); the bytes `style.paint("x").to_string()` writes, read from the terminal's
   default state by Spec/Vt + Spec/Sgr, show "x" in exactly the rendition Spec/Targets.v assigns to the value,
   for EVERY value of the type ansi_term::Style; the adapter translated over the concrete types is its hand
   model, whose abstract form means what the abstract model of Model/Adapters.v means.  Hence, with the
   theorems of Proofs/Adapters.v, interp (render (to_ansi_term s)) = project(s) for every anstyle style s. *)
From Coq Require Import NArith Arith List Bool Lia.
From AV Require Import Spec.Vt Spec.Sgr Spec.Render Spec.Targets Model.Base Model.Imp
  Generated.Adapters Model.Adapters Model.AnsiTerm Generated.AdaptersFn Generated.AnsiTermFn
  Proofs.SgrRender Proofs.Adapters Proofs.AdaptersGen.
Import ListNotations.
Local Open Scope N_scope.

Lemma g_atm_default_eq : g_atm_default = atm_default.
Proof. reflexivity. Qed.

Lemma g_atm_is_plain_eq s : g_atm_is_plain s = atm_is_plain s.
Proof. reflexivity. Qed.

Lemma g_atm_builders_eq s :
  g_atm_new = atm_default /\
  g_atm_bold s = mkAtm (atm_fg s) (atm_bg s) true (atm_dimmed s) (atm_italic s) (atm_underline s) (atm_blink s) (atm_reverse s) (atm_hidden s) (atm_strike s) /\
  g_atm_dimmed s = mkAtm (atm_fg s) (atm_bg s) (atm_bold s) true (atm_italic s) (atm_underline s) (atm_blink s) (atm_reverse s) (atm_hidden s) (atm_strike s) /\
  g_atm_italic s = mkAtm (atm_fg s) (atm_bg s) (atm_bold s) (atm_dimmed s) true (atm_underline s) (atm_blink s) (atm_reverse s) (atm_hidden s) (atm_strike s) /\
  g_atm_underline s = mkAtm (atm_fg s) (atm_bg s) (atm_bold s) (atm_dimmed s) (atm_italic s) true (atm_blink s) (atm_reverse s) (atm_hidden s) (atm_strike s) /\
  g_atm_blink s = mkAtm (atm_fg s) (atm_bg s) (atm_bold s) (atm_dimmed s) (atm_italic s) (atm_underline s) true (atm_reverse s) (atm_hidden s) (atm_strike s) /\
  g_atm_reverse s = mkAtm (atm_fg s) (atm_bg s) (atm_bold s) (atm_dimmed s) (atm_italic s) (atm_underline s) (atm_blink s) true (atm_hidden s) (atm_strike s) /\
  g_atm_hidden s = mkAtm (atm_fg s) (atm_bg s) (atm_bold s) (atm_dimmed s) (atm_italic s) (atm_underline s) (atm_blink s) (atm_reverse s) true (atm_strike s) /\
  g_atm_strikethrough s = mkAtm (atm_fg s) (atm_bg s) (atm_bold s) (atm_dimmed s) (atm_italic s) (atm_underline s) (atm_blink s) (atm_reverse s) (atm_hidden s) true /\
  (forall c, g_atm_fg s c = mkAtm (Some c) (atm_bg s) (atm_bold s) (atm_dimmed s) (atm_italic s) (atm_underline s) (atm_blink s) (atm_reverse s) (atm_hidden s) (atm_strike s)) /\
  (forall c, g_atm_on s c = mkAtm (atm_fg s) (Some c) (atm_bold s) (atm_dimmed s) (atm_italic s) (atm_underline s) (atm_blink s) (atm_reverse s) (atm_hidden s) (atm_strike s)).
Proof. repeat (split; [reflexivity|]). reflexivity. Qed.

(* a writer: the text so far, then what the hand model says is written, Ok(()) *)
Definition wrote (f out : list N) : option (list N * (unit + unit)) := Some (f ++ out, inl tt).

Ltac norm_app := repeat (progress (rewrite <- ?app_assoc; cbn [app])).

Lemma g_atm_write_foreground_code_eq c f :
  g_atm_write_foreground_code c f = wrote f (atm_join (atm_colour_params 30 c)).
Proof.
  unfold wrote. destruct c; unfold g_atm_write_foreground_code, atm_write_str;
    cbn [atm_colour_params atm_join]; norm_app; reflexivity.
Qed.

Lemma g_atm_write_background_code_eq c f :
  g_atm_write_background_code c f = wrote f (atm_join (atm_colour_params 40 c)).
Proof.
  unfold wrote. destruct c; unfold g_atm_write_background_code, atm_write_str;
    cbn [atm_colour_params atm_join]; norm_app; reflexivity.
Qed.

(* joining with the flag "something has been written" that write_prefix keeps *)
Definition sep (w : bool) : list N := if w then [59] else [].
Fixpoint joinw (w : bool) (l : list (list N)) : list N :=
  match l with [] => [] | x :: t => sep w ++ x ++ joinw true t end.

Lemma joinw_true l : joinw true l = match l with [] => [] | _ => 59 :: atm_join l end.
Proof.
  induction l as [|x t IH]; [reflexivity|]. cbn [joinw sep app atm_join]. rewrite IH.
  destruct t; [now rewrite app_nil_r|reflexivity].
Qed.
Lemma atm_join_joinw l : atm_join l = joinw false l.
Proof. destruct l as [|x t]; [reflexivity|]. cbn [joinw sep app atm_join]. rewrite joinw_true. destruct t; [now rewrite app_nil_r|reflexivity]. Qed.
Lemma joinw_app w a b : joinw w (a ++ b) = joinw w a ++ joinw (w || rn_nonempty a) b.
Proof.
  revert w. induction a as [|x t IH]; intros w; cbn [app joinw rn_nonempty]; [now rewrite orb_false_r|].
  rewrite IH. cbn [orb]. rewrite orb_true_r. now rewrite <- !app_assoc.
Qed.
Lemma joinw_colour w base c : joinw w (atm_colour_params base c) = sep w ++ atm_join (atm_colour_params base c).
Proof. rewrite atm_join_joinw. destruct c; cbn [atm_colour_params joinw sep app]; reflexivity. Qed.
Lemma ne_colour base c : rn_nonempty (atm_colour_params base c) = true.
Proof. destruct c; reflexivity. Qed.
Lemma joinw_snoc f w a b : (f ++ joinw w a) ++ joinw (w || rn_nonempty a) b = f ++ joinw w (a ++ b).
Proof. now rewrite joinw_app, app_assoc. Qed.
Lemma ne_snoc {A} w (a b : list A) : w || rn_nonempty a || rn_nonempty b = w || rn_nonempty (a ++ b).
Proof. destruct a; cbn [rn_nonempty app]; [now rewrite orb_false_r|now rewrite !orb_true_r]. Qed.

(* one `if self.is_x { write_char('n')? }` of write_prefix, for ANY closure that does what write_char does and
   ANY continuation *)
Lemma atm_flag_stage (wc : N -> list N * bool -> option ((list N * bool) * (unit + unit)))
  (Hwc : forall c f w, wc c (f, w) = Some ((f ++ sep w ++ [c], true), inl tt))
  (b : bool) c f w (K : list N -> bool -> option (list N * (unit + unit))) :
  (let k := K in
   if b then
     '(st, r) <- wc c (f, w) ;;
     let '(f', w') := st in
     match r with inl _ => k f' w' | inr e => Some (f', inr e) end
   else k f w)
  = K (f ++ joinw w (if b then [[c]] else [])) (w || rn_nonempty (if b then [[c]] else [])).
Proof.
  destruct b; cbn [joinw rn_nonempty app]; [rewrite Hwc|]; now rewrite ?orb_true_r, ?orb_false_r, ?app_nil_r.
Qed.

(* the same with the continuation's two arguments still applied, which is how the stage comes out of the
   one before: rewriting with this form leaves no beta-redex, and reducing one over the whole remaining body is
   what is slow to check (every continuation occurs twice) *)
Lemma atm_flag_stage_app (wc : N -> list N * bool -> option ((list N * bool) * (unit + unit)))
  (Hwc : forall c f w, wc c (f, w) = Some ((f ++ sep w ++ [c], true), inl tt))
  (b : bool) c f w (K : list N -> bool -> option (list N * (unit + unit))) :
  (fun f w => let k := K in
   if b then
     '(st, r) <- wc c (f, w) ;;
     let '(f', w') := st in
     match r with inl _ => k f' w' | inr e => Some (f', inr e) end
   else k f w) f w
  = K (f ++ joinw w (if b then [[c]] else [])) (w || rn_nonempty (if b then [[c]] else [])).
Proof. apply atm_flag_stage, Hwc. Qed.

(* the head `let` of the left-hand side becomes a local definition [y] *)
Ltac pull_let_as y :=
  match goal with
  | |- (let x := ?v in @?b x) = ?R => set (y := v); let t := eval cbv beta iota in (b y) in change (t = R)
  end.

Lemma g_atm_write_prefix_eq s f : g_atm_write_prefix s f = wrote f (atm_prefix s).
Proof.
  cbv beta delta [g_atm_write_prefix atm_prefix]. rewrite g_atm_is_plain_eq.
  destruct (atm_is_plain s); [unfold wrote; now rewrite app_nil_r|].
  pull_let_as pf0. pull_let_as wr0. pull_let_as wc.
  assert (Hwc : forall c g w, wc c (g, w) = Some ((g ++ sep w ++ [c], true), inl tt)).
  { intros c g w. unfold wc, atm_write_str, atm_char. destruct w; cbn [sep app]; rewrite <- ?app_assoc; reflexivity. }
  rewrite (atm_flag_stage wc Hwc). do 7 rewrite (atm_flag_stage_app wc Hwc). cbv beta. rewrite !joinw_snoc, !ne_snoc.
  change ((if atm_bold s then [[49]] else []) ++ _) with (atm_flag_params s).
  unfold wrote, atm_params. rewrite atm_join_joinw, joinw_app. subst pf0 wr0. unfold atm_write_str. cbn [orb].
  generalize (rn_nonempty (atm_flag_params s)) (joinw false (atm_flag_params s)). clear wc Hwc. intros w fl.
  destruct (atm_bg s) as [cb|], (atm_fg s) as [cf|]; cbv zeta beta iota; cbn [atm_ocolour_params app];
    rewrite ?g_atm_write_background_code_eq; unfold wrote; cbv beta iota;
    rewrite ?g_atm_write_foreground_code_eq; unfold wrote; cbv beta iota;
    rewrite ?joinw_app, ?joinw_colour, ?ne_colour, ?orb_true_r, ?joinw_colour;
    destruct w; cbn [sep joinw app]; norm_app; rewrite ?app_nil_r; reflexivity.
Qed.

Lemma g_atm_write_suffix_eq s f : g_atm_write_suffix s f = wrote f (atm_suffix s).
Proof.
  unfold g_atm_write_suffix, atm_suffix, wrote. rewrite g_atm_is_plain_eq.
  destruct (atm_is_plain s); [now rewrite app_nil_r|reflexivity].
Qed.

Lemma g_atm_prefix_fmt_eq s f : g_atm_prefix_fmt (g_atm_prefix s) f = wrote f (atm_prefix s).
Proof.
  unfold g_atm_prefix_fmt, g_atm_prefix, atm_prefix_new, atm_prefix_f0. rewrite g_atm_write_prefix_eq. reflexivity.
Qed.

Lemma g_atm_suffix_fmt_eq s f : g_atm_suffix_fmt (g_atm_suffix s) f = wrote f (atm_suffix s).
Proof.
  unfold g_atm_suffix_fmt, g_atm_suffix, atm_suffix_new, atm_suffix_f0. rewrite g_atm_write_suffix_eq. reflexivity.
Qed.

Lemma g_atm_write_to_any_eq s text w :
  g_atm_write_to_any (mkAtmString s text) w = wrote w (atm_paint s text).
Proof.
  unfold g_atm_write_to_any, atm_paint. cbn [atm_s_style atm_s_string].
  rewrite g_atm_prefix_fmt_eq. unfold wrote at 1. cbv beta iota zeta.
  rewrite g_atm_suffix_fmt_eq. unfold wrote, atm_write_str. now rewrite <- !app_assoc.
Qed.

Lemma g_atm_string_fmt_eq s text f :
  g_atm_string_fmt (mkAtmString s text) f = wrote f (atm_paint s text).
Proof. unfold g_atm_string_fmt. rewrite g_atm_write_to_any_eq. reflexivity. Qed.

(* format!("{}", style.paint(text)) / .to_string(): never a panic *)
Lemma g_atm_to_string_eq s text : g_atm_to_string (g_atm_paint s text) = Some (atm_paint s text).
Proof. unfold g_atm_to_string, g_atm_paint. rewrite g_atm_string_fmt_eq. reflexivity. Qed.

(* the entry point of harness/h-adapters: `s.paint("x").to_string().into_bytes()` *)
Theorem translated_ansiterm_render_is_model : forall s, g_atm_render s = Some (atm_render s).
Proof. intros s. unfold g_atm_render. rewrite g_atm_to_string_eq. reflexivity. Qed.

(* `{}` of a u8 prints digits that denote it *)
Lemma atm_dec_of n : dec_of (atm_dec n) n.
Proof. exact (dec_go_of _ n (lt_pow10_size n)). Qed.

Lemma atm_dec_digits_ok n : n < 256 -> rn_digits_ok (atm_dec n) = true.
Proof. intros H. apply (dec_of_digits_ok _ n (atm_dec_of n)). lia. Qed.

(* the prefix is one control sequence: ESC [ p1 ; p2 ; .. m, every parameter without sub-parameters *)
Definition vals (ps : list (list N)) : list (list N) := map (fun d => [rn_dec_value d]) ps.

Lemma join_is_rn_join ps : atm_join ps = rn_join 59 ps.
Proof. induction ps as [|x t IH]; [reflexivity|]. cbn [atm_join rn_join]. rewrite IH. reflexivity. Qed.

Lemma prefix_is_csi s : atm_is_plain s = false -> atm_prefix s = rn_csi (single_groups (atm_params s)) 109.
Proof. intros H. unfold atm_prefix, rn_csi. rewrite H, single_groups_print, join_is_rn_join. reflexivity. Qed.

Definition params_ok (n : nat) (ps : list (list N)) : Prop :=
  Forall (fun d => rn_digits_ok d = true) ps /\ (length ps <= n)%nat.

Lemma params_ok_app n m a b : params_ok n a -> params_ok m b -> params_ok (n + m) (a ++ b).
Proof. intros [A1 A2] [B1 B2]. split; [now apply Forall_app|rewrite app_length; lia]. Qed.

Lemma params_ok_flag (b : bool) c : rn_digits_ok [c] = true -> params_ok 1 (if b then [[c]] else []).
Proof. intros H. destruct b; split; cbn; repeat constructor; assumption. Qed.

Lemma flag_params_ok s : params_ok 8 (atm_flag_params s).
Proof. unfold atm_flag_params. repeat apply (params_ok_app 1); now apply params_ok_flag. Qed.

Lemma ocolour_params_ok base c : (base = 30 \/ base = 40) -> atm_ocolour_wf c -> params_ok 5 (atm_ocolour_params base c).
Proof.
  intros Hb Hc. destruct c as [c|]; [|split; [constructor|cbn; lia]]. split; [|destruct c; cbn; lia].
  destruct Hb; subst base; destruct c; cbn [atm_ocolour_params atm_colour_params atm_ocolour_wf atm_colour_wf] in *;
    repeat (constructor; try reflexivity; try (apply atm_dec_digits_ok; lia)).
Qed.

Lemma plain_default s : atm_is_plain s = true -> s = atm_default.
Proof.
  destruct s as [fg bg b1 b2 b3 b4 b5 b6 b7 b8]. unfold atm_is_plain, atm_style_eqb, atm_default.
  cbn [atm_fg atm_bg atm_bold atm_dimmed atm_italic atm_underline atm_blink atm_reverse atm_hidden atm_strike].
  rewrite <- !andb_assoc, !andb_true_iff. intros (Hf & Hb & H1 & H2 & H3 & H4 & H5 & H6 & H7 & H8).
  apply eqb_prop in H1, H2, H3, H4, H5, H6, H7, H8. subst.
  destruct fg; [discriminate|]. destruct bg; [discriminate|]. reflexivity.
Qed.

Lemma no_params_default s : atm_params s = [] -> s = atm_default.
Proof.
  destruct s as [fg bg b1 b2 b3 b4 b5 b6 b7 b8]. unfold atm_params, atm_flag_params.
  cbn [atm_fg atm_bg atm_bold atm_dimmed atm_italic atm_underline atm_blink atm_reverse atm_hidden atm_strike].
  intros E. repeat (apply app_eq_nil in E; destruct E as [? E]).
  (* a flag that is set contributes its parameter *)
  destruct b1; [discriminate|].
  destruct b2; [discriminate|].
  destruct b3; [discriminate|].
  destruct b4; [discriminate|].
  destruct b5; [discriminate|].
  destruct b6; [discriminate|].
  destruct b7; [discriminate|].
  destruct b8; [discriminate|].
  destruct bg as [[]|]; try discriminate. destruct fg as [[]|]; try discriminate. reflexivity.
Qed.

Lemma params_csi_ok s : atm_wf s -> atm_is_plain s = false -> rn_csi_ok (single_groups (atm_params s)) = true.
Proof.
  intros [Hf Hb] Hp.
  destruct (params_ok_app _ _ _ _ (flag_params_ok s) (params_ok_app _ _ _ _
    (ocolour_params_ok 40 (atm_bg s) (or_intror eq_refl) Hb) (ocolour_params_ok 30 (atm_fg s) (or_introl eq_refl) Hf))) as [F L].
  fold (atm_params s) in F, L. apply single_groups_ok; [|exact F|cbn in L; lia].
  intros E. now rewrite (no_params_default s E) in Hp.
Qed.

Lemma vals_app a b : vals (a ++ b) = vals a ++ vals b.
Proof. unfold vals. apply map_app. Qed.

(* the SGR parameters by the rules of Spec/Sgr.  One flag: its code switches its effect on, from a rendition that has only effects *)
Lemma flag_apply (b : bool) c k e rest :
  sgr_groups (mkStyle None None None e) ([rn_dec_value [c]] :: rest) =
    sgr_groups (mkStyle None None None (N.lor e (bit k))) rest ->
  sgr_groups (mkStyle None None None e) (vals (if b then [[c]] else []) ++ rest) =
    sgr_groups (mkStyle None None None (N.lor e (if b then bit k else 0))) rest.
Proof. intros H. destruct b; [exact H|]. cbn [vals map app]. now rewrite N.lor_0_r. Qed.

Lemma flags_apply s rest :
  sgr_groups style_default (vals (atm_flag_params s) ++ rest) = sgr_groups (mkStyle None None None (atm_bits s)) rest.
Proof.
  unfold atm_flag_params, atm_bits, style_default. rewrite !vals_app, <- !app_assoc.
  rewrite (flag_apply _ 49 BOLD), (flag_apply _ 50 DIMMED), (flag_apply _ 51 ITALIC) by reflexivity.
  (* code 4 first clears the other underline kinds: none of bold, dimmed, italic is one *)
  rewrite (flag_apply _ 52 UNDERLINE) by (destruct (atm_bold s), (atm_dimmed s), (atm_italic s); reflexivity).
  rewrite (flag_apply _ 53 BLINK), (flag_apply _ 55 INVERT), (flag_apply _ 56 HIDDEN), (flag_apply _ 57 STRIKETHROUGH)
    by reflexivity.
  now rewrite !N.lor_assoc.
Qed.

Lemma ocolour_apply (fgslot : bool) st oc rest : atm_ocolour_wf oc ->
  sgr_groups st (vals (atm_ocolour_params (if fgslot then 30 else 40) oc) ++ rest) =
  sgr_groups (match oc with
              | Some c => (if fgslot then set_fg else set_bg) st (Some (atm_colour_meaning c))
              | None => st
              end) rest.
Proof.
  intros H. destruct oc as [c|]; [|reflexivity].
  destruct c; cbn [atm_ocolour_params atm_colour_params atm_ocolour_wf atm_colour_wf atm_colour_meaning] in *.
  1-8: destruct fgslot; reflexivity.
  - unfold vals. cbn [map app]. rewrite (proj2 (atm_dec_of n)). destruct fgslot; reflexivity.
  - destruct H as (Hr & Hg & Hb). unfold vals. cbn [map app].
    rewrite (proj2 (atm_dec_of r)), (proj2 (atm_dec_of g)), (proj2 (atm_dec_of b)).
    destruct fgslot; reflexivity.
Qed.

Lemma params_apply s : atm_wf s -> sgr_apply style_default (vals (atm_params s)) = atm_meaning s.
Proof.
  intros [Hf Hb]. unfold sgr_apply, atm_params, atm_meaning.
  rewrite !vals_app, flags_apply, (ocolour_apply false) by assumption.
  rewrite <- (app_nil_r (vals _)), (ocolour_apply true) by assumption.
  destruct (atm_bg s), (atm_fg s); reflexivity.
Qed.

Lemma slot_meaning c :
  ad_slot_meaning AdAnsiTerm (option_map atm_abs_colour c) = Some (option_map atm_colour_meaning c).
Proof. destruct c as [[]|]; reflexivity. Qed.

Lemma attrs_meaning_flag l (b : bool) nm k rest m :
  ad_assoc nm (ad_attr_table l) = Some k -> ad_attrs_meaning l rest = Some m ->
  ad_attrs_meaning l ((if b then [nm] else []) ++ rest) = Some (N.lor (if b then bit k else 0) m).
Proof. intros E H. destruct b; cbn [app ad_attrs_meaning]; now rewrite ?E, H. Qed.

Lemma abs_attrs_meaning s : ad_attrs_meaning AdAnsiTerm (atm_abs_attrs s) = Some (atm_bits s).
Proof.
  unfold atm_abs_attrs, atm_bits. repeat (apply attrs_meaning_flag; [reflexivity|]).
  destruct (atm_strike s); reflexivity.
Qed.

(* [atm_meaning] IS the reading of the value through the tables of Spec/Targets.v *)
Lemma atm_meaning_is_targets s : ad_meaning AdAnsiTerm (atm_abstract s) = Some (atm_meaning s).
Proof.
  unfold ad_meaning, atm_abstract. cbn [ad_t_fg ad_t_bg ad_t_ul ad_t_attrs ad_has_ul].
  rewrite !slot_meaning, abs_attrs_meaning. reflexivity.
Qed.

(* For EVERY value of the type ansi_term::Style: the bytes the library writes for the text
   "x", read from the terminal's default state by Spec/Vt + Spec/Sgr, show exactly one character, 'x', in the
   rendition the meaning tables of Spec/Targets.v assign to the value *)
Theorem ansiterm_render_interp : forall s, atm_wf s ->
  ad_interp_x (atm_render s) = Some (atm_meaning s).
Proof.
  intros s W. destruct (atm_is_plain s) eqn:P.
  - apply plain_default in P. subst s. reflexivity.
  - unfold atm_render, atm_paint, atm_suffix, atm_reset. rewrite P, (prefix_is_csi s P).
    rewrite (csi_interp_x _ (params_csi_ok s W P)), single_groups_values. f_equal. exact (params_apply s W).
Qed.

Theorem ansiterm_render_meaning : forall s, atm_wf s ->
  ad_interp_x (atm_render s) = ad_meaning AdAnsiTerm (atm_abstract s).
Proof. intros s W. rewrite atm_meaning_is_targets. now apply ansiterm_render_interp. Qed.

Theorem translated_ansiterm_render_meaning : forall s, atm_wf s ->
  exists bs, g_atm_render s = Some bs /\ ad_interp_x bs = ad_meaning AdAnsiTerm (atm_abstract s) /\
             ad_meaning AdAnsiTerm (atm_abstract s) = Some (atm_meaning s).
Proof.
  intros s W. exists (atm_render s). split; [apply translated_ansiterm_render_is_model|]. split.
  - now apply ansiterm_render_meaning.
  - apply atm_meaning_is_targets.
Qed.

Lemma g_atc_to_ansi_color_eq c : ad_colour_ok (Some c) ->
  g_atc_to_ansi_color (ad_color_of c) = Some (atm_conv_colour c).
Proof.
  destruct c as [i|n|r g b]; cbn [ad_colour_ok]; intros H; [|reflexivity|reflexivity].
  adg_cases16 H.
Qed.

Lemma atc_opt_colour oc : ad_colour_ok oc ->
  ad_opt_map_m g_atc_to_ansi_color (option_map ad_color_of oc) = Some (option_map atm_conv_colour oc).
Proof.
  destruct oc as [c|]; intros H; [|reflexivity]. cbn [option_map ad_opt_map_m]. now rewrite g_atc_to_ansi_color_eq.
Qed.

Lemma bind_some {A B} (a : option A) (f : A -> option B) x y :
  a = Some x -> f x = Some y -> (v <- a ;; f v) = Some y.
Proof. intros -> H. exact H. Qed.

(* anstyle_ansi_term::to_ansi_term, its builder calls being the TRANSLATED methods of ansi_term's style.rs *)
Theorem translated_ansiterm_adapter_is_model : forall s, ad_src_ok s ->
  g_atc_to_ansi_term s = Some (atm_of_src s).
Proof.
  intros s (Hf & Hb & _ & _).
  unfold g_atc_to_ansi_term, atm_of_src, ad_s_get_fg, ad_s_get_bg, ad_s_get_eff. cbv zeta.
  rewrite (atc_opt_colour _ Hf), (atc_opt_colour _ Hb). cbv beta iota.
  (* the style after the foreground and after the background *)
  set (ofg := option_map atm_conv_colour (s_fg s)).
  set (bright := match ofg with Some (_, true) => true | _ => false end).
  apply (bind_some _ _ (mkAtm (option_map fst ofg) None bright false false false false false false false)).
  { subst bright. destruct ofg as [[c [|]]|]; reflexivity. }
  apply (bind_some _ _ (mkAtm (option_map fst ofg) (option_map (fun c => fst (atm_conv_colour c)) (s_bg s))
                              bright false false false false false false false)).
  { destruct (s_bg s) as [c|]; cbn [option_map]; [destruct (atm_conv_colour c)|]; reflexivity. }
  generalize (option_map fst ofg) (option_map (fun c => fst (atm_conv_colour c)) (s_bg s)) bright. intros F B fb.
  (* the effects: eight `if effects.contains(X) { style = style.x(); }`, or a filter over a private table of (effect,
     method pointer) entries folded into the style -- the selection is computed entry by entry, which leaves the same
     eight tests, on whatever bits the source names *)
  repeat match goal with |- context [filter ?G (?x :: ?l)] => progress cbn [filter] end.
  rewrite ?adg_contains_bit.
  change BOLD with 0; change DIMMED with 1; change ITALIC with 2; change UNDERLINE with 3;
    change BLINK with 8; change INVERT with 9; change HIDDEN with 10; change STRIKETHROUGH with 11.
  repeat match goal with |- context [N.testbit (s_eff s) ?k] => destruct (N.testbit (s_eff s) k) end;
    reflexivity.
Qed.

(* the concrete value, named as Spec/Targets.v names values, has the colour constructors the abstract model chose *)
Lemma abs_conv_slot oc : ad_colour_ok oc ->
  option_map atm_abs_colour (option_map (fun c => fst (atm_conv_colour c)) oc) = ad_at_slot oc.
Proof.
  destruct oc as [[i|n|r g b]|]; cbn [ad_colour_ok]; intros H; try reflexivity.
  adg_cases16 H.
Qed.

Lemma fg_bold_is_bright oc :
  match option_map atm_conv_colour oc with Some (_, true) => true | _ => false end = ad_is_bright oc.
Proof.
  destruct oc as [[i|n|r g b]|]; try reflexivity.
  cbn [option_map atm_conv_colour ad_is_bright]. destruct (8 <=? i); reflexivity.
Qed.

Lemma land_expressible {A} (f : A -> N) e (tbl : list A) :
  N.land e (fold_right (fun p acc => N.lor (bit (f p)) acc) 0 tbl) =
  fold_right (fun p acc => N.lor (if N.testbit e (f p) then bit (f p) else 0) acc) 0 tbl.
Proof.
  induction tbl as [|p t IH]; cbn [fold_right]; [apply N.land_0_r|].
  now rewrite N.land_lor_distr_r, land_bit, IH.
Qed.

Lemma lor_orb (x b : bool) v r :
  N.lor (if x || b then v else 0) r = N.lor (N.lor (if x then v else 0) r) (if b then v else 0).
Proof.
  destruct x, b; cbn [orb]; rewrite ?N.lor_0_r; try reflexivity; [|apply N.lor_comm].
  now rewrite <- N.lor_assoc, (N.lor_comm r), N.lor_assoc, N.lor_diag.
Qed.

Lemma bits_of_src s : atm_bits (atm_of_src s) = ad_project_effects AdAnsiTerm s.
Proof.
  unfold ad_project_effects, ad_expressible. rewrite land_expressible.
  unfold atm_of_src, atm_bits. cbv zeta. rewrite fg_bold_is_bright.
  cbn [atm_bold atm_dimmed atm_italic atm_underline atm_blink atm_reverse atm_hidden atm_strike
       ad_attr_table ad_ansi_term_attrs fold_right snd].
  rewrite N.lor_0_r. apply lor_orb.
Qed.

(* read through the tables of Spec/Targets.v, the concrete value means what the abstract model's value means ... *)
Theorem ansiterm_concrete_means_abstract : forall s, ad_src_ok s ->
  ad_meaning AdAnsiTerm (atm_abstract (atm_of_src s)) = ad_meaning AdAnsiTerm (ad_to_ansi_term s).
Proof.
  intros s Hs. pose proof (ad_effects_ansi_term s Hs) as HE.
  destruct Hs as (Hf & Hb & _ & He).
  unfold ad_meaning. rewrite HE. unfold atm_abstract, ad_to_ansi_term.
  cbn [ad_t_fg ad_t_bg ad_t_ul ad_t_attrs ad_has_ul]. rewrite abs_attrs_meaning, bits_of_src.
  fold (ad_at_slot (s_fg s)). fold (ad_at_slot (s_bg s)).
  rewrite <- (abs_conv_slot _ Hf), <- (abs_conv_slot _ Hb).
  unfold atm_of_src. cbv zeta. cbn [atm_fg atm_bg].
  destruct (s_fg s), (s_bg s); reflexivity.
Qed.

(* ... which, by the theorem of C16 about the abstract model, is the projection of the source style *)
Theorem ansiterm_concrete_meaning : forall s, ad_src_ok s ->
  ad_meaning AdAnsiTerm (atm_abstract (atm_of_src s)) = Some (ad_project AdAnsiTerm s).
Proof. intros s Hs. rewrite (ansiterm_concrete_means_abstract s Hs). exact (ad_convert_meaning AdAnsiTerm s Hs). Qed.

Lemma named_wf k : atm_colour_wf (nth k atm_named AtBlack).
Proof. do 9 (destruct k as [|k]; [exact I|]). destruct k; exact I. Qed.

Lemma of_src_wf s : atm_src_ok s -> atm_wf (atm_of_src s).
Proof.
  intros [Hf Hb]. unfold atm_wf, atm_of_src. cbv zeta. cbn [atm_fg atm_bg]. split.
  - destruct (s_fg s) as [[i|n|r g b]|]; cbn [option_map atm_conv_colour fst atm_ocolour_wf atm_colour_wf atm_src_colour_ok] in *; auto using named_wf.
  - destruct (s_bg s) as [[i|n|r g b]|]; cbn [option_map atm_conv_colour fst atm_ocolour_wf atm_colour_wf atm_src_colour_ok] in *; auto using named_wf.
Qed.

(* The composition, all of it translated code (adapter from the repository, library from the registry): for every
   anstyle style, converting it and rendering "x" with ansi_term does not panic, and the terminal shows "x" in the
   projection of the style onto what ansi_term can express (no normalisation of palette entries is needed here:
   ansi_term prints an indexed colour as 38;5;n, which is read back as that index) *)
Theorem rendered_ansiterm_converted : forall s, ad_src_ok s -> atm_src_ok s ->
  exists bs, g_atc_render_converted s = Some bs /\ ad_interp_x bs = Some (ad_project AdAnsiTerm s).
Proof.
  intros s Hs Hb. exists (atm_render (atm_of_src s)). split.
  - unfold g_atc_render_converted. rewrite (translated_ansiterm_adapter_is_model s Hs). apply translated_ansiterm_render_is_model.
  - rewrite (ansiterm_render_meaning _ (of_src_wf s Hb)). now apply ansiterm_concrete_meaning.
Qed.
