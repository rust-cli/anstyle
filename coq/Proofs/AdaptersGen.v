(* Proofs/AdaptersGen.v -- the functions of the six conversion crates as TRANSLATED from the
   Rust sources (Generated/AdaptersFn.v, tools/gen_fn_adapters.py) are extensionally equal to the
   hand model (Model/Adapters.v) the theorems of C16 are about.

   A translated function answers [Some v] (Rust returns v) or [None] (Rust would panic).  The
   16-way matches over AnsiColor are if-chains over the ANSI number (the model's representation of
   the enum), so they answer [None] above 15: the lemmas about colours carry [i < 16] /
   [ad_colour_ok], the entry points [ad_src_ok] -- exactly the values the Rust types can hold
   (Spec/Targets.v).  Independent of Proofs/Adapters.v (a change of what the adapters MEAN breaks
   that file, a change of what they DO breaks this one). *)
From Coq Require Import NArith List Bool Lia.
From AV Require Import Generated.Adapters Spec.Sgr Spec.Targets Model.Adapters Model.Base Model.Imp Generated.AdaptersFn
  Proofs.SgrRender.
Import ListNotations.
Local Open Scope N_scope.

Lemma adg_lt16_In i : i < 16 -> In i [0; 1; 2; 3; 4; 5; 6; 7; 8; 9; 10; 11; 12; 13; 14; 15].
Proof. cbn [In]. lia. Qed.

(* a 16-way match / if-chain against a table look-up of the hand model: one [reflexivity] per colour
   (insensitive to the order of the arms) *)
Ltac adg_cases16 H :=
  let HI := fresh "HI" in
  pose proof (adg_lt16_In _ H) as HI; cbn [In] in HI;
  repeat (destruct HI as [<-|HI]; [reflexivity|]); destruct HI.

(* A translated colour function is option-valued when the Rust match can fall through in the model (16 arms over the ANSI
   number: [None] above 15) and TOTAL when it ends in a catch-all (`_ => ..`, a last `return`-less value): which of the two is the
   maintainers' spelling, not behaviour.  The lemmas read the translation as an option either way ([adg_as_option], under a cast
   to the option type: the term itself when it is one, [Some] of it otherwise -- for a 16-arm match the cast does nothing), and [adg_rw] rewrites with such a lemma whether the caller holds [g i] or [Some (g i)]. *)
Ltac adg_as_option t := first [ exact t | exact (Some t) ].    (* the repository's matches have 16 arms: the first *)
Ltac adg_rw E :=
  let E' := fresh "E" in
  pose proof E as E';
  first [ rewrite E' | injection E' as E'; rewrite E' ]; clear E'.

Lemma adg_contains_bit e k : ad_bits_contains e (bit k) = N.testbit e k.
Proof. exact (land_bit_eqb e k). Qed.

Lemma adg_opt_map_m {B : Type} (g : ad_color -> option B) (h : colour -> B) :
  (forall c, ad_colour_ok (Some c) -> g (ad_color_of c) = Some (h c)) ->
  forall o, ad_colour_ok o -> ad_opt_map_m g (option_map ad_color_of o) = Some (option_map h o).
Proof.
  intros Hg [c|] Ho; cbn [option_map ad_opt_map_m]; [|reflexivity]. rewrite (Hg c Ho). reflexivity.
Qed.

(* [adg_chain upd tbl e K t]: the translated chain of statements `if effects.contains(X) { style = style.attr(); }`
   as a function of the TABLE (one statement per row), started on [t] and followed by the rest [K] of the function; [upd] is the builder method (on a style) or `Attributes::set` (on crossterm's attribute list).
   On a concrete table it unfolds to the translated term, so the lemma is used by conversion. *)
Fixpoint adg_chain {T R : Type} (upd : T -> list N -> T) (tbl : list (N * list N)) (e : N)
                   (K : T -> option R) (t : T) : option R :=
  match tbl with
  | [] => K t
  | (k, name) :: rest =>
      x <- (if ad_bits_contains e (bit k) then let t' := upd t name in Some t' else Some t) ;; adg_chain upd rest e K x
  end.

(* the chain appends the hand model's list, whatever "append" is for the accumulator *)
Lemma adg_chain_eq {T R : Type} (upd : T -> list N -> T) (app : T -> list (list N) -> T) :
  (forall t, app t [] = t) -> (forall t name l, app (upd t name) l = app t (name :: l)) ->
  forall tbl e (K : T -> option R) t, adg_chain upd tbl e K t = K (app t (ad_conv_effects tbl e)).
Proof.
  intros Hnil Hcons tbl e K. induction tbl as [|[k name] rest IH]; intros t; cbn [adg_chain ad_conv_effects].
  - now rewrite Hnil.
  - rewrite adg_contains_bit. destruct (N.testbit e k); cbv zeta; rewrite IH, ?Hcons; reflexivity.
Qed.

Definition adg_app (t : ad_tstyle) (l : list (list N)) : ad_tstyle :=
  mkAdT (ad_t_fg t) (ad_t_bg t) (ad_t_ul t) (ad_t_attrs t ++ l).

Lemma adg_app_nil t : adg_app t [] = t.
Proof. unfold adg_app. rewrite app_nil_r. destruct t; reflexivity. Qed.

Lemma adg_app_attr t name l : adg_app (ad_t_attr t name) l = adg_app t (name :: l).
Proof. unfold adg_app, ad_t_attr. cbn [ad_t_fg ad_t_bg ad_t_ul ad_t_attrs]. now rewrite <- app_assoc. Qed.

Lemma adg_style_chain {R} tbl e (K : ad_tstyle -> option R) t :
  adg_chain ad_t_attr tbl e K t = K (adg_app t (ad_conv_effects tbl e)).
Proof. exact (adg_chain_eq ad_t_attr adg_app adg_app_nil adg_app_attr tbl e K t). Qed.

Lemma adg_attrs_chain {R} tbl e (K : list (list N) -> option R) l :
  adg_chain ad_attrs_set tbl e K l = K (l ++ ad_conv_effects tbl e).
Proof.
  apply (adg_chain_eq ad_attrs_set (@app _) (@app_nil_r _)). intros t name l'. symmetry. apply (app_assoc t [name]).
Qed.

(* the effects applied from a private TABLE of (effect, method pointer) entries,
   `TABLE.iter().filter(|(e, _)| effects.contains( *e)).fold(style, |style, (_, set)| set(&style))`: whatever way the two
   closures take an entry apart, the fold appends the hand model's list when the table's entries are, one by one, the
   hand table's: the same bit, and the method that switches on the attribute of that name *)
Definition adg_setter_rel (p : N * (ad_tstyle -> ad_tstyle)) (kn : N * list N) : Prop :=
  fst p = bit (fst kn) /\ forall t, snd p t = ad_t_attr t (snd kn).

Lemma adg_fold_setters (F : ad_tstyle -> N * (ad_tstyle -> ad_tstyle) -> ad_tstyle) (G : N * (ad_tstyle -> ad_tstyle) -> bool)
      (L : list (N * (ad_tstyle -> ad_tstyle))) (tbl : list (N * list N)) (e : N) (t : ad_tstyle) :
  (forall st p, F st p = snd p st) -> (forall p, G p = ad_bits_contains e (fst p)) ->
  Forall2 adg_setter_rel L tbl ->
  fold_left F (filter G L) t = adg_app t (ad_conv_effects tbl e).
Proof.
  intros HF HG H. revert t. induction H as [|p kn L' tbl' [Hk Hs] _ IH]; intros t.
  - cbn [filter fold_left ad_conv_effects]. rewrite adg_app_nil. reflexivity.
  - destruct kn as [k name]. cbn [filter ad_conv_effects fst snd] in *. rewrite HG, Hk, adg_contains_bit.
    destruct (N.testbit e k); cbn [fold_left].
    + rewrite HF, Hs, IH. apply adg_app_attr.
    + apply IH.
Qed.

Ltac adg_setter_table tbl :=
  match goal with
  | |- context [fold_left ?F (filter ?G ?L) ?t] =>
      match goal with
      | |- context [ad_conv_effects tbl ?e] =>
          rewrite (adg_fold_setters F G L tbl e t
                     ltac:(intros ? [? ?]; reflexivity) ltac:(intros [? ?]; reflexivity)
                     ltac:(unfold tbl; repeat (first [apply Forall2_nil | apply Forall2_cons; [split; [reflexivity|intros ?; reflexivity]|]])))
      end
  end.

(* the effects of a builder-style adapter, in either spelling: the repository's chain of `if`s is the first, a fold over
   a table of setters the second (HACKING.d/robust_R10.md) *)
Ltac adg_effects tbl :=
  first [ exact (adg_style_chain tbl _ Some _) | adg_setter_table tbl; reflexivity ].

(* one block per crate: rgb, xterm, the 16 arms, the dispatcher, the entry point.  The five `*_to_*_color_eq` are one
   script: split the colour, the 16 arms by their lemma, the other two by evaluation. *)

Lemma g_at_rgb_to_ansi_color_eq r g b : g_at_rgb_to_ansi_color (r, g, b) = AdRgb r g b.
Proof. reflexivity. Qed.

Lemma g_at_xterm_to_ansi_color_eq n : g_at_xterm_to_ansi_color n = AdFixed n.
Proof. reflexivity. Qed.

Lemma g_at_ansi_to_ansi_color_eq i : i < 16 ->
  (ltac:(adg_as_option (g_at_ansi_to_ansi_color i)) : option (ad_tcolor * bool)) =
  Some (let p := ad_arm ([], false) ad_gen_ansi_term_colors i in (AdNamed (fst p), snd p)).
Proof. intros H. adg_cases16 H. Qed.

Lemma g_at_to_ansi_color_eq c : ad_colour_ok (Some c) ->
  g_at_to_ansi_color (ad_color_of c) = Some (ad_at_colour c).
Proof.
  destruct c as [i|n|r g b]; cbn [ad_colour_ok ad_color_of]; intros H; unfold g_at_to_ansi_color; [|reflexivity..].
  adg_rw (g_at_ansi_to_ansi_color_eq i H). reflexivity.
Qed.

Theorem g_to_ansi_term_eq s : ad_src_ok s -> g_to_ansi_term s = Some (ad_to_ansi_term s).
Proof.
  intros (Hf & Hb & _ & _). unfold g_to_ansi_term, ad_s_get_fg, ad_s_get_bg, ad_s_get_eff.
  rewrite (adg_opt_map_m _ _ g_at_to_ansi_color_eq _ Hf), (adg_opt_map_m _ _ g_at_to_ansi_color_eq _ Hb).
  unfold ad_to_ansi_term. cbv zeta.
  destruct (option_map ad_at_colour (s_fg s)) as [[fg [|]]|];
    destruct (option_map ad_at_colour (s_bg s)) as [[bg bb]|];
    cbn [option_map fst snd];
    adg_effects ad_gen_ansi_term_effects.
Qed.

Lemma g_ct_rgb_to_ansi_color_eq r g b : g_ct_rgb_to_ansi_color (r, g, b) = AdRgb r g b.
Proof. reflexivity. Qed.

Lemma g_ct_xterm_to_ansi_color_eq n : g_ct_xterm_to_ansi_color n = AdFixed n.
Proof. reflexivity. Qed.

Lemma g_ct_ansi_to_ansi_color_eq i : i < 16 ->
  (ltac:(adg_as_option (g_ct_ansi_to_ansi_color i)) : option ad_tcolor) = Some (AdNamed (ad_arm [] ad_gen_crossterm_colors i)).
Proof. intros H. adg_cases16 H. Qed.

Lemma g_ct_to_ansi_color_eq c : ad_colour_ok (Some c) ->
  g_ct_to_ansi_color (ad_color_of c) = Some (ad_conv_colour ad_gen_crossterm_colors c).
Proof.
  destruct c as [i|n|r g b]; cbn [ad_colour_ok ad_color_of]; intros H; unfold g_ct_to_ansi_color; [|reflexivity..].
  adg_rw (g_ct_ansi_to_ansi_color_eq i H). reflexivity.
Qed.

Theorem g_to_crossterm_eq s : ad_src_ok s -> g_to_crossterm s = Some (ad_to_crossterm s).
Proof.
  intros (Hf & Hb & Hu & _). unfold g_to_crossterm, ad_s_get_fg, ad_s_get_bg, ad_s_get_ul, ad_s_get_eff.
  rewrite (adg_opt_map_m _ _ g_ct_to_ansi_color_eq _ Hf), (adg_opt_map_m _ _ g_ct_to_ansi_color_eq _ Hb),
    (adg_opt_map_m _ _ g_ct_to_ansi_color_eq _ Hu).
  unfold ad_to_crossterm, ad_attrs_new. cbv zeta.
  exact (adg_attrs_chain ad_gen_crossterm_effects _ _ _).
Qed.

Lemma g_owo_rgb_to_owo_colors_color_eq c : g_owo_rgb_to_owo_colors_color c = c.
Proof. destruct c as [[r g] b]. reflexivity. Qed.

Lemma g_owo_xterm_to_owo_colors_color_eq n : g_owo_xterm_to_owo_colors_color n = n.
Proof. reflexivity. Qed.

Lemma g_owo_ansi_to_owo_colors_color_eq i : i < 16 ->
  (ltac:(adg_as_option (g_owo_ansi_to_owo_colors_color i)) : option (list N)) = Some (ad_arm [] ad_gen_owo_colors i).
Proof. intros H. adg_cases16 H. Qed.

Lemma g_to_owo_colors_eq c : ad_colour_ok (Some c) ->
  g_to_owo_colors (ad_color_of c) = Some (ad_conv_colour ad_gen_owo_colors c).
Proof.
  destruct c as [i|n|r g b]; cbn [ad_colour_ok ad_color_of]; intros H; unfold g_to_owo_colors; [|reflexivity..].
  adg_rw (g_owo_ansi_to_owo_colors_color_eq i H). reflexivity.
Qed.

Theorem g_to_owo_style_eq s : ad_src_ok s -> g_to_owo_style s = Some (ad_to_owo s).
Proof.
  intros (Hf & Hb & _ & _). unfold g_to_owo_style, ad_s_get_fg, ad_s_get_bg, ad_s_get_eff.
  rewrite (adg_opt_map_m _ _ g_to_owo_colors_eq _ Hf), (adg_opt_map_m _ _ g_to_owo_colors_eq _ Hb).
  unfold ad_to_owo. cbv zeta.
  destruct (option_map (ad_conv_colour ad_gen_owo_colors) (s_fg s)) as [fg|];
    destruct (option_map (ad_conv_colour ad_gen_owo_colors) (s_bg s)) as [bg|];
    adg_effects ad_gen_owo_effects.
Qed.

Lemma g_tc_rgb_to_termcolor_color_eq r g b : g_tc_rgb_to_termcolor_color (r, g, b) = AdRgb r g b.
Proof. reflexivity. Qed.

Lemma g_tc_xterm_to_termcolor_color_eq n : g_tc_xterm_to_termcolor_color n = AdFixed n.
Proof. reflexivity. Qed.

Lemma g_tc_ansi_to_termcolor_color_eq i : i < 16 ->
  (ltac:(adg_as_option (g_tc_ansi_to_termcolor_color i)) : option ad_tcolor) = Some (AdNamed (ad_arm [] ad_gen_termcolor_colors i)).
Proof. intros H. adg_cases16 H. Qed.

Lemma g_to_termcolor_color_eq c : ad_colour_ok (Some c) ->
  g_to_termcolor_color (ad_color_of c) = Some (ad_conv_colour ad_gen_termcolor_colors c).
Proof.
  destruct c as [i|n|r g b]; cbn [ad_colour_ok ad_color_of]; intros H; unfold g_to_termcolor_color; [|reflexivity..].
  adg_rw (g_tc_ansi_to_termcolor_color_eq i H). reflexivity.
Qed.

(* `style.set_x(effects.contains(X))` on a ColorSpec: a flag that is set to false is REMOVED from the
   list; every setter is called once, on a list that does not hold its flag yet, so each of the 16
   combinations computes to the hand model's list *)
Theorem g_to_termcolor_spec_eq s : ad_src_ok s -> g_to_termcolor_spec s = Some (ad_to_termcolor s).
Proof.
  intros (Hf & Hb & _ & _). unfold g_to_termcolor_spec, ad_s_get_fg, ad_s_get_bg, ad_s_get_eff.
  rewrite (adg_opt_map_m _ _ g_to_termcolor_color_eq _ Hf), (adg_opt_map_m _ _ g_to_termcolor_color_eq _ Hb).
  unfold ad_to_termcolor. cbv zeta. rewrite !adg_contains_bit.
  unfold ad_gen_termcolor_effects. cbn [ad_conv_effects].
  destruct (N.testbit (s_eff s) 0), (N.testbit (s_eff s) 1), (N.testbit (s_eff s) 2), (N.testbit (s_eff s) 3); reflexivity.
Qed.

Lemma g_ya_rgb_to_yansi_color_eq r g b : g_ya_rgb_to_yansi_color (r, g, b) = AdRgb r g b.
Proof. reflexivity. Qed.

Lemma g_ya_xterm_to_yansi_color_eq n : g_ya_xterm_to_yansi_color n = AdFixed n.
Proof. reflexivity. Qed.

Lemma g_ya_ansi_to_yansi_color_eq i : i < 16 ->
  (ltac:(adg_as_option (g_ya_ansi_to_yansi_color i)) : option ad_tcolor) = Some (AdNamed (ad_arm [] ad_gen_yansi_colors i)).
Proof. intros H. adg_cases16 H. Qed.

Lemma g_to_yansi_color_eq c : ad_colour_ok (Some c) ->
  g_to_yansi_color (ad_color_of c) = Some (ad_conv_colour ad_gen_yansi_colors c).
Proof.
  destruct c as [i|n|r g b]; cbn [ad_colour_ok ad_color_of]; intros H; unfold g_to_yansi_color; [|reflexivity..].
  adg_rw (g_ya_ansi_to_yansi_color_eq i H). reflexivity.
Qed.

Theorem g_to_yansi_style_eq s : ad_src_ok s -> g_to_yansi_style s = Some (ad_to_yansi s).
Proof.
  intros (Hf & Hb & _ & _). unfold g_to_yansi_style, ad_s_get_fg, ad_s_get_bg, ad_s_get_eff.
  rewrite (adg_opt_map_m _ _ g_to_yansi_color_eq _ Hf), (adg_opt_map_m _ _ g_to_yansi_color_eq _ Hb).
  unfold ad_to_yansi. cbv zeta.
  destruct (s_fg s) as [fg|]; destruct (s_bg s) as [bg|]; cbn [option_map opt_unwrap_or];
    adg_effects ad_gen_yansi_effects.
Qed.

(* anstyle-syntect converts in the opposite direction; the byte strings are syntect's FontStyle constant names
   "BOLD", "UNDERLINE", "ITALIC" *)

Lemma adg_font_flag_bold : ad_font_flag [66; 79; 76; 68] = bit 0.
Proof. reflexivity. Qed.
Lemma adg_font_flag_underline : ad_font_flag [85; 78; 68; 69; 82; 76; 73; 78; 69] = bit 1.
Proof. reflexivity. Qed.
Lemma adg_font_flag_italic : ad_font_flag [73; 84; 65; 76; 73; 67] = bit 2.
Proof. reflexivity. Qed.

Lemma g_syn_to_anstyle_effects_eq font :
  g_syn_to_anstyle_effects font = Some (ad_syntect_conv_effects ad_gen_syntect_flags font).
Proof.
  unfold g_syn_to_anstyle_effects. cbv zeta.
  rewrite adg_font_flag_bold, adg_font_flag_underline, adg_font_flag_italic, !adg_contains_bit.
  unfold ad_gen_syntect_flags. cbn [ad_syntect_conv_effects].
  change (ad_assoc [66; 79; 76; 68] ad_syntect_flags) with (Some (0, BOLD)).
  change (ad_assoc [73; 84; 65; 76; 73; 67] ad_syntect_flags) with (Some (2, ITALIC)).
  change (ad_assoc [85; 78; 68; 69; 82; 76; 73; 78; 69] ad_syntect_flags) with (Some (1, UNDERLINE)).
  unfold ad_bits_or, ad_bits_new.
  destruct (N.testbit font 0), (N.testbit font 2), (N.testbit font 1); reflexivity.
Qed.

Lemma g_syn_to_anstyle_color_eq r g b a : g_syn_to_anstyle_color (r, g, b, a) = AdcRgb (r, g, b).
Proof. reflexivity. Qed.

Theorem g_syn_to_anstyle_eq fg bg font :
  g_syn_to_anstyle (mkAdSyn fg bg font) = Some (ad_from_syntect fg bg font).
Proof.
  unfold g_syn_to_anstyle. cbn [ad_syn_fg ad_syn_bg ad_syn_font]. rewrite g_syn_to_anstyle_effects_eq.
  destruct fg as [[[r g] b] a], bg as [[[r' g'] b'] a']. reflexivity.
Qed.

Definition g_convert (l : ad_lib) : sstyle -> option ad_tstyle :=
  match l with
  | AdAnsiTerm => g_to_ansi_term
  | AdCrossterm => g_to_crossterm
  | AdOwo => g_to_owo_style
  | AdTermcolor => g_to_termcolor_spec
  | AdYansi => g_to_yansi_style
  end.

Theorem translated_adapters_are_model :
  (forall l s, ad_src_ok s -> g_convert l s = Some (ad_convert l s)) /\
  (forall fg bg font, g_syn_to_anstyle (mkAdSyn fg bg font) = Some (ad_from_syntect fg bg font)).
Proof.
  refine (conj _ g_syn_to_anstyle_eq).
  intros [] s H; cbn [g_convert ad_convert].
  - exact (g_to_ansi_term_eq s H).
  - exact (g_to_crossterm_eq s H).
  - exact (g_to_owo_style_eq s H).
  - exact (g_to_termcolor_spec_eq s H).
  - exact (g_to_yansi_style_eq s H).
Qed.

Theorem translated_colours_are_model c : ad_colour_ok (Some c) ->
  g_at_to_ansi_color (ad_color_of c) = Some (ad_at_colour c) /\
  g_ct_to_ansi_color (ad_color_of c) = Some (ad_conv_colour ad_gen_crossterm_colors c) /\
  g_to_owo_colors (ad_color_of c) = Some (ad_conv_colour ad_gen_owo_colors c) /\
  g_to_termcolor_color (ad_color_of c) = Some (ad_conv_colour ad_gen_termcolor_colors c) /\
  g_to_yansi_color (ad_color_of c) = Some (ad_conv_colour ad_gen_yansi_colors c).
Proof.
  intros H.
  exact (conj (g_at_to_ansi_color_eq c H) (conj (g_ct_to_ansi_color_eq c H) (conj (g_to_owo_colors_eq c H)
        (conj (g_to_termcolor_color_eq c H) (g_to_yansi_color_eq c H))))).
Qed.
