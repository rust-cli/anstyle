(* The functions translated from crates/anstyle/src/{color.rs, effect.rs, style.rs, reset.rs}
   (Generated/RenderFn.v, written by tools/gen_fn_render.py) against the hand model Model/Render.v that
   the theorems of C05 are about.

   DisplayBuffer: the translation works on the Rust data layout (a 19-byte array and a length); the
   hand model keeps the bytes buffer[0..len].  The two are related by [dbuf_rel]; every translated
   function maps related states to related states and panics ([None]) exactly when the hand
   model does ([orel]).

   Display / io::Write: a translated writing function hands the fragments of the hand model to ANY
   sink, one that fails included ([wsim]); the equations against the hand model, whose sink never
   fails, are that statement read on such a sink ([fsim_ok]). *)
From Coq Require Import NArith Arith List Bool Lia.
From AV Require Import Generated.Style Generated.Render Spec.Vt Spec.Strip Spec.Sgr Spec.Algebra Spec.Render Spec.Io Model.Base Model.Imp Model.Style Model.Render
  Generated.StyleFn Generated.RenderFn Proofs.ParamsSim Proofs.StreamIo Proofs.Style Proofs.StyleGen Proofs.Render.
Import ListNotations.
Local Open Scope N_scope.

Definition dbuf_rel (d : rn_dbuf) (b : rn_buf) : Prop :=
  length (db_buffer d) = cap /\ (N.to_nat (db_len d) <= cap)%nat /\ rn_dbuf_abs d = b.

Definition orel (x : option rn_dbuf) (y : option rn_buf) : Prop :=
  match x, y with
  | Some d, Some b => dbuf_rel d b
  | None, None => True
  | _, _ => False
  end.

Lemma orel_abs x y : orel x y -> option_map rn_dbuf_abs x = y.
Proof.
  destruct x as [d|], y as [b|]; cbn; try tauto. intros (_ & _ & <-). reflexivity.
Qed.

Lemma rel_length d b : dbuf_rel d b -> length b = N.to_nat (db_len d).
Proof.
  intros (Hl & Hn & <-). unfold rn_dbuf_abs. apply firstn_length_le. lia.
Qed.

Lemma default_rel : dbuf_rel rn_dbuf_default rn_buf_new.
Proof.
  unfold dbuf_rel, rn_dbuf_default, rn_dbuf_abs, rn_buf_new, cap. cbn [db_buffer db_len].
  rewrite repeat_length. repeat split; try lia; reflexivity.
Qed.

Lemma aset_nat_none {A} : forall (l : list A) i v, (length l <= i)%nat -> aset_nat l i v = None.
Proof.
  induction l as [|h t IH]; intros i v H; [reflexivity|].
  destruct i as [|j]; cbn [length] in H; [lia|]. cbn [aset_nat]. rewrite IH by lia. reflexivity.
Qed.

Lemma buf_write_str_full p : forall b, (cap < length b + length p)%nat -> (length b <= cap)%nat ->
  rn_buf_write_str b p = None.
Proof.
  induction p as [|x t IH]; intros b H Hb; cbn [length] in H; [lia|]. cbn [rn_buf_write_str].
  destruct (PeanoNat.Nat.eq_dec (length b) cap) as [E|E].
  - rewrite buf_put_full by lia. reflexivity.
  - rewrite buf_put_ok by lia. apply IH; rewrite app_length; cbn [length]; lia.
Qed.

(* one store: self.buffer[self.len] = x; self.len += 1 *)
Lemma put_sim d b x : dbuf_rel d b ->
  match aset (db_buffer d) (db_len d) x, rn_buf_put b x with
  | Some arr, Some b' => dbuf_rel (mkRnDbuf arr (db_len d + 1)) b'
  | None, None => True
  | _, _ => False
  end.
Proof.
  intros H. pose proof (rel_length d b H) as Hlen. destruct H as (Hl & Hn & Ha). unfold aset.
  destruct (PeanoNat.Nat.eq_dec (N.to_nat (db_len d)) cap) as [E|E].
  - rewrite aset_nat_none by lia. rewrite buf_put_full by lia. exact I.
  - destruct (aset_nat_some (db_buffer d) (N.to_nat (db_len d)) x) as [arr Harr]; [lia|].
    rewrite Harr, buf_put_ok by lia.
    unfold dbuf_rel, rn_dbuf_abs. cbn [db_buffer db_len].
    rewrite (aset_nat_length _ _ _ _ Harr). repeat split; [lia | lia |].
    replace (N.to_nat (db_len d + 1)) with (S (N.to_nat (db_len d))) by lia.
    rewrite (aset_nat_firstn_S _ _ _ _ Harr). unfold rn_dbuf_abs in Ha. rewrite Ha. reflexivity.
Qed.

Lemma cadd_digit c : c < 10 -> cadd 8 48 c = Some (48 + c).
Proof.
  intros H. unfold cadd. replace (48 + c <? 2 ^ 8) with true; [reflexivity|].
  symmetry. apply N.ltb_lt. change (2 ^ 8) with 256. lia.
Qed.

Ltac put_step :=
  match goal with
  | H : dbuf_rel (mkRnDbuf ?buf ?l) ?b |- context [aset ?buf ?l ?x] =>
      let P := fresh "P" in
      pose proof (put_sim _ b x H) as P; cbn [db_buffer db_len] in P;
      destruct (aset buf l x) as [?arr|], (rn_buf_put b x) as [?b'|];
      try contradiction; try exact I; cbv iota beta; rewrite ?orb_true_r; cbv iota; cbn [orel db_buffer db_len]
  end.

Lemma gr_write_code_sim d b code : dbuf_rel d b -> orel (gr_write_code d code) (rn_write_code b code).
Proof.
  intros H. destruct d as [buf l]. unfold gr_write_code, rn_write_code, set_db_len, set_db_buffer.
  cbn [db_buffer db_len].
  change (100 =? 0) with false. change (10 =? 0) with false. cbv iota zeta.
  rewrite !cadd_digit by (apply N.mod_lt; lia).
  rewrite ?orb_true_r.
  destruct ((code / 100) mod 10 =? 0); cbn [negb]; cbv iota beta; rewrite ?orb_true_r; cbv iota; cbn [db_buffer db_len].
  - put_step. put_step. exact P0.
  - put_step. put_step. put_step. exact P1.
Qed.

(* [body] is the translated body of the `for` loop; what is asked of it is what one iteration means.  After
   [i] stores the loop has written the bytes of a buffer whose length field stood at len + i: the store is
   [put_sim] on that buffer *)
Lemma write_str_loop (body : N * N -> rn_dbuf -> option (bctl rn_dbuf)) part :
  (forall i x d, body (i, x) d = (arr <- aset (db_buffer d) (db_len d + i) x ;; Some (BNext (set_db_buffer d arr)))) ->
  forall i d b,
  dbuf_rel (mkRnDbuf (db_buffer d) (db_len d + i)) b ->
  match for_list0 body (combine (range_from i (length part)) part) d, rn_buf_write_str b part with
  | Some d', Some b' =>
      db_len d' = db_len d /\ dbuf_rel (mkRnDbuf (db_buffer d') (db_len d + i + N.of_nat (length part))) b'
  | None, None => True
  | _, _ => False
  end.
Proof.
  intros Hbody. induction part as [|x t IH]; intros i d b R; cbn [length range_from combine for_list0 rn_buf_write_str].
  - rewrite N.add_0_r. auto.
  - rewrite Hbody. pose proof (put_sim _ b x R) as P. cbn [db_buffer db_len] in P.
    destruct (aset (db_buffer d) (db_len d + i) x) as [arr|], (rn_buf_put b x) as [b1|]; try contradiction; [|exact I].
    rewrite <- N.add_assoc in P. specialize (IH (i + 1) (set_db_buffer d arr) b1 P).
    cbn [set_db_buffer db_buffer db_len] in IH.
    replace (db_len d + i + N.of_nat (S (length t))) with (db_len d + (i + 1) + N.of_nat (length t)) by lia.
    exact IH.
Qed.

Lemma gr_write_str_sim d b part : dbuf_rel d b -> orel (gr_write_str d part) (rn_buf_write_str b part).
Proof.
  intros R. unfold gr_write_str, rn_enumerate.
  match goal with |- context [for_list0 ?F _ _] => set (body := F) end.
  assert (R0 : dbuf_rel (mkRnDbuf (db_buffer d) (db_len d + 0)) b) by (rewrite N.add_0_r; now destruct d).
  pose proof (write_str_loop body part (fun _ _ _ => eq_refl) 0 d b R0) as P.
  destruct (for_list0 body _ d) as [d'|], (rn_buf_write_str b part) as [b'|]; try contradiction; [|exact I].
  destruct P as [E P]. cbv zeta. unfold set_db_len, len. rewrite E. rewrite N.add_0_r in P. exact P.
Qed.

(* DisplayBuffer::as_str *)
Lemma gr_as_str_eq d b : dbuf_rel d b -> gr_as_str d = Some b.
Proof.
  intros (Hl & Hn & Ha). unfold gr_as_str, slice, rn_from_utf8_unchecked.
  replace ((0 <=? db_len d) && (db_len d <=? N.of_nat (length (db_buffer d)))) with true.
  - cbn [skipn N.to_nat]. rewrite N.sub_0_r. unfold rn_dbuf_abs in Ha. rewrite Ha. reflexivity.
  - symmetry. apply andb_true_iff. split; apply N.leb_le; lia.
Qed.

Lemma bind_some_id {A} (x : option A) : (v <- (r <- x ;; Some r) ;; Some v) = x.
Proof. destruct x; reflexivity. Qed.

Lemma bind_some_id' {A} (x : option A) : (r <- x ;; Some r) = x.
Proof. destruct x; reflexivity. Qed.

Lemma orel_bind x y (F : rn_dbuf -> option rn_dbuf) (H : rn_buf -> option rn_buf) :
  orel x y -> (forall d b, dbuf_rel d b -> orel (F d) (H b)) -> orel (d <- x ;; F d) (b <- y ;; H b).
Proof. destruct x, y; cbn [orel]; try tauto. intros R S. now apply S. Qed.

(* DisplayBuffer::default().write_str(s1).write_code(n).write_str(s2), whatever the strings *)
Lemma idx_chain_sim s1 s2 n :
  orel (r <- gr_write_str rn_dbuf_default s1 ;; r1 <- gr_write_code r n ;; r2 <- gr_write_str r1 s2 ;; Some r2)
       (rn_run_parts rn_buf_new [RnStr s1; RnCode 0; RnStr s2] [n]).
Proof.
  cbn [rn_run_parts nth_error].
  apply orel_bind; [apply gr_write_str_sim, default_rel | intros d1 b1 R1].
  apply orel_bind; [apply gr_write_code_sim, R1 | intros d2 b2 R2].
  apply orel_bind; [apply gr_write_str_sim, R2 | intros d3 b3 R3]. exact R3.
Qed.

Lemma rgb_chain_sim s1 s2 s3 s4 r g b :
  orel (r0 <- gr_write_str rn_dbuf_default s1 ;; r1 <- gr_write_code r0 r ;; r2 <- gr_write_str r1 s2 ;;
        r3 <- gr_write_code r2 g ;; r4 <- gr_write_str r3 s3 ;; r5 <- gr_write_code r4 b ;;
        r6 <- gr_write_str r5 s4 ;; Some r6)
       (rn_run_parts rn_buf_new [RnStr s1; RnCode 0; RnStr s2; RnCode 1; RnStr s3; RnCode 2; RnStr s4] [r; g; b]).
Proof.
  cbn [rn_run_parts nth_error].
  apply orel_bind; [apply gr_write_str_sim, default_rel | intros d1 b1 R1].
  apply orel_bind; [apply gr_write_code_sim, R1 | intros d2 b2 R2].
  apply orel_bind; [apply gr_write_str_sim, R2 | intros d3 b3 R3].
  apply orel_bind; [apply gr_write_code_sim, R3 | intros d4 b4 R4].
  apply orel_bind; [apply gr_write_str_sim, R4 | intros d5 b5 R5].
  apply orel_bind; [apply gr_write_code_sim, R5 | intros d6 b6 R6].
  apply orel_bind; [apply gr_write_str_sim, R6 | intros d7 b7 R7]. exact R7.
Qed.

Lemma gr_rgb_acc r g b : gr_rgb_r (r, g, b) = r /\ gr_rgb_g (r, g, b) = g /\ gr_rgb_b (r, g, b) = b.
Proof. repeat split. Qed.

Lemma gr_a256_index_eq i : gr_a256_index i = i.
Proof. reflexivity. Qed.

Lemma gr_from_ansi_eq a : gr_from_ansi a = Some (ansi256_from a).
Proof. destruct a; reflexivity. Qed.

(* impl From<AnsiColor> for Ansi256Color *)
Lemma gr_a256_from_eq a : gr_a256_from a = Some (ansi256_from a).
Proof. unfold gr_a256_from. rewrite gr_from_ansi_eq. reflexivity. Qed.

Lemma gr_ansi_fg_str_eq a : gr_ansi_fg_str a = Some (ansi_fg_str a).
Proof. destruct a; reflexivity. Qed.

Lemma gr_ansi_bg_str_eq a : gr_ansi_bg_str a = Some (ansi_bg_str a).
Proof. destruct a; reflexivity. Qed.

(* the nine as_*_buffer functions: those of Ansi256Color and RgbColor are instances of the two chain lemmas,
   AnsiColor writes a table string *)
Lemma gr_a256_fg_sim n : orel (gr_a256_fg_buffer n) (rn_ansi256_fg_buffer n).
Proof. apply idx_chain_sim. Qed.
Lemma gr_a256_bg_sim n : orel (gr_a256_bg_buffer n) (rn_ansi256_bg_buffer n).
Proof. apply idx_chain_sim. Qed.
Lemma gr_a256_ul_sim n : orel (gr_a256_underline_buffer n) (rn_ansi256_ul_buffer n).
Proof. apply idx_chain_sim. Qed.

Lemma gr_rgb_fg_sim r g b : orel (gr_rgb_fg_buffer (r, g, b)) (rn_rgb_fg_buffer r g b).
Proof. apply rgb_chain_sim. Qed.
Lemma gr_rgb_bg_sim r g b : orel (gr_rgb_bg_buffer (r, g, b)) (rn_rgb_bg_buffer r g b).
Proof. apply rgb_chain_sim. Qed.
Lemma gr_rgb_ul_sim r g b : orel (gr_rgb_underline_buffer (r, g, b)) (rn_rgb_ul_buffer r g b).
Proof. apply rgb_chain_sim. Qed.

Lemma gr_ansi_fg_sim a : orel (gr_ansi_fg_buffer a) (rn_ansi_fg_buffer a).
Proof.
  unfold gr_ansi_fg_buffer, rn_ansi_fg_buffer. rewrite gr_ansi_fg_str_eq. cbv beta iota.
  rewrite bind_some_id'. apply gr_write_str_sim, default_rel.
Qed.
Lemma gr_ansi_bg_sim a : orel (gr_ansi_bg_buffer a) (rn_ansi_bg_buffer a).
Proof.
  unfold gr_ansi_bg_buffer, rn_ansi_bg_buffer. rewrite gr_ansi_bg_str_eq. cbv beta iota.
  rewrite bind_some_id'. apply gr_write_str_sim, default_rel.
Qed.
Lemma gr_ansi_ul_sim a : orel (gr_ansi_underline_buffer a) (rn_ansi_ul_buffer a).
Proof.
  unfold gr_ansi_underline_buffer, rn_ansi_ul_buffer. rewrite gr_a256_from_eq, bind_some_id'. apply gr_a256_ul_sim.
Qed.

(* Color::render_fg / render_bg / render_underline (translated: the DisplayBuffer they return as
   `impl Display`), on the Rust enum with its payloads ([rn_color_view_of]); what Display then
   shows is DisplayBuffer::as_str. *)
Definition gr_color_fg_buffer (c : color) : option rn_dbuf := gr_color_render_fg (rn_color_view_of c).
Definition gr_color_bg_buffer (c : color) : option rn_dbuf := gr_color_render_bg (rn_color_view_of c).
Definition gr_color_ul_buffer (c : color) : option rn_dbuf := gr_color_render_underline (rn_color_view_of c).

Definition gr_shown (x : option rn_dbuf) : option (list N) := d <- x ;; gr_as_str d.

Lemma shown_of_sim x y : orel x y -> gr_shown x = y.
Proof.
  destruct x as [d|], y as [b|]; cbn [orel gr_shown]; try tauto. intros H. exact (gr_as_str_eq d b H).
Qed.

Theorem translated_buffers_are_model (c : color) :
  gr_shown (gr_color_fg_buffer c) = rn_color_fg_buffer c /\
  gr_shown (gr_color_bg_buffer c) = rn_color_bg_buffer c /\
  gr_shown (gr_color_ul_buffer c) = rn_color_ul_buffer c.
Proof.
  unfold gr_color_fg_buffer, gr_color_bg_buffer, gr_color_ul_buffer,
    gr_color_render_fg, gr_color_render_bg, gr_color_render_underline.
  destruct c as [a | n | r g b]; cbn [rn_color_view_of rn_color_fg_buffer rn_color_bg_buffer rn_color_ul_buffer];
    rewrite !bind_some_id; repeat split; apply shown_of_sim.
  - apply gr_ansi_fg_sim.
  - apply gr_ansi_bg_sim.
  - apply gr_ansi_ul_sim.
  - apply gr_a256_fg_sim.
  - apply gr_a256_bg_sim.
  - apply gr_a256_ul_sim.
  - apply gr_rgb_fg_sim.
  - apply gr_rgb_bg_sim.
  - apply gr_rgb_ul_sim.
Qed.

(* statements in the form quoted by Props/C05.v *)
Lemma translated_write_str (d : rn_dbuf) (b : rn_buf) (part : list N) :
  dbuf_rel d b -> orel (gr_write_str d part) (rn_buf_write_str b part).
Proof. apply gr_write_str_sim. Qed.

Lemma translated_write_code (d : rn_dbuf) (b : rn_buf) (code : N) :
  dbuf_rel d b -> orel (gr_write_code d code) (rn_write_code b code).
Proof. apply gr_write_code_sim. Qed.

(* Sinks: `&mut dyn io::Write` and the `dyn fmt::Write` inside a Formatter.
   Both are scripted: a write may fail.  The hand model keeps the list of fragments handed to the sink
   ([rn_writer], Model/Render.v: the buffers of Style::write_to) and has no failing sink.  Generic in the sink
   [W], its "write one fragment" [wa] and the predicate "never fails" [acc]:
   [wr_bufs w bufs]: the fragments written one after the other, the first error stops. *)
Section Sink.
Context {W E : Type} (wa : W -> list N -> W * (unit + E)) (acc : W -> Prop).
Hypothesis acc_ok : forall w b, acc w -> exists w1, wa w b = (w1, inl tt) /\ acc w1.

Definition sres : Type := (W * (unit + E))%type.

Definition wr_step (st : sres) (b : list N) : sres :=
  match snd st with inl _ => wa (fst st) b | inr _ => st end.
Definition wr_from (st : sres) (bufs : list (list N)) : sres := fold_left wr_step bufs st.
Definition wr_bufs (w : W) (bufs : list (list N)) : sres := wr_from (w, inl tt) bufs.

Lemma wr_from_err w e bufs : wr_from (w, inr e) bufs = (w, inr e).
Proof. induction bufs as [|b t IH]; [reflexivity|]. exact IH. Qed.

Lemma wr_from_app st a b : wr_from st (a ++ b) = wr_from (wr_from st a) b.
Proof. apply fold_left_app. Qed.

Lemma wr_bufs_cons w b t : wr_bufs w (b :: t) = wr_from (wa w b) t.
Proof. reflexivity. Qed.

Lemma wr_bufs_acc bufs : forall w, acc w -> exists o, wr_bufs w bufs = (o, inl tt) /\ acc o.
Proof.
  induction bufs as [|b t IH]; intros w Ha.
  - exists w. auto.
  - destruct (acc_ok w b Ha) as (w1 & E1 & Ha1). destruct (IH w1 Ha1) as (o & Eo & Hao). exists o.
    rewrite wr_bufs_cons, E1. auto.
Qed.

(* a translated writing function [G] against a hand-model function [H] on the list of fragments: when the hand
   model answers, [G] writes exactly the fragments the hand model appends, on ANY sink (errors included:
   the first one is returned, nothing more is written); when the hand model panics, [G] panics on a sink
   that never fails (on a failing sink it may return the error before it reaches the panic) *)
Definition wsim (G : W -> option sres) (H : rn_writer -> option rn_writer) : Prop :=
  forall w bufs0,
    match H bufs0 with
    | Some bufs1 => exists ext, bufs1 = bufs0 ++ ext /\ G w = Some (wr_bufs w ext)
    | None => acc w -> G w = None
    end.

(* `a?; b` *)
Definition seqw (G1 G2 : W -> option sres) (w : W) : option sres :=
  match G1 w with
  | Some (o, inl _) => G2 o
  | Some (o, inr e) => Some (o, inr e)
  | None => None
  end.
Definition retw (w : W) : option sres := Some (w, inl tt).
(* `if let Some(c) = slot { G(c)?; }` *)
Definition oslot (G : rn_color_view -> W -> option sres) (o : option rn_color_view) (w : W) : option sres :=
  match o with Some c => G c w | None => Some (w, inl tt) end.

(* what the translator emits for `G(..)?; K` and for `if let Some(c) = m { G(c)?; } K` (the continuation [K]
   stands in both branches), up to the continuation *)
Lemma seqw_q (G K K' : W -> option sres) w : (forall o, K o = K' o) ->
  ('(o, r) <- G w ;; match r with inl _ => K o | inr e => Some (o, inr e) end) = seqw G K' w.
Proof. intros H. unfold seqw. destruct (G w) as [[o [[]|e]]|]; auto. Qed.

Lemma oslot_q (G : rn_color_view -> W -> option sres) K K' m w : (forall o, K o = K' o) ->
  match m with
  | Some c => '(o, r) <- G c w ;; match r with inl _ => K o | inr e => Some (o, inr e) end
  | None => K w
  end = seqw (oslot G m) K' w.
Proof. intros H. destruct m as [c|]; [now apply seqw_q | apply H]. Qed.

(* ... with the value built first: `if let Some(c) = m { X(c).F(..)?; } K` *)
Lemma oslot_bind_q {A} (X : rn_color_view -> option A) (F : A -> W -> option sres) K K' m w :
  (forall o, K o = K' o) ->
  match m with
  | Some c => d <- X c ;; '(o, r) <- F d w ;; match r with inl _ => K o | inr e => Some (o, inr e) end
  | None => K w
  end = seqw (oslot (fun v w => d <- X v ;; F d w) m) K' w.
Proof.
  intros H. destruct m as [c|]; [|apply H]. unfold seqw, oslot.
  destruct (X c) as [d|]; [|reflexivity]. destruct (F d w) as [[o [[]|e]]|]; auto.
Qed.

Lemma wsim_ret : wsim retw (fun b => Some b).
Proof. intros w b0. exists []. rewrite app_nil_r. auto. Qed.

Lemma wsim_seq G1 G2 H1 H2 : wsim G1 H1 -> wsim G2 H2 -> wsim (seqw G1 G2) (fun b => b1 <- H1 b ;; H2 b1).
Proof.
  intros S1 S2 w b0. pose proof (S1 w b0) as P1. unfold seqw. destruct (H1 b0) as [b1|].
  - destruct P1 as (ext1 & -> & E1). rewrite E1. destruct (wr_bufs w ext1) as [o r] eqn:R.
    pose proof (S2 o (b0 ++ ext1)) as P2. destruct (H2 (b0 ++ ext1)) as [b2|].
    + destruct P2 as (ext2 & -> & E2). exists (ext1 ++ ext2). split; [symmetry; apply app_assoc|].
      unfold wr_bufs in *. rewrite wr_from_app, R.
      destruct r as [[]|e]; [exact E2 | now rewrite wr_from_err].
    + intros Hs. destruct (wr_bufs_acc ext1 w Hs) as (o' & E' & Hso).
      rewrite R in E'. injection E' as -> ->. exact (P2 Hso).
  - intros Hs. rewrite (P1 Hs). reflexivity.
Qed.

Lemma wsim_ext G G' H : (forall w, G' w = G w) -> wsim G H -> wsim G' H.
Proof. intros Eq S w b0. rewrite Eq. apply S. Qed.

Lemma wsim_oslot G buffer o :
  (forall c, wsim (G (rn_color_view_of c)) (rn_buffer_write_to (buffer c))) ->
  wsim (oslot G (option_map rn_color_view_of o)) (rn_write_ocolor buffer o).
Proof.
  intros S. destruct o as [c|]; cbn [option_map oslot rn_write_ocolor]; [apply S | apply wsim_ret].
Qed.

Lemma wsim_one (x : option (list N)) :
  wsim (fun w => b <- x ;; Some (wa w b)) (rn_buffer_write_to x).
Proof.
  intros w b0. unfold rn_buffer_write_to. destruct x as [b|]; [|reflexivity].
  exists [b]. split; reflexivity.
Qed.

(* the loop of Effects::write_to / EffectsDisplay::fmt: one fragment per index, `?` leaves the loop.  [step] is
   the translated loop body; what is asked of it is what one iteration means *)
Definition wfin (lr : W + sres) : sres := match lr with inl st => (st, inl tt) | inr p => p end.

Lemma wsim_effects_loop (step : N -> W -> option (lctl W sres)) :
  (forall i w, step i w =
     match aget metadata i with
     | Some md => match wa w (snd md) with
                  | (o, inl _) => Some (LNext o)
                  | (o, inr err) => Some (LRet (o, inr err))
                  end
     | None => None
     end) ->
  forall l w b0,
    match rn_write_effects_loop l b0 with
    | Some b1 => exists ext, b1 = b0 ++ ext /\ option_map wfin (for_list step l w) = Some (wr_bufs w ext)
    | None => acc w -> for_list step l w = None
    end.
Proof.
  intros Hstep. induction l as [|i t IH]; intros w b0; cbn [for_list rn_write_effects_loop].
  - exists []. rewrite app_nil_r. auto.
  - rewrite Hstep. destruct (aget metadata i) as [md|]; [|reflexivity].
    destruct (wa w (snd md)) as [w1 r] eqn:R.
    pose proof (IH w1 (b0 ++ [snd md])) as P. destruct (rn_write_effects_loop t (b0 ++ [snd md])) as [b1|].
    + destruct P as (ext & -> & E1). exists (snd md :: ext). split; [rewrite <- app_assoc; reflexivity|].
      rewrite wr_bufs_cons, R. destruct r as [[]|k]; [exact E1 | now rewrite wr_from_err].
    + intros Hs. destruct (acc_ok w (snd md) Hs) as (w' & E1 & Hs').
      rewrite R in E1. injection E1 as -> ->. exact (P Hs').
Qed.

(* the loop together with the iterator it runs over and the match after it *)
Lemma wsim_effects_for (step : N -> W -> option (lctl W sres)) e (G : W -> option sres) :
  (forall i w, step i w =
     match aget metadata i with
     | Some md => match wa w (snd md) with
                  | (o, inl _) => Some (LNext o)
                  | (o, inr err) => Some (LRet (o, inr err))
                  end
     | None => None
     end) ->
  (forall w, G w = (l <- e_index_iter e ;; option_map wfin (for_list step l w))) ->
  wsim G (rn_write_effects e).
Proof.
  intros Hstep HG w b0. rewrite HG. unfold rn_write_effects. destruct (e_index_iter e) as [l|]; [|reflexivity].
  pose proof (wsim_effects_loop step Hstep l w b0) as P. destruct (rn_write_effects_loop l b0) as [b1|].
  - exact P.
  - intros Hs. rewrite (P Hs). reflexivity.
Qed.

(* the whole Style: effects, fg, bg, underline (Generated/Render.v rn_write_order) *)
Lemma wsim_style s Ge Gf Gb Gu :
  wsim Ge (rn_write_effects (st_eff s)) ->
  (forall c, wsim (Gf (rn_color_view_of c)) (rn_buffer_write_to (rn_color_fg_buffer c))) ->
  (forall c, wsim (Gb (rn_color_view_of c)) (rn_buffer_write_to (rn_color_bg_buffer c))) ->
  (forall c, wsim (Gu (rn_color_view_of c)) (rn_buffer_write_to (rn_color_ul_buffer c))) ->
  wsim (seqw Ge (seqw (oslot Gf (rn_st_fg s)) (seqw (oslot Gb (rn_st_bg s)) (seqw (oslot Gu (rn_st_ul s)) retw))))
       (rn_write_slots s rn_write_order).
Proof.
  intros Se Sf Sb Su. unfold rn_write_order, rn_st_fg, rn_st_bg, rn_st_ul.
  refine (wsim_seq _ _ (rn_write_slot s RnEffects) (rn_write_slots s [RnFg; RnBg; RnUl]) Se _).
  refine (wsim_seq _ _ (rn_write_slot s RnFg) (rn_write_slots s [RnBg; RnUl]) (wsim_oslot _ _ _ Sf) _).
  refine (wsim_seq _ _ (rn_write_slot s RnBg) (rn_write_slots s [RnUl]) (wsim_oslot _ _ _ Sb) _).
  refine (wsim_seq _ _ (rn_write_slot s RnUl) (rn_write_slots s []) (wsim_oslot _ _ _ Su) wsim_ret).
Qed.

Lemma wsim_some G s bufs w :
  wsim G (rn_write_slots s rn_write_order) -> rn_write_to s = Some bufs -> G w = Some (wr_bufs w bufs).
Proof.
  intros S E1. pose proof (S w []) as P. unfold rn_write_to in E1. rewrite E1 in P.
  destruct P as (ext & -> & P). exact P.
Qed.
Lemma wsim_acc G s w :
  wsim G (rn_write_slots s rn_write_order) -> acc w -> G w = option_map (wr_bufs w) (rn_write_to s).
Proof.
  intros S Hs. pose proof (S w []) as P. unfold rn_write_to.
  destruct (rn_write_slots s rn_write_order []) as [b1|]; cbn [option_map].
  - destruct P as (ext & -> & P). exact P.
  - exact (P Hs).
Qed.
Lemma wsim_pieces G H ps w :
  wsim G H -> (forall b0, H b0 = option_map (app b0) ps) ->
  match ps with Some ext => G w = Some (wr_bufs w ext) | None => acc w -> G w = None end.
Proof.
  intros S HP. specialize (S w []). rewrite HP in S. destruct ps as [ext|]; cbn [option_map] in S; [|exact S].
  destruct S as (ext' & E' & S). cbn [app] in E'. now subst ext'.
Qed.
End Sink.

(* The core::fmt side: Display impls, Style::fmt_to, render / render_reset.
   A Formatter is [rn_fmtr] (Model/Render.v): the hand model's [rn_fmt] (text written so far, alternate flag,
   width / fill / align / precision) over a scripted sink; a translated `fmt` answers the new formatter and
   the fmt::Result.  The hand model has no Result (its sink never fails). *)

(* ANY formatter: a sink that fails.  The fragments are the buffers of the hand model's
   write_to ([rn_write_to]; their concatenation is what render() shows: Proofs/Render.v paths_agree), each handed
   to Formatter::write_str; the first fmt::Error is returned and nothing more is written *)
Definition fr_never_fails (f : rn_fmtr) : Prop := fr_script f = [].

Lemma fr_acc_ok f b : fr_never_fails f -> exists f1, rn_fw_write_str f b = (f1, inl tt) /\ fr_never_fails f1.
Proof.
  unfold fr_never_fails, rn_fw_write_str. intros ->. eexists. split; reflexivity.
Qed.

(* notations, not definitions: the lemmas of [Section Sink] then apply to [fsim] / [iosim] goals without unfolding *)
Notation fsim := (wsim rn_fw_write_str fr_never_fails).
Notation fw_bufs := (wr_bufs rn_fw_write_str).

Lemma fsim_buffer x : fsim (fun f => d <- x ;; gr_dbuf_fmt d f) (rn_buffer_write_to (gr_shown x)).
Proof.
  eapply wsim_ext; [|apply (wsim_one rn_fw_write_str fr_never_fails (gr_shown x))].
  intros f. unfold gr_shown, gr_dbuf_fmt. destruct x as [d|]; [|reflexivity].
  destruct (gr_as_str d) as [b|]; [|reflexivity]. destruct (rn_fw_write_str f b). reflexivity.
Qed.

Lemma fsim_color_fg c : fsim (fun f => d <- gr_color_render_fg (rn_color_view_of c) ;; gr_dbuf_fmt d f)
                             (rn_buffer_write_to (rn_color_fg_buffer c)).
Proof. destruct (translated_buffers_are_model c) as (<- & _ & _). apply fsim_buffer. Qed.
Lemma fsim_color_bg c : fsim (fun f => d <- gr_color_render_bg (rn_color_view_of c) ;; gr_dbuf_fmt d f)
                             (rn_buffer_write_to (rn_color_bg_buffer c)).
Proof. destruct (translated_buffers_are_model c) as (_ & <- & _). apply fsim_buffer. Qed.
Lemma fsim_color_ul c : fsim (fun f => d <- gr_color_render_underline (rn_color_view_of c) ;; gr_dbuf_fmt d f)
                             (rn_buffer_write_to (rn_color_ul_buffer c)).
Proof. destruct (translated_buffers_are_model c) as (_ & _ & <-). apply fsim_buffer. Qed.

Lemma fsim_effects e : fsim (gr_effects_fmt e) (rn_write_effects e).
Proof.
  unfold gr_effects_fmt, effd_f0.
  change (iter_drain g_eff_index_iter_next (S (length metadata)) (g_eff_index_iter e)) with (g_eff_index_iter_items e).
  rewrite g_eff_index_iter_eq.
  match goal with |- context [for_list ?F _ _] => set (step := F) end.
  apply (wsim_effects_for rn_fw_write_str fr_never_fails fr_acc_ok step e).
  - intros i f. unfold step, md_escape. destruct (aget metadata i); reflexivity.
  - intros f. destruct (e_index_iter e) as [l|]; [|reflexivity]. unfold sres.
    destruct (for_list step l f) as [[st|[st rv]]|]; reflexivity.
Qed.

(* Style::fmt_to is the sequence effects, fg, bg, underline; every `?` returns the error *)
Lemma gr_style_fmt_to_shape s f :
  gr_style_fmt_to s f =
  seqw (gr_effects_fmt (g_eff_render (st_eff s)))
    (seqw (oslot (fun v f => d <- gr_color_render_fg v ;; gr_dbuf_fmt d f) (rn_st_fg s))
      (seqw (oslot (fun v f => d <- gr_color_render_bg v ;; gr_dbuf_fmt d f) (rn_st_bg s))
        (seqw (oslot (fun v f => d <- gr_color_render_underline v ;; gr_dbuf_fmt d f) (rn_st_ul s)) retw))) f.
Proof.
  unfold gr_style_fmt_to. cbv zeta.
  apply seqw_q; intro f1. apply oslot_bind_q; intro f2. apply oslot_bind_q; intro f3.
  apply (oslot_bind_q _ _ retw); intro f4. reflexivity.
Qed.

Lemma gr_style_fmt_to_sim s : fsim (gr_style_fmt_to s) (rn_write_slots s rn_write_order).
Proof.
  eapply wsim_ext; [intros f; apply gr_style_fmt_to_shape|]. rewrite g_eff_render_eq.
  apply (wsim_style rn_fw_write_str fr_never_fails fr_acc_ok s).
  - apply fsim_effects.
  - apply fsim_color_fg.
  - apply fsim_color_bg.
  - apply fsim_color_ul.
Qed.

Theorem translated_fmt_to_any_sink s bufs f :
  rn_write_to s = Some bufs -> gr_style_fmt_to s f = Some (fw_bufs f bufs).
Proof. apply (wsim_some rn_fw_write_str fr_never_fails), gr_style_fmt_to_sim. Qed.

(* The sink that never fails: what the hand model covers.  [ok_fmt] is "the hand model's formatter over
   that sink, and Ok(())"; these equations are the any-sink statements read on it *)
Definition ok_fmt (x : option rn_fmt) : option (rn_fmtr * (unit + unit)) :=
  option_map (fun f => (mkRnFmtr f [], inl tt)) x.

Lemma fw_bufs_ok ext : forall f, fw_bufs (mkRnFmtr f []) ext = (mkRnFmtr (fmt_add f ext) [], inl tt).
Proof.
  induction ext as [|b t IH]; intro f.
  - now rewrite fmt_add_nil.
  - rewrite wr_bufs_cons. change (rn_fw_write_str (mkRnFmtr f []) b) with (mkRnFmtr (rn_f_write_str f b) [], @inl unit unit tt).
    change (wr_from rn_fw_write_str (mkRnFmtr (rn_f_write_str f b) [], inl tt) t) with (fw_bufs (mkRnFmtr (rn_f_write_str f b) []) t).
    rewrite IH. unfold fmt_add. now rewrite write_str_twice.
Qed.

Lemma fsim_ok G H ps hand :
  fsim G H -> (forall b0, H b0 = option_map (app b0) ps) -> (forall f, hand f = option_map (fmt_add f) ps) ->
  forall f, G (mkRnFmtr f []) = ok_fmt (hand f).
Proof.
  intros S HW HF f. rewrite HF.
  pose proof (wsim_pieces rn_fw_write_str fr_never_fails G H ps (mkRnFmtr f []) S HW) as P.
  destruct ps as [ext|]; cbn [option_map ok_fmt].
  - now rewrite P, fw_bufs_ok.
  - now apply P.
Qed.

(* impl Display for DisplayBuffer, on the buffer a translated builder returned *)
Lemma gr_dbuf_fmt_shown x f : (d <- x ;; gr_dbuf_fmt d (mkRnFmtr f [])) = ok_fmt (rn_fmt_buffer (gr_shown x) f).
Proof.
  destruct x as [d|]; [|reflexivity]. unfold gr_dbuf_fmt, gr_shown, rn_fmt_buffer.
  destruct (gr_as_str d); reflexivity.
Qed.

(* impl Display for NullFormatter *)
Lemma gr_null_fmt_eq s f : Some (gr_null_fmt s (mkRnFmtr f [])) = ok_fmt (rn_fmt_null s f).
Proof. reflexivity. Qed.

(* impl Display for Reset, Reset::render *)
Lemma gr_reset_fmt_eq f : Some (gr_reset_fmt (gr_reset_render tt) (mkRnFmtr f [])) = ok_fmt (rn_fmt_null rn_reset_str f).
Proof. reflexivity. Qed.

(* Color::render_fg / render_bg / render_underline shown through Display *)
Lemma gr_color_fmt_fg c f :
  (d <- gr_color_render_fg (rn_color_view_of c) ;; gr_dbuf_fmt d (mkRnFmtr f [])) = ok_fmt (rn_fmt_buffer (rn_color_fg_buffer c) f).
Proof. rewrite gr_dbuf_fmt_shown. destruct (translated_buffers_are_model c) as (<- & _ & _). reflexivity. Qed.
Lemma gr_color_fmt_bg c f :
  (d <- gr_color_render_bg (rn_color_view_of c) ;; gr_dbuf_fmt d (mkRnFmtr f [])) = ok_fmt (rn_fmt_buffer (rn_color_bg_buffer c) f).
Proof. rewrite gr_dbuf_fmt_shown. destruct (translated_buffers_are_model c) as (_ & <- & _). reflexivity. Qed.
Lemma gr_color_fmt_ul c f :
  (d <- gr_color_render_underline (rn_color_view_of c) ;; gr_dbuf_fmt d (mkRnFmtr f [])) = ok_fmt (rn_fmt_buffer (rn_color_ul_buffer c) f).
Proof. rewrite gr_dbuf_fmt_shown. destruct (translated_buffers_are_model c) as (_ & _ & <-). reflexivity. Qed.

(* impl Display for EffectsDisplay *)
Lemma gr_effects_fmt_eq e f : gr_effects_fmt e (mkRnFmtr f []) = ok_fmt (rn_fmt_effects e f).
Proof.
  apply (fsim_ok _ _ (rn_effects_pieces e) (rn_fmt_effects e) (fsim_effects e));
    [apply write_effects_pieces | apply fmt_effects_pieces].
Qed.

Lemma gr_style_fmt_to_eq s f : gr_style_fmt_to s (mkRnFmtr f []) = ok_fmt (rn_style_fmt_to s f).
Proof.
  apply (fsim_ok _ _ (slots_pieces s rn_fmt_order) (rn_style_fmt_to s) (gr_style_fmt_to_sim s));
    [apply write_slots_pieces | apply fmt_slots_pieces].
Qed.

(* "nothing to reset": `self != Self::new()` / `self == Self::new()` (derived PartialEq: [style_eqb]), `self.is_plain()`
   (the translation of Generated/StyleFn.v) or its body written out over the field views all test the same thing;
   [plain_test] brings whichever the source uses to [style_eqb s st_new] (the repository writes
   `self != Self::new()`: only [g_st_new_eq] fires) *)
Lemma st_is_plain_eqb s : st_is_plain s = style_eqb s st_new.
Proof. apply eq_true_iff_eq. now rewrite st_is_plain_iff, style_eqb_eq. Qed.

Lemma rn_plain_views s :
  opt_is_none (rn_st_fg s) && opt_is_none (rn_st_bg s) && opt_is_none (rn_st_ul s) && g_eff_is_plain (st_eff s) = style_eqb s st_new.
Proof. rewrite <- st_is_plain_eqb. destruct s as [[?|] [?|] [?|] x]; reflexivity. Qed.

Lemma style_eqb_new_sym s : style_eqb st_new s = style_eqb s st_new.
Proof. apply eq_true_iff_eq. rewrite !style_eqb_eq. split; congruence. Qed.

Ltac plain_test :=
  cbv zeta;
  rewrite ?g_st_new_eq, ?g_st_is_plain_eq, ?st_is_plain_eqb, ?rn_plain_views, ?style_eqb_new_sym.

(* Style::render_reset: the NullFormatter's text *)
Lemma gr_style_render_reset_eq s : gr_style_render_reset s = rn_render_reset s.
Proof.
  unfold gr_style_render_reset, rn_render_reset, rn_nf_new. plain_test.
  destruct (style_eqb s st_new); reflexivity.     (* `!=` or `==` with the branches swapped *)
Qed.

(* impl Display for Style: `{:#}` is render_reset, anything else fmt_to *)
Lemma gr_style_fmt_eq s f : gr_style_fmt s (mkRnFmtr f []) = ok_fmt (rn_style_fmt s f).
Proof.
  unfold gr_style_fmt, rn_style_fmt, fr_alternate. cbn [fr_fmt]. rewrite gr_style_render_reset_eq, gr_style_fmt_to_eq.
  destruct (fm_alternate f); cbn [negb]; try destruct (rn_style_fmt_to s f); reflexivity.
Qed.

(* impl Display for StyleDisplay, on what Style::render returns *)
Lemma gr_style_display_fmt_eq s f : gr_style_display_fmt (gr_style_render s) (mkRnFmtr f []) = ok_fmt (rn_style_fmt_to s f).
Proof.
  unfold gr_style_display_fmt, gr_style_render, rn_sd_f0, rn_sd_new. rewrite gr_style_fmt_to_eq.
  destruct (rn_style_fmt_to s f); reflexivity.
Qed.

(* format!("{:<flags>}", x): a fresh String (a sink that never fails), the Display impl, the text; an Err
   from a Display impl makes format! / to_string panic *)
Definition gr_format (alternate : bool) (flags : rn_flags) (fmt : rn_fmtr -> option (rn_fmtr * (unit + unit))) : option (list N) :=
  '(f, r) <- fmt (mkRnFmtr (mkRnFmt alternate flags []) []) ;;
  match r with inl _ => Some (fm_out (fr_fmt f)) | inr _ => None end.

Lemma gr_format_ok alternate flags fmt hand :
  (forall f, fmt (mkRnFmtr f []) = ok_fmt (hand f)) -> gr_format alternate flags fmt = rn_format alternate flags hand.
Proof.
  intros H. unfold gr_format, rn_format. rewrite H. destruct (hand _); reflexivity.
Qed.

(* format!("{..}", style) *)
Theorem translated_display_is_model alternate flags s :
  gr_format alternate flags (gr_style_fmt s) = rn_display alternate flags s.
Proof. apply gr_format_ok. intros f. apply gr_style_fmt_eq. Qed.

(* format!("{..}", style.render()) *)
Theorem translated_render_is_model alternate flags s :
  gr_format alternate flags (gr_style_display_fmt (gr_style_render s)) = rn_display_render alternate flags s.
Proof. apply gr_format_ok. intros f. apply gr_style_display_fmt_eq. Qed.

(* style.render().to_string() *)
Definition gr_render_style (s : style) : option (list N) :=
  gr_format false rn_no_flags (gr_style_display_fmt (gr_style_render s)).

Theorem translated_render_style_is_model s : gr_render_style s = rn_render_style s.
Proof. apply translated_render_is_model. Qed.

(* format!("{..}", style.render_reset()) *)
Theorem translated_render_reset_is_model alternate flags s :
  gr_format alternate flags (fun f => Some (gr_null_fmt (gr_style_render_reset s) f)) = rn_display_reset_of alternate flags s.
Proof. apply gr_format_ok. intros f. rewrite gr_style_render_reset_eq. apply gr_null_fmt_eq. Qed.

(* the other Display values: Effects::render, Color::render_fg / render_bg, AnsiColor::render_fg / render_bg
   (a NullFormatter over as_fg_str / as_bg_str), Reset / Reset.render() *)
Theorem translated_displays_are_model alternate flags :
  (forall e, gr_format alternate flags (gr_effects_fmt (g_eff_render e)) = rn_display_effects alternate flags e) /\
  (forall c, gr_format alternate flags (fun f => d <- gr_color_render_fg (rn_color_view_of c) ;; gr_dbuf_fmt d f)
             = rn_display_color_fg alternate flags c) /\
  (forall c, gr_format alternate flags (fun f => d <- gr_color_render_bg (rn_color_view_of c) ;; gr_dbuf_fmt d f)
             = rn_display_color_bg alternate flags c) /\
  (forall a, gr_format alternate flags (fun f => nf <- gr_ansi_render_fg a ;; Some (gr_null_fmt nf f))
             = rn_display_ansi_fg alternate flags a) /\
  (forall a, gr_format alternate flags (fun f => nf <- gr_ansi_render_bg a ;; Some (gr_null_fmt nf f))
             = rn_display_ansi_bg alternate flags a) /\
  gr_format alternate flags (fun f => Some (gr_reset_fmt (gr_reset_render tt) f)) = rn_display_reset alternate flags.
Proof.
  refine (conj _ (conj _ (conj _ (conj _ (conj _ _))))).
  - intros e. apply gr_format_ok. intros f. rewrite g_eff_render_eq. apply gr_effects_fmt_eq.
  - intros c. apply gr_format_ok. intros f. apply gr_color_fmt_fg.
  - intros c. apply gr_format_ok. intros f. apply gr_color_fmt_bg.
  - intros a. apply gr_format_ok. intros f. unfold gr_ansi_render_fg. rewrite gr_ansi_fg_str_eq. reflexivity.
  - intros a. apply gr_format_ok. intros f. unfold gr_ansi_render_bg. rewrite gr_ansi_bg_str_eq. reflexivity.
  - apply gr_format_ok. intros f. apply gr_reset_fmt_eq.
Qed.

(* Ansi256Color / RgbColor::render_fg / render_bg return the as_*_buffer value *)
Theorem translated_color_renders_are_buffers :
  (forall n, gr_shown (gr_a256_render_fg n) = rn_ansi256_fg_buffer n) /\
  (forall n, gr_shown (gr_a256_render_bg n) = rn_ansi256_bg_buffer n) /\
  (forall r g b, gr_shown (gr_rgb_render_fg (r, g, b)) = rn_rgb_fg_buffer r g b) /\
  (forall r g b, gr_shown (gr_rgb_render_bg (r, g, b)) = rn_rgb_bg_buffer r g b).
Proof.
  refine (conj _ (conj _ (conj _ _))); intros.
  - unfold gr_a256_render_fg. rewrite (bind_some_id' (gr_a256_fg_buffer n)). apply shown_of_sim, gr_a256_fg_sim.
  - unfold gr_a256_render_bg. rewrite (bind_some_id' (gr_a256_bg_buffer n)). apply shown_of_sim, gr_a256_bg_sim.
  - unfold gr_rgb_render_fg. rewrite (bind_some_id' (gr_rgb_fg_buffer (r, g, b))). apply shown_of_sim, gr_rgb_fg_sim.
  - unfold gr_rgb_render_bg. rewrite (bind_some_id' (gr_rgb_bg_buffer (r, g, b))). apply shown_of_sim, gr_rgb_bg_sim.
Qed.

(* The io::Write side: DisplayBuffer::write_to, Color::write_*_to, Effects::write_to, Style::write_to,
   Style::write_reset_to.  `write: &mut dyn io::Write` is the scripted writer of Spec/Io.v (it may accept short, fail, be
   interrupted); `write.write_all(buf)` is std's default method [w_write_all]. *)

Definition w_never_fails (w : writer) : Prop := w_script w = [].

Lemma w_acc_ok w b : w_never_fails w -> exists w1, w_write_all w b = (w1, inl tt) /\ w_never_fails w1.
Proof.
  intros Hs. destruct (w_write_all_accept_all w b Hs) as (w1 & E1 & Hs1 & _). exists w1. auto.
Qed.

Notation iosim := (wsim w_write_all w_never_fails).
Notation io_bufs := (wr_bufs w_write_all).

Lemma io_bufs_received bufs : forall w, w_script w = [] ->
  exists o, io_bufs w bufs = (o, inl tt) /\ w_received o = w_received w ++ concat bufs.
Proof.
  induction bufs as [|b t IH]; intros w Hs.
  - exists w. cbn. rewrite app_nil_r. auto.
  - destruct (w_write_all_accept_all w b Hs) as (w1 & E1 & Hs1 & Hr1).
    destruct (IH w1 Hs1) as (o & Eo & Hro). exists o. rewrite wr_bufs_cons, E1. split; [exact Eo|].
    rewrite Hro, Hr1. cbn [concat]. rewrite app_assoc. reflexivity.
Qed.

(* DisplayBuffer::write_to on the buffer a translated builder returned *)
Lemma iosim_buffer x : iosim (fun w => d <- x ;; gr_dbuf_write_to d w) (rn_buffer_write_to (gr_shown x)).
Proof.
  eapply wsim_ext; [|apply (wsim_one w_write_all w_never_fails (gr_shown x))].
  intros w. unfold gr_shown, gr_dbuf_write_to. destruct x as [d|]; [|reflexivity].
  destruct (gr_as_str d) as [b|]; [|reflexivity]. destruct (w_write_all w b). reflexivity.
Qed.

(* Color::write_fg_to / write_bg_to / write_underline_to: the buffer of render_*, then write_to *)
Lemma gr_color_write_fg_to_shape v w : gr_color_write_fg_to v w = (d <- gr_color_render_fg v ;; gr_dbuf_write_to d w).
Proof.
  unfold gr_color_write_fg_to, gr_color_render_fg. destruct v;
    match goal with |- context [match ?x with Some r => Some r | None => None end] => destruct x as [d|] end;
    try reflexivity; destruct (gr_dbuf_write_to d w) as [[? ?]|]; reflexivity.
Qed.
Lemma gr_color_write_bg_to_shape v w : gr_color_write_bg_to v w = (d <- gr_color_render_bg v ;; gr_dbuf_write_to d w).
Proof.
  unfold gr_color_write_bg_to, gr_color_render_bg. destruct v;
    match goal with |- context [match ?x with Some r => Some r | None => None end] => destruct x as [d|] end;
    try reflexivity; destruct (gr_dbuf_write_to d w) as [[? ?]|]; reflexivity.
Qed.
Lemma gr_color_write_underline_to_shape v w :
  gr_color_write_underline_to v w = (d <- gr_color_render_underline v ;; gr_dbuf_write_to d w).
Proof.
  unfold gr_color_write_underline_to, gr_color_render_underline. destruct v;
    match goal with |- context [match ?x with Some r => Some r | None => None end] => destruct x as [d|] end;
    try reflexivity; destruct (gr_dbuf_write_to d w) as [[? ?]|]; reflexivity.
Qed.

Lemma iosim_color_fg c : iosim (gr_color_write_fg_to (rn_color_view_of c)) (rn_buffer_write_to (rn_color_fg_buffer c)).
Proof.
  destruct (translated_buffers_are_model c) as (<- & _ & _).
  eapply wsim_ext; [intros w; apply gr_color_write_fg_to_shape | apply iosim_buffer].
Qed.
Lemma iosim_color_bg c : iosim (gr_color_write_bg_to (rn_color_view_of c)) (rn_buffer_write_to (rn_color_bg_buffer c)).
Proof.
  destruct (translated_buffers_are_model c) as (_ & <- & _).
  eapply wsim_ext; [intros w; apply gr_color_write_bg_to_shape | apply iosim_buffer].
Qed.
Lemma iosim_color_ul c : iosim (gr_color_write_underline_to (rn_color_view_of c)) (rn_buffer_write_to (rn_color_ul_buffer c)).
Proof.
  destruct (translated_buffers_are_model c) as (_ & _ & <-).
  eapply wsim_ext; [intros w; apply gr_color_write_underline_to_shape | apply iosim_buffer].
Qed.

(* Effects::write_to: one write_all per set effect, the first error leaves the loop *)
Lemma iosim_effects e : iosim (gr_effects_write_to e) (rn_write_effects e).
Proof.
  unfold gr_effects_write_to.
  change (iter_drain g_eff_index_iter_next (S (length metadata)) (g_eff_index_iter e)) with (g_eff_index_iter_items e).
  rewrite g_eff_index_iter_eq.
  match goal with |- context [for_list ?F _ _] => set (step := F) end.
  apply (wsim_effects_for w_write_all w_never_fails w_acc_ok step e).
  - intros i w. unfold step, md_escape. destruct (aget metadata i); reflexivity.
  - intros w. destruct (e_index_iter e) as [l|]; [|reflexivity]. unfold sres.
    destruct (for_list step l w) as [[st|[st rv]]|]; reflexivity.
Qed.

(* Style::write_to is the sequence effects, fg, bg, underline; every `?` returns the error *)
Lemma gr_style_write_to_shape s w :
  gr_style_write_to s w =
  seqw (gr_effects_write_to (st_eff s))
    (seqw (oslot gr_color_write_fg_to (rn_st_fg s))
      (seqw (oslot gr_color_write_bg_to (rn_st_bg s))
        (seqw (oslot gr_color_write_underline_to (rn_st_ul s)) retw))) w.
Proof.
  unfold gr_style_write_to. cbv zeta.
  apply seqw_q; intro w1. apply oslot_q; intro w2. apply oslot_q; intro w3.
  apply (oslot_q _ retw); intro w4. reflexivity.
Qed.

Lemma gr_style_write_to_sim s : iosim (gr_style_write_to s) (rn_write_slots s rn_write_order).
Proof.
  eapply wsim_ext; [intros w; apply gr_style_write_to_shape|].
  apply (wsim_style w_write_all w_never_fails w_acc_ok s).
  - apply iosim_effects.
  - apply iosim_color_fg.
  - apply iosim_color_bg.
  - apply iosim_color_ul.
Qed.

(* Style::write_to, any writer: the buffers of the hand model, written in order with write_all; the first
   error is returned and nothing more is written *)
Theorem translated_write_to_is_model s bufs w :
  rn_write_to s = Some bufs -> gr_style_write_to s w = Some (io_bufs w bufs).
Proof. apply (wsim_some w_write_all w_never_fails), gr_style_write_to_sim. Qed.

(* ... and on a writer that never fails, a panic included *)
Theorem translated_write_to_accept_all s w :
  w_script w = [] -> gr_style_write_to s w = option_map (io_bufs w) (rn_write_to s).
Proof. apply (wsim_acc w_write_all w_never_fails), gr_style_write_to_sim. Qed.

(* what such a writer has received is what `render()` shows (Proofs/Render.v paths_agree) *)
Theorem translated_write_to_bytes s bs :
  rn_render_style s = Some bs ->
  exists w, gr_style_write_to s (writer_of []) = Some (w, inl tt) /\ w_received w = bs.
Proof.
  intros E. rewrite <- paths_agree in E. destruct (rn_write_to s) as [bufs|] eqn:Eb; [|discriminate E].
  injection E as <-. rewrite (translated_write_to_is_model s bufs _ Eb).
  destruct (io_bufs_received bufs (writer_of []) eq_refl) as (o & -> & Hr). exists o. split; [reflexivity|exact Hr].
Qed.

Theorem translated_write_reset_to_is_model s w :
  gr_style_write_reset_to s w = Some (io_bufs w (rn_write_reset_to s)).
Proof.
  unfold gr_style_write_reset_to, rn_write_reset_to. plain_test.
  destruct (style_eqb s st_new); cbn [negb]; try reflexivity;
    rewrite wr_bufs_cons; destruct (w_write_all w rn_reset_str); reflexivity.
Qed.

(* The conversions into Color and the `on` / `on_default` constructors of a Style (color.rs)
   over the Rust enum [rn_color_view]; [rn_color_of_view] is the colour of Model/Style.v.  Style::new /
   fg_color / bg_color are the functions of Model/Style.v (translated and proved in StyleFn / StyleGen). *)

Lemma rn_color_of_view_of c : rn_color_of_view (rn_color_view_of c) = c.
Proof. destruct c; reflexivity. Qed.

Theorem translated_color_from_is_model :
  (forall a, rn_color_of_view (gr_color_from_ansi a) = CoAnsi a) /\
  (forall n, rn_color_of_view (gr_color_from_a256 n) = CoAnsi256 n) /\
  (forall r g b, rn_color_of_view (gr_color_from_rgb (r, g, b)) = CoRgb r g b) /\
  (forall n, rn_color_of_view (gr_color_from_u8 n) = CoAnsi256 n) /\
  (forall r g b, rn_color_of_view (gr_color_from_tuple (r, g, b)) = CoRgb r g b) /\
  (forall n, gr_a256_from_u8 n = n) /\
  (forall r g b, gr_rgb_from_tuple (r, g, b) = (r, g, b)).
Proof. repeat split. Qed.

(* `fg.on(bg)` = Style::new().fg_color(Some(fg)).bg_color(Some(bg)), `fg.on_default()` = ..fg_color(Some(fg)) *)
Definition st_on (fg bg : color) : style := st_bg_color (st_fg_color st_new (Some fg)) (Some bg).
Definition st_on_default (fg : color) : style := st_fg_color st_new (Some fg).

Theorem translated_on_is_model :
  (forall c b, gr_color_on (rn_color_view_of c) (rn_color_view_of b) = st_on c b) /\
  (forall a b, gr_ansi_on a (rn_color_view_of b) = st_on (CoAnsi a) b) /\
  (forall n b, gr_a256_on n (rn_color_view_of b) = st_on (CoAnsi256 n) b) /\
  (forall r g bl b, gr_rgb_on (r, g, bl) (rn_color_view_of b) = st_on (CoRgb r g bl) b) /\
  (forall c, gr_color_on_default (rn_color_view_of c) = st_on_default c) /\
  (forall a, gr_ansi_on_default a = st_on_default (CoAnsi a)) /\
  (forall n, gr_a256_on_default n = st_on_default (CoAnsi256 n)) /\
  (forall r g bl, gr_rgb_on_default (r, g, bl) = st_on_default (CoRgb r g bl)).
Proof.
  unfold gr_color_on, gr_ansi_on, gr_a256_on, gr_rgb_on, gr_color_on_default, gr_ansi_on_default, gr_a256_on_default,
    gr_rgb_on_default, st_on, st_on_default, rn_st_fg_color, rn_st_bg_color.
  rewrite g_st_new_eq.
  refine (conj _ (conj _ (conj _ (conj _ (conj _ (conj _ (conj _ _))))))); intros; cbn [option_map];
    rewrite ?rn_color_of_view_of; reflexivity.
Qed.

(* what `style.render().to_string()` of the TRANSLATED code gives is SGR only and reads back as the style *)
Theorem translated_render_roundtrip s :
  rn_wf (rn_sstyle s) -> rn_at_most_one_underline_kind (rn_sstyle s) ->
  exists bs, gr_render_style s = Some bs /\
             spec_events bs = map rn_sgr (rn_groups_of (rn_sstyle s)) /\
             rn_interp_style (spec_events bs) style_default = rn_norm (rn_sstyle s).
Proof.
  intros Hwf H1. rewrite translated_render_style_is_model.
  destruct (render_is_sgr_only s Hwf) as (bs & E & Hev).
  destruct (render_roundtrip s Hwf H1) as (bs' & E' & Hrt). rewrite E in E'. injection E' as <-.
  exists bs. auto.
Qed.

(* `{}` of the translated Display is render, `{:#}` is render_reset, whatever width / fill / align / precision *)
Theorem translated_display_forms flags s :
  gr_format false flags (gr_style_fmt s) = gr_render_style s /\
  gr_format true flags (gr_style_fmt s) = Some (gr_style_render_reset s).
Proof.
  rewrite !translated_display_is_model, translated_render_style_is_model, gr_style_render_reset_eq.
  apply display_forms.
Qed.
