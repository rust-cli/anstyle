(* The SGR codes of ECMA-48 that switch an effect on, as the styling libraries of C16 print
   them: a run of such codes acts on the effects only, as Proofs/Render.v [eff_step] of their effects; and while no
   underline kind but the first is involved, that is setting the effects' bits. *)
From Coq Require Import NArith List Bool.
From AV Require Import Spec.Sgr Proofs.Render Proofs.SgrRender.
Import ListNotations.
Local Open Scope N_scope.

(* code, effect: 5 (slow) and 6 (rapid) both blink *)
Definition effect_codes : list (N * N) :=
  [(1, BOLD); (2, DIMMED); (3, ITALIC); (4, UNDERLINE); (5, BLINK); (6, BLINK); (7, INVERT); (8, HIDDEN);
   (9, STRIKETHROUGH); (21, DOUBLE_UNDERLINE)].

Lemma effect_code_step c k : In (c, k) effect_codes ->
  ext_target c = None /\ forall s, sgr_code s c = mkStyle (s_fg s) (s_bg s) (s_ul s) (eff_step (s_eff s) k).
Proof.
  intros H. cbn [In effect_codes] in H. repeat (destruct H as [[= <- <-]|H]; [split; reflexivity|]). destruct H.
Qed.

(* [l] lists what is printed, [code] and [eff] give the code printed for an entry and the effect it stands for *)
Lemma effect_codes_apply {A} (code eff : A -> N) l : Forall (fun a => In (code a, eff a) effect_codes) l ->
  forall s rest,
  sgr_groups s (map (fun a => [code a]) l ++ rest) =
  sgr_groups (mkStyle (s_fg s) (s_bg s) (s_ul s) (fold_left eff_step (map eff l) (s_eff s))) rest.
Proof.
  induction 1 as [|a t H _ IH]; intros s rest; cbn [map app fold_left]; [now destruct s|].
  destruct (effect_code_step _ _ H) as [T S]. now rewrite (sgr_groups_code _ s _ T), S, IH.
Qed.

(* while none of the underline kinds 4 .. 7 is on, and none is selected, selecting is setting the bit *)
Lemma eff_step_lor e i : N.land e 240 = 0 -> (is_ul i = true -> i = UNDERLINE) ->
  eff_step e i = N.lor e (bit i) /\ N.land (N.lor e (bit i)) 240 = 0.
Proof.
  intros He Hi. unfold eff_step. destruct (is_ul i) eqn:U.
  - rewrite (Hi eq_refl). split; [|now rewrite N.land_lor_distr_l, He].
    apply N.bits_inj. intros j. rewrite !N.lor_spec, N.ldiff_spec.
    apply (f_equal (fun x => N.testbit x j)) in He. rewrite N.land_spec, N.bits_0 in He.
    change underline_mask with (N.lor 240 (bit UNDERLINE)). rewrite N.lor_spec.
    destruct (N.testbit e j), (N.testbit 240 j), (N.testbit (bit UNDERLINE) j); try reflexivity; discriminate.
  - split; [reflexivity|]. rewrite N.land_lor_distr_l, He. apply N.bits_inj. intros j.
    rewrite N.lor_spec, N.land_spec, bit_testbit, !N.bits_0. cbn [orb].
    destruct (N.eqb_spec i j) as [<-|]; [|reflexivity].
    pose proof (mask_bits i) as M. rewrite U in M. change underline_mask with (N.lor 240 8) in M.
    rewrite N.lor_spec in M. now apply orb_false_iff in M.
Qed.

(* the entries of a table that are selected, printed in table order, from effects [e] *)
Lemma plain_effects_fold {A} (on : A -> bool) (eff : A -> N) l :
  Forall (fun a => is_ul (eff a) = true -> eff a = UNDERLINE) l -> forall e, N.land e 240 = 0 ->
  fold_left eff_step (map eff (filter on l)) e =
  N.lor e (fold_right (fun a acc => if on a then N.lor (bit (eff a)) acc else acc) 0 l).
Proof.
  induction 1 as [|a t H _ IH]; intros e He; cbn [filter fold_right]; [symmetry; apply N.lor_0_r|].
  destruct (on a); [|now apply IH]. cbn [map fold_left].
  destruct (eff_step_lor e (eff a) He H) as [-> He']. rewrite (IH _ He'). symmetry. apply N.lor_assoc.
Qed.
