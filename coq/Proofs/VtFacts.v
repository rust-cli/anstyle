(* Proofs/VtFacts.v -- finite facts about the by-range transition function
   [Spec/Vt.vt_trans] (14 states x 256 bytes, complete enumeration in the kernel):
   which states read the bookkeeping, and that every transition into such a state
   passes an entry action that clears it.  No model function occurs in a statement. *)
From Coq Require Import NArith List Bool Lia.
From AV Require Import Spec.Utf8 Spec.Vt Model.Base Proofs.TableFacts.
Import ListNotations.
Local Open Scope N_scope.

Definition all_vstates : list vstate :=
  [VGround; VEscape; VEscInt; VCsiEntry; VCsiParam; VCsiInt; VCsiIgnore;
   VDcsEntry; VDcsParam; VDcsInt; VDcsPass; VDcsIgnore; VOsc; VSos].

Lemma all_vstates_In : forall v, In v all_vstates.
Proof. intros []; cbn; tauto. Qed.

Lemma forall_vstates_bytes (P : vstate -> N -> bool) :
  forallb (fun v => forallb (P v) all_bytes) all_vstates = true ->
  forall v b, b < 256 -> P v b = true.
Proof.
  intros H v b Hb. rewrite forallb_forall in H.
  pose proof (H v (all_vstates_In v)) as Hv. cbv beta in Hv.
  now apply (forall_bytes _ Hv).
Qed.

(* the states whose actions / outgoing entry actions read the bookkeeping
   (intermediates, flag, parameter groups, pending value) *)
Definition reads (v : vstate) : bool :=
  match v with
  | VEscape | VEscInt | VCsiEntry | VCsiParam | VCsiInt | VDcsEntry | VDcsParam | VDcsInt => true
  | _ => false
  end.

(* the states whose entry action clears the bookkeeping *)
Definition clears (v : vstate) : bool :=
  match v with VEscape | VCsiEntry | VDcsEntry => true | _ => false end.

(* actions that read or write the bookkeeping *)
Definition needs_book (a : vact) : bool :=
  match a with TCollect | TParam | TEscDispatch | TCsiDispatch => true | _ => false end.

Definition is_dispatch (a : vact) : bool :=
  match a with TEscDispatch | TCsiDispatch => true | _ => false end.

Definition trans_ok (v : vstate) (b : N) : bool :=
  let '(tgt, a) := vt_trans v b in
  implb (needs_book a) (reads v)
  && implb (vact_eqb a TParam) (in_range 48 59 b)
  && implb (vact_eqb a TOscPut) (vstate_eqb v VOsc && opt_vstate_eqb tgt None)
  && implb (is_dispatch a) (opt_vstate_eqb tgt (Some VGround))
  && implb (vact_eqb a TUtf8)
       (vstate_eqb v VGround && opt_vstate_eqb tgt None
        && match utf8_lead b with Some _ => true | None => false end)
  (* a reading state that does not clear, and DCS passthrough (whose entry action
     reports the parameters), are entered only from reading states *)
  && match tgt with
     | Some t => implb ((reads t && negb (clears t)) || vstate_eqb t VDcsPass)
                       (reads v && negb (is_dispatch a))
     | None => true
     end.

Lemma trans_ok_all :
  forallb (fun v => forallb (trans_ok v) all_bytes) all_vstates = true.
Proof. vm_compute. reflexivity. Qed.

Record trans_facts (v : vstate) (b : N) : Prop := {
  tf_book : needs_book (snd (vt_trans v b)) = true -> reads v = true;
  tf_param : snd (vt_trans v b) = TParam -> 48 <= b <= 59;
  tf_oscput : snd (vt_trans v b) = TOscPut -> v = VOsc /\ fst (vt_trans v b) = None;
  tf_dispatch : is_dispatch (snd (vt_trans v b)) = true -> fst (vt_trans v b) = Some VGround;
  tf_utf8 : snd (vt_trans v b) = TUtf8 ->
            v = VGround /\ fst (vt_trans v b) = None /\ exists u, utf8_lead b = Some u;
  tf_enter : forall t, fst (vt_trans v b) = Some t ->
             (reads t = true /\ clears t = false) \/ t = VDcsPass ->
             reads v = true /\ is_dispatch (snd (vt_trans v b)) = false
}.

Lemma vt_trans_facts : forall v b, b < 256 -> trans_facts v b.
Proof.
  intros v b Hb. pose proof (forall_vstates_bytes _ trans_ok_all v b Hb) as H. unfold trans_ok in H.
  destruct (vt_trans v b) as [tgt a] eqn:E.
  repeat rewrite andb_true_iff in H.
  destruct H as [[[[[H1 H2] H3] H4] H5] H6].
  constructor; rewrite E; cbn [fst snd].
  - intros Hn. rewrite Hn in H1. exact H1.
  - intros ->. cbn [vact_eqb implb] in H2. apply andb_true_iff in H2. destruct H2 as [A B]. apply N.leb_le in A, B. lia.
  - intros ->. cbn [vact_eqb implb] in H3. apply andb_true_iff in H3. destruct H3 as [A B].
    split; [now apply vstate_eqb_eq | now apply opt_vstate_eqb_eq].
  - intros Hd. rewrite Hd in H4. now apply opt_vstate_eqb_eq.
  - intros ->. cbn [vact_eqb implb] in H5. repeat rewrite andb_true_iff in H5. destruct H5 as [[A B] C].
    apply vstate_eqb_eq in A. apply opt_vstate_eqb_eq in B.
    destruct (utf8_lead b) as [u|]; [eauto | discriminate].
  - intros t ->. intros Ht.
    assert (Hc : (reads t && negb (clears t)) || vstate_eqb t VDcsPass = true).
    { destruct Ht as [[A B]| ->]; [rewrite A, B; reflexivity | apply orb_true_r]. }
    rewrite Hc in H6. apply andb_true_iff in H6. destruct H6 as [A B].
    split; [exact A | now apply negb_true_iff in B].
Qed.
