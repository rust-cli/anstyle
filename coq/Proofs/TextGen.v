(* The translated text parsers (Generated/TextFn.v = Generated/LsFn.v + Generated/GitFn.v,
   written by tools/gen_fn_text.py on every run) against the hand models.  The proofs are in
   Proofs/LsGen.v and Proofs/GitGen.v, so that C12 depends on the anstyle-ls half only and C11
   on the anstyle-git half only; this file states the entry points together. *)
From Coq Require Import NArith List Bool.
From AV Require Import Spec.StyleRec Model.Base Model.Text Model.Ls Model.Git Generated.TextFn Proofs.LsGen Proofs.GitGen.
Import ListNotations.
Local Open Scope N_scope.

(* both public entry points, for every input: same answer, panics (None) included; the git
   Result is compared through [git_result_of], which keeps the word of an error, and the other
   field of an error is the input itself *)
Theorem translated_text_parsers_are_model :
  (forall s, g_ls_parse s = ls_parse s) /\
  (forall s, option_map git_result_of (g_git_parse s) = git_parse s) /\
  (forall s r, g_git_parse s = Some r -> match git_error_style r with Some s' => s' = s | None => True end).
Proof. exact (conj g_ls_parse_eq (conj g_git_parse_eq g_git_parse_error_style)). Qed.
