(* The print macros (Generated/MacrosFn.v) composed with the colour decision of C09 (the hand model
   Model/Choice.v choice_model, which Proofs/ChoiceGen.v proves equal to the TRANSLATED `choice(&raw)`; this file uses
   Model/Choice.v and Proofs/Choice.v only, not the translation Generated/ChoiceFn.v):
   when the answers of the std handle a macro names are what `choice(&raw)` decides for that handle's own terminal-ness,
   the macro strips exactly when C09's decision list says Never, and writes to that handle. *)
From Coq Require Import NArith List Bool.
From AV Require Import Spec.Io Spec.Choice Generated.Choice Model.Base Model.Choice Proofs.Choice
  Model.Stream Model.Glue Generated.AutoFn Generated.MacrosFn Proofs.AutoGen Proofs.MacrosGen.
Import ListNotations.
Local Open Scope N_scope.

(* colorchoice::ColorChoice in the vocabulary of Spec/Choice.v (C09) and of Model/Stream.v (C08) *)
Definition cchoice_of (c : choice) : cchoice :=
  match c with ChAuto => CAuto | ChAlwaysAnsi => CAlwaysAnsi | ChAlways => CAlways | ChNever => CNever end.

(* the answers of a std handle whose `is_terminal()` is [tty], in a process with environment [e] and global choice [g]:
   `choice(&raw)` is the hand model of C09 (= the translated g_choice, translated_choice_is_model) *)
Definition cf_of_choice (g : choice) (e : ch_env) (tty wv : bool) : acfg :=
  mkACfg (cchoice_of (choice_model g e tty)) tty wv.

Lemma cchoice_of_auto c : cchoice_of c = CAuto -> c = ChAuto.
Proof. destruct c; intros H; [reflexivity|discriminate..]. Qed.

Lemma mac_mode_of_choice c : c <> ChAuto -> mac_mode (cchoice_of c) = match c with ChNever => MStrip | _ => MPass end.
Proof. destruct c; intros H; [congruence|reflexivity..]. Qed.

Theorem translated_print_follows_choice :
  forall lossy fmt_nl (err nl : bool) cfv ch g e (tty_out tty_err wv : bool) (so se : writer) world args,
  let tty := if err then tty_err else tty_out in
  (* the decision of `choice(&raw)` for the terminal-ness of the handle THIS macro names *)
  let d := choice_model g e tty in
  d = choice_spec g e tty /\ d <> ChAuto /\
  mac_arm lossy fmt_nl err nl false false cfv ch (cf_of_choice g e tty wv) so se world args =
  match auto_op wv (match d with ChNever => MStrip | _ => MPass end) sb_new (if err then se else so)
                (OWriteFmt (if nl then fmt_nl args else args)) with
  | Some (s1, w1, r) =>
      Some (world ++ MWriteFmt (as_of (match d with ChNever => MStrip | _ => MPass end) s1 w1)
                               (match r with RErr e => inr e | _ => inl tt end)
                     :: match r with RErr e => [MPanicIo (if err then mac_msg_stderr else mac_msg_stdout) e] | _ => [] end)
  | None => None
  end.
Proof.
  intros lossy fmt_nl err nl cfv ch g e tty_out tty_err wv so se world args tty d.
  pose proof (choice_never_auto g e tty) as Hna. fold d in Hna.
  split; [apply choice_is_spec|]. split; [exact Hna|].
  rewrite translated_print_writes_own_stream.
  - unfold cf_of_choice. cbn [ac_decided ac_wv_all]. fold tty. fold d. rewrite (mac_mode_of_choice _ Hna). reflexivity.
  - unfold cf_of_choice. cbn [ac_decided]. intros H. apply Hna, cchoice_of_auto, H.
Qed.
