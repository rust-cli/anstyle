(* Proofs/ParserGen.v -- the functions TRANSLATED from crates/anstyle-parse/src
   (Generated/ParserFn.v, written by tools/gen_fn_parser.py on every run) are
   extensionally equal to the hand model Model/Parser.v that the theorems of
   C02 / C20 / C04 are about.  A change to the Rust functions changes the
   translation; if it changes their meaning, one of these proofs fails. *)
From Coq Require Import NArith List Bool Lia.
From AV Require Import Generated.Table Spec.Vt Model.Base Model.Imp Model.Utf8parse Model.Parser Generated.ParserFn Proofs.BaseFacts.
Import ListNotations.
Local Open Scope N_scope.

(* the translated functions thread the performer as the list of events so far; [acc perf r] is
   the hand model's answer [r] appended to it *)
Definition acc {A} (perf : list event) (r : option (A * list event)) : option (A * list event) :=
  match r with Some (a, e) => Some (a, perf ++ e) | None => None end.

(* case analysis on the innermost discriminee, so that a subterm shared by both sides is
   destructed once *)
Ltac des1 :=
  match goal with
  | |- context [match ?x with _ => _ end] =>
      lazymatch x with
      | context [match _ with _ => _ end] => fail
      | _ => destruct x eqn:?
      end
  end.
Ltac setters :=
  unfold set_osc_num, set_osc_params, set_osc_raw, set_intermediates, set_intermediate_idx, set_osc, set_inter,
         set_state, set_params, set_param, set_ignoring, set_utf8;
  cbn [pstate intermediates intermediate_idx pparams pparam osc_raw osc_params osc_num_params ignoring utf8_parser].

(* two hypotheses about the SAME term (syntactically: a non-linear pattern `?t .. ?t` would be matched up to conversion,
   which unfolds e.g. `osc_dispatch` against every other left-hand side) *)
Ltac unify_eqs :=
  repeat match goal with
         | H1 : ?t = _, H2 : ?u = _ |- _ => constr_eq t u; rewrite H1 in H2; inversion H2; subst; clear H2
         end.

Lemma g_params_len_eq c q : g_params_len c q = plen q.
Proof. reflexivity. Qed.

Lemma g_params_is_empty_eq c q : g_params_is_empty c q = (plen q =? 0).
Proof. reflexivity. Qed.

Lemma g_params_is_full_eq c q : g_params_is_full c q = params_is_full q.
Proof. reflexivity. Qed.

Lemma g_params_clear_eq c q : g_params_clear c q = params_clear q.
Proof. destruct q; reflexivity. Qed.

Lemma g_params_push_eq c q i : g_params_push c q i = params_push q i.
Proof.
  destruct q as [sp pv cs ln]. unfold g_params_push, params_push.
  cbn [subparams pvals current_subparams plen set_subparams set_pvals set_cursub set_plen].
  destruct (cadd 8 cs 1); destruct (csub ln cs); reflexivity.
Qed.

Lemma g_params_extend_eq c q i : g_params_extend c q i = params_extend q i.
Proof.
  destruct q as [sp pv cs ln]. unfold g_params_extend, params_extend.
  cbn [subparams pvals current_subparams plen set_subparams set_pvals set_cursub set_plen].
  destruct (cadd 8 cs 1); destruct (csub ln cs); reflexivity.
Qed.

Lemma g_state_change__eq c s b : g_state_change_ c s b = state_change_ s b.
Proof.
  unfold g_state_change_, state_change_.
  destruct (aget state_changes (state_disc s)); try reflexivity.
  destruct (aget l b); reflexivity.
Qed.

(* definitions::unpack: transmute::<u8, State>(delta & 0x0f) / transmute::<u8, Action>(delta >> 4), read as the
   discriminant decoders *)
Lemma g_unpack_eq c delta : g_unpack c delta = unpack delta.
Proof.
  unfold g_unpack, unpack. destruct (state_of_disc (N.land delta 15)); [|reflexivity].
  destruct (action_of_disc (N.shiftr delta 4)); reflexivity.
Qed.

Lemma g_state_change_eq c s b : g_state_change c s b = state_change s b.
Proof.
  unfold g_state_change, state_change. rewrite !g_state_change__eq.
  destruct (state_change_ Anywhere b) as [c0|]; try reflexivity.
  destruct (c0 =? 0).
  - destruct (state_change_ s b); try reflexivity. rewrite g_unpack_eq. destruct (unpack n); reflexivity.
  - rewrite g_unpack_eq. destruct (unpack c0); reflexivity.
Qed.

Lemma g_intermediates_eq c p : g_intermediates c p = intermediates_of p.
Proof.
  unfold g_intermediates, intermediates_of.
  destruct (slice (intermediates p) 0 (intermediate_idx p)); reflexivity.
Qed.

(* the character accumulators: Utf8Parser::add / AsciiParser::add (with the translated utf8parse callbacks),
   dispatched on the `utf8` feature, are the hand model's char_add *)

Lemma g_receiver_codepoint_eq o ch : g_receiver_codepoint o ch = Some ch.
Proof. reflexivity. Qed.

Lemma g_receiver_invalid_sequence_eq o : g_receiver_invalid_sequence o = Some 65533.
Proof. reflexivity. Qed.

Lemma g_utf8_parser_add_eq c u b :
  g_utf8_parser_add c u b = char_add (mkCfg (osc_cap c) true) u b.
Proof.
  unfold g_utf8_parser_add, char_add, pu_inner, set_pu_inner. cbn [utf8_on]. cbv zeta.
  destruct (u8_parser_advance u b) as [u' o]. destruct o; reflexivity.
Qed.

Lemma g_ascii_parser_add_eq c u b :
  g_ascii_parser_add c u b = char_add (mkCfg (osc_cap c) false) u b.
Proof. reflexivity. Qed.

Lemma g_char_add_eq c u b : g_char_add c u b = char_add c u b.
Proof.
  unfold g_char_add. rewrite g_utf8_parser_add_eq, g_ascii_parser_add_eq.
  unfold char_add. cbn [utf8_on]. destruct (utf8_on c); reflexivity.
Qed.

(* ParamsIter: new / iter / into_iter / next / size_hint; the drained iterator is params_groups *)

Lemma g_params_iter_new_eq c q : g_params_iter_new c q = mkPIt q 0.
Proof. reflexivity. Qed.

Lemma g_params_iter_eq c q : g_params_iter c q = mkPIt q 0.
Proof. reflexivity. Qed.

Lemma g_params_into_iter_eq c q : g_params_into_iter c q = mkPIt q 0.
Proof. reflexivity. Qed.

(* one call of next: the hand model's fuelled collection, unfolded once *)
Definition params_next (it : params_it) : option (params_it * option (list N)) :=
  if plen (pit_params it) <=? pit_index it then Some (it, None)
  else
    num <- aget (subparams (pit_params it)) (pit_index it) ;;
    g <- slice (pvals (pit_params it)) (pit_index it) (pit_index it + num) ;;
    Some (mkPIt (pit_params it) (pit_index it + num), Some g).

(* goal-driven: the bounds test in either polarity (`index >= len` + early return, `if index < len { .. } else { None }`),
   the index update before or after the slice is taken, named intermediate values; a test is decided on its leftmost
   atom, so `a <? b` and `negb (b <=? a)` are the same case *)
Ltac test_atom c :=
  lazymatch c with
  | negb ?x => test_atom x
  | andb ?x _ => test_atom x
  | orb ?x _ => test_atom x
  | _ => c
  end.
Ltac opt_cases :=
  repeat first
    [ reflexivity
    | match goal with
      | |- context [if ?c then _ else _] =>
          let a := test_atom c in
          lazymatch a with true => fail | false => fail | _ => idtac end; destruct a
      | |- context [aget ?l ?i] => destruct (aget l i)
      | |- context [slice ?l ?a ?b] => destruct (slice l a b)
      end; cbn [negb andb orb] ].

Lemma g_params_iter_next_eq c it : g_params_iter_next c it = params_next it.
Proof.
  destruct it as [q i]. unfold g_params_iter_next, params_next, g_params_len, set_pit_index.
  cbv zeta. cbn [pit_params pit_index]. rewrite ?N.ltb_antisym.
  opt_cases.
Qed.

(* size_hint: lower and upper bound are both the number of VALUES not yet visited (not of groups) *)
Lemma g_params_iter_size_hint_eq c it :
  g_params_iter_size_hint c it =
  (d <- csub (plen (pit_params it)) (pit_index it) ;; Some (d, Some d)).
Proof. reflexivity. Qed.

Lemma iter_drain_S {I A} (next : I -> option (I * option A)) fuel it :
  iter_drain next (S fuel) it =
  match next it with
  | None => None
  | Some (_, None) => Some []
  | Some (it', Some x) => match iter_drain next fuel it' with Some xs => Some (x :: xs) | None => None end
  end.
Proof. reflexivity. Qed.

Lemma drain_params_iter c : forall fuel it,
  iter_drain (g_params_iter_next c) (S fuel) it = params_iter fuel (pit_params it) (pit_index it).
Proof.
  induction fuel as [|f IH]; intros it; rewrite iter_drain_S; cbn [params_iter]; rewrite g_params_iter_next_eq; unfold params_next.
  - destruct (plen (pit_params it) <=? pit_index it); [reflexivity|].
    destruct (aget (subparams (pit_params it)) (pit_index it)) as [num|]; [|reflexivity].
    destruct (slice (pvals (pit_params it)) (pit_index it) (pit_index it + num)); reflexivity.
  - destruct (plen (pit_params it) <=? pit_index it); [reflexivity|].
    destruct (aget (subparams (pit_params it)) (pit_index it)) as [num|]; [|reflexivity].
    destruct (slice (pvals (pit_params it)) (pit_index it) (pit_index it + num)) as [g|]; [|reflexivity].
    rewrite (IH (mkPIt (pit_params it) (pit_index it + num))). cbn [pit_params pit_index].
    destruct (params_iter f (pit_params it) (pit_index it + num)); reflexivity.
Qed.

Lemma g_params_groups_eq c q : g_params_groups c q = params_groups q.
Proof. unfold g_params_groups, params_groups. rewrite drain_params_iter. reflexivity. Qed.

(* #[derive(Default)] and Parser::new *)

Lemma g_params_default_eq c : g_params_default c = params_default.
Proof. reflexivity. Qed.

Lemma g_state_default_eq c : g_state_default c = default_state.
Proof. reflexivity. Qed.

Lemma g_parser_default_eq c : g_parser_default c = parser_new.
Proof. unfold g_parser_default, g_char_acc_default, parser_new. destruct (utf8_on c); reflexivity. Qed.

Lemma g_parser_new_eq c : g_parser_new c = parser_new.
Proof. unfold g_parser_new. apply g_parser_default_eq. Qed.

Lemma g_process_utf8_eq c p perf b :
  g_process_utf8 c p perf b = acc perf (process_utf8 c p b).
Proof.
  unfold g_process_utf8, process_utf8. rewrite g_char_add_eq.
  destruct (char_add c (utf8_parser p) b) as [[u o]|]; [|reflexivity].
  destruct o; cbn [acc]; rewrite ?app_nil_r; reflexivity.
Qed.

Lemma acc_nil {A} perf (a : A) : Some (a, perf) = acc perf (Some (a, [])).
Proof. cbn. rewrite app_nil_r. reflexivity. Qed.

(* Parser::osc_dispatch: the MaybeUninit slot array, filled for the first osc_num_params slots and read back
   as initialised, is the hand model's osc_slices *)

Fixpoint osc_fill (p : parser) (cnt : nat) (i : N) : option (list (list N)) :=
  match cnt with
  | O => Some []
  | S k =>
      '(a, b) <- aget (osc_params p) i ;;
      s <- slice (osc_raw p) a b ;;
      rest <- osc_fill p k (i + 1) ;;
      Some (s :: rest)
  end.

Lemma osc_fill_length p : forall cnt i fs, osc_fill p cnt i = Some fs -> length fs = cnt.
Proof.
  induction cnt as [|k IH]; intros i fs H; cbn [osc_fill] in H.
  - inversion H. reflexivity.
  - destruct (aget (osc_params p) i) as [[a b]|]; [|discriminate].
    destruct (slice (osc_raw p) a b); [|discriminate].
    destruct (osc_fill p k (i + 1)) eqn:E; [|discriminate]. inversion H. cbn [length]. rewrite (IH _ _ E). reflexivity.
Qed.

Lemma osc_slices_fill p : forall fuel i,
  (N.to_nat (osc_num_params p - i) <= fuel)%nat ->
  osc_slices fuel p i = osc_fill p (N.to_nat (osc_num_params p - i)) i.
Proof.
  induction fuel as [|f IH]; intros i H; cbn [osc_slices].
  - replace (N.to_nat (osc_num_params p - i)) with O by lia. reflexivity.
  - destruct (N.leb_spec (osc_num_params p) i) as [Hle|Hlt].
    + replace (N.to_nat (osc_num_params p - i)) with O by lia. reflexivity.
    + replace (N.to_nat (osc_num_params p - i)) with (S (N.to_nat (osc_num_params p - (i + 1)))) by lia.
      cbn [osc_fill]. destruct (aget (osc_params p) i) as [[a b]|]; [|reflexivity].
      destruct (slice (osc_raw p) a b); [|reflexivity]. rewrite IH by lia. reflexivity.
Qed.

Lemma firstn_enum_repeat {A} (x : A) : forall m k i,
  firstn m (penumerate_from i (repeat x k)) = penumerate_from i (repeat x (Nat.min m k)).
Proof.
  induction m as [|m IH]; intros k i; [reflexivity|].
  destruct k as [|k]; [reflexivity|]. cbn [repeat penumerate_from firstn Nat.min]. rewrite IH. reflexivity.
Qed.

Lemma assume_init_map_some {A} (l : list A) : mu_assume_init_slice (map Some l) = Some l.
Proof. induction l as [|h t IH]; cbn [map mu_assume_init_slice]; [reflexivity|]. rewrite IH. reflexivity. Qed.

(* the fill loop, for ANY body that does what one iteration of the Rust loop does *)
Lemma osc_fill_loop p (F : N * option (list N) -> list (option (list N)) -> option (bctl (list (option (list N))))) :
  (forall i s sl, F (i, s) sl =
     (el <- aget (osc_params p) i ;;
      sl' <- slice (osc_raw p) (fst el) (snd el) ;;
      arr <- aset sl i (Some sl') ;;
      Some (BNext arr))) ->
  forall cnt pre post,
  for_list0 F (penumerate_from (N.of_nat (length pre)) (repeat None cnt)) (map Some pre ++ repeat None cnt ++ post) =
  match osc_fill p cnt (N.of_nat (length pre)) with
  | Some fs => Some (map Some (pre ++ fs) ++ post)
  | None => None
  end.
Proof.
  intros HF. induction cnt as [|k IH]; intros pre post; cbn [repeat penumerate_from for_list0 osc_fill app].
  - rewrite app_nil_r. reflexivity.
  - rewrite HF. destruct (aget (osc_params p) (N.of_nat (length pre))) as [[a b]|]; [|reflexivity]. cbn [fst snd].
    destruct (slice (osc_raw p) a b) as [s|]; [|reflexivity].
    pose proof (aset_mid (map Some pre) None (Some s) (repeat None k ++ post)) as Hset.
    rewrite len_map in Hset. unfold len in Hset. rewrite Hset. clear Hset.
    replace (N.of_nat (length pre) + 1) with (N.of_nat (length (pre ++ [s]))) by (rewrite app_length; cbn [length]; lia).
    replace (map Some pre ++ Some s :: repeat None k ++ post) with (map Some (pre ++ [s]) ++ repeat None k ++ post)
      by (rewrite map_app, <- app_assoc; reflexivity).
    rewrite IH. destruct (osc_fill p k (N.of_nat (length (pre ++ [s])))) as [fs|]; [|reflexivity].
    rewrite <- app_assoc. reflexivity.
Qed.

Lemma g_osc_dispatch_eq c p perf b : g_osc_dispatch c p perf b = osc_dispatch_acc p perf b.
Proof.
  unfold g_osc_dispatch, osc_dispatch_acc, osc_dispatch. cbv zeta.
  match goal with |- context [for_list0 ?f _ _] => set (F := f) end.
  assert (HF : forall i s sl, F (i, s) sl =
     (el <- aget (osc_params p) i ;;
      sl' <- slice (osc_raw p) (fst el) (snd el) ;;
      arr <- aset sl i (Some sl') ;;
      Some (BNext arr))) by (intros; reflexivity).
  unfold mu_take_enum, mu_uninit_array, penumerate. rewrite firstn_enum_repeat.
  set (n := osc_num_params p). set (K := N.to_nat MAX_OSC_PARAMS).
  set (m := Nat.min (N.to_nat n) K).
  replace (repeat None K) with (repeat (@None (list N)) m ++ repeat None (K - m))
    by (rewrite <- repeat_app; f_equal; lia).
  pose proof (osc_fill_loop p F HF m [] (repeat None (K - m))) as L. cbn [length map app N.of_nat] in L. rewrite L. clear L.
  destruct (N.ltb_spec MAX_OSC_PARAMS n) as [Hgt|Hle].
  - destruct (osc_fill p m 0) as [fs|] eqn:E; [|reflexivity].
    pose proof (osc_fill_length p m 0 fs E) as Hl.
    unfold slice. rewrite app_length, map_length, repeat_length, Hl.
    replace (n <=? N.of_nat (m + (K - m))) with false by (symmetry; apply N.leb_gt; lia).
    rewrite andb_false_r. reflexivity.
  - rewrite (osc_slices_fill p K 0) by (fold n; lia).
    fold n. replace (N.to_nat (n - 0)) with m by lia.
    destruct (osc_fill p m 0) as [fs|] eqn:E; [|reflexivity].
    pose proof (osc_fill_length p m 0 fs E) as Hl.
    unfold slice. rewrite app_length, map_length, repeat_length, Hl.
    replace (n <=? N.of_nat (m + (K - m))) with true by (symmetry; apply N.leb_le; lia).
    cbn [N.leb andb skipn N.to_nat]. replace (N.to_nat (n - 0)) with (length (map Some fs) + 0)%nat by (rewrite map_length; lia).
    rewrite firstn_app_2. cbn [firstn]. replace (0 <=? n) with true by (symmetry; apply N.leb_le; lia).
    cbn [andb]. rewrite app_nil_r, assume_init_map_some. reflexivity.
Qed.

(* the calls of translated functions that a case analysis has brought to the surface become the hand model's; each
   rewrite is tried only where its function occurs (a `rewrite` that finds no instance searches up to unfolding) *)
Ltac to_model :=
  repeat match goal with
  | |- context [g_params_is_full _ _] => rewrite g_params_is_full_eq
  | |- context [g_params_push _ _ _] => rewrite g_params_push_eq
  | |- context [g_params_extend _ _ _] => rewrite g_params_extend_eq
  | |- context [g_params_clear _ _] => rewrite g_params_clear_eq
  | |- context [g_intermediates _ _] => rewrite g_intermediates_eq
  | |- context [g_process_utf8 _ _ _ _] => rewrite g_process_utf8_eq
  | |- context [g_osc_dispatch _ _ _ _] => rewrite g_osc_dispatch_eq
  | |- context [g_params_groups _ _] => rewrite g_params_groups_eq
  end;
  unfold intermediates_of, g_params, osc_dispatch_acc; setters.
Ltac des := repeat (des1; setters; to_model; cbn [acc fst snd]; try congruence).

(* the leaf of a case analysis, aware of the arithmetic of the tests that were destructed on the way: the source may
   spell "the first parameter" as `param_idx == 0`, as the `None` of `param_idx.checked_sub(1)`, as `param_idx < 1`, ..;
   after `des` every such test is a boolean hypothesis, `tests_to_props` turns them into propositions over N and the
   branches that no input reaches are closed by `lia`, the others by `congruence` *)
(* a variable the tests force to be 0 (`n < 1`, `n <= 0`, `!(n >= 1)`, ..) is replaced by 0, so that `params[0]` and
   `params[n]`, `1` and `n + 1` are the same terms *)
Ltac pin_zero :=
  repeat match goal with
  | x : N |- _ => let H := fresh in assert (H : x = 0) by lia; subst x
  end.
(* facts about the constants of the source that `lia` may use: only "there is at least one OSC parameter slot" (a test
   `n < 1` before the test `n == MAX_OSC_PARAMS` is the same as after it); the VALUE of the constant stays abstract *)
Lemma MAX_OSC_PARAMS_pos : 0 < MAX_OSC_PARAMS.
Proof. reflexivity. Qed.
Ltac arith_facts := pose proof MAX_OSC_PARAMS_pos.
(* "where the previous parameter ended" read through a slice (`self.osc_params[..n].last()`) instead of an index
   (`self.osc_params[n - 1]`): the same element, the same panics (`n` beyond the array: the slice panics there, the
   write to `osc_params[n]` here) *)
Lemma aset_some_lt {A} (l l' : list A) n v : aset l n v = Some l' -> n < N.of_nat (length l).
Proof.
  unfold aset. intros E0. assert (Hlt : (N.to_nat n < length l)%nat); [|lia].
  generalize dependent l'. generalize (N.to_nat n) as i. induction l as [|h t IH]; intros i l' E0; cbn [aset_nat] in E0.
  - destruct i; discriminate.
  - destruct i as [|j]; cbn [length]; [lia|]. destruct (aset_nat t j v) eqn:E; [|discriminate]. specialize (IH _ _ E). lia.
Qed.

Lemma slice0_none {A} (l : list A) n : slice l 0 n = None -> N.of_nat (length l) < n.
Proof.
  unfold slice. destruct (N.leb_spec 0 n) as [_|Hn]; [|lia].
  destruct (N.leb_spec n (N.of_nat (length l))) as [Hl|Hl]; cbn [andb]; [discriminate|auto].
Qed.

Lemma nth_error_firstn_lt {A} (l : list A) : forall m i, (i < m)%nat -> nth_error (firstn m l) i = nth_error l i.
Proof.
  induction l as [|h t IH]; intros m i Hi; [rewrite firstn_nil; reflexivity|].
  destruct m as [|m]; [lia|]. destruct i as [|i]; cbn [firstn nth_error]; [reflexivity|]. apply IH. lia.
Qed.

Lemma slice0_last_pos {A} (l sl : list A) n :
  slice l 0 n = Some sl -> 0 < n -> nth_error sl (Nat.pred (length sl)) = aget l (n - 1).
Proof.
  unfold slice, aget. destruct (N.leb_spec 0 n) as [_|Hn0]; [|lia].
  destruct (N.leb_spec n (N.of_nat (length l))) as [Hl|Hl]; cbn [andb]; [|discriminate].
  intros E0 Hn. injection E0 as <-. rewrite N.sub_0_r. cbn [N.to_nat skipn].
  rewrite firstn_length_le by lia. replace (Nat.pred (N.to_nat n)) with (N.to_nat (n - 1)) by lia.
  rewrite nth_error_firstn_lt by lia. reflexivity.
Qed.

Lemma slice0_last_zero {A} (l sl : list A) n :
  slice l 0 n = Some sl -> n = 0 -> nth_error sl (Nat.pred (length sl)) = None.
Proof.
  intros E0 ->. unfold slice in E0. change (0 <=? 0) with true in E0. cbn [andb] in E0.
  destruct (0 <=? N.of_nat (length l)); [|discriminate]. injection E0 as <-. reflexivity.
Qed.

Lemma aget_none_ge {A} (l : list A) i : aget l i = None -> N.of_nat (length l) <= i.
Proof. unfold aget. intros E0. apply nth_error_None in E0. lia. Qed.

Ltac list_facts :=
  repeat match goal with
  | H : slice ?l 0 ?n = Some ?sl, H2 : context [nth_error ?sl (Nat.pred (length ?sl))] |- _ =>
      first [ rewrite (slice0_last_pos l sl n H ltac:(lia)) in H2
            | rewrite (slice0_last_zero l sl n H ltac:(lia)) in H2 ]
  | H : slice _ 0 _ = None |- _ => apply slice0_none in H
  | H : aget _ _ = None |- _ => apply aget_none_ge in H
  | H : aset ?l ?n _ = Some _ |- _ =>
      lazymatch goal with
      | _ : n < N.of_nat (length l) |- _ => fail
      | _ => pose proof (aset_some_lt _ _ _ _ H)
      end
  end.

Ltac arith_leaf :=
  first [ congruence | reflexivity
        | tests_to_props; arith_facts; list_facts;
          first [ exfalso; lia | congruence
                | pin_zero; rewrite ?N.add_0_l in *; unify_eqs; cbn [fst snd] in *; first [ reflexivity | congruence ] ] ].

Lemma osc_end_eq c p perf b :
  g_perform_action c p perf AOscEnd b = acc perf (perform_action c p AOscEnd b).
Proof.
  unfold g_perform_action, perform_action, len, csub. destruct p. setters. cbv zeta.
  des; setters; try congruence; try reflexivity.
  all: arith_leaf.
Qed.

Lemma g_perform_action_eq c p perf a b :
  g_perform_action c p perf a b = acc perf (perform_action c p a b).
Proof.
  destruct a; try apply osc_end_eq;
    unfold g_perform_action, perform_action, finish_params, osc_full, raw_full, cfg_core, len, csub;
    to_model; cbn [acc]; rewrite ?app_nil_r; try reflexivity.
  all: des; setters; cbn [acc]; rewrite ?app_nil_r; try congruence; try reflexivity.
  all: unify_eqs; try congruence; try reflexivity.
  (* ArrayVec::push on a full buffer (a panic) is excluded by the guard at the head of the arm; the tests on
     `osc_num_params` (whatever their spelling) by their arithmetic *)
  all: cbn [andb negb] in *; arith_leaf.
Qed.

Lemma acc_acc {A} perf e1 (r : option (A * list event)) :
  acc perf (acc e1 r) = acc (perf ++ e1) r.
Proof. destruct r as [[a e]|]; cbn; [rewrite app_assoc|]; reflexivity. Qed.

(* the three stages of perform_state_change, each against the corresponding stage of the hand model *)
Definition exit_hand c p b :=
  match pstate p with
  | DcsPassthrough => perform_action c p AUnhook b
  | OscString => perform_action c p AOscEnd b
  | _ => Some (p, [])
  end.
Definition trans_hand c p a b :=
  match a with ANop => Some (p, []) | _ => perform_action c p a b end.
Definition entry_hand c p s b :=
  match s with
  | CsiEntry | DcsEntry | Escape => perform_action c p AClear b
  | DcsPassthrough => perform_action c p AHook b
  | OscString => perform_action c p AOscStart b
  | _ => Some (p, [])
  end.

Lemma psc_hand c p s a b :
  s <> Anywhere ->
  perform_state_change c p s a b =
  match exit_hand c p b with
  | Some (p1, e1) =>
      match trans_hand c p1 a b with
      | Some (p2, e2) =>
          match entry_hand c p2 s b with
          | Some (p3, e3) => Some (set_state p3 s, e1 ++ e2 ++ e3)
          | None => None
          end
      | None => None
      end
  | None => None
  end.
Proof. intros Hs. unfold perform_state_change, exit_hand, trans_hand, entry_hand. destruct s; try congruence; reflexivity. Qed.

Ltac pa_cases :=
  rewrite ?g_perform_action_eq; cbn [acc]; rewrite ?app_nil_r; try reflexivity;
  match goal with |- context [perform_action ?c ?q ?x ?b] => destruct (perform_action c q x b) as [[? ?]|] end; reflexivity.

(* exit_stage / trans_stage / entry_stage: the stage when the translation runs the action inside the arms of the
   `match` on the state; g_perform_state_change_eq tries exit_stage and trans_stage first and otherwise analyses the
   stage by cases *)
Lemma exit_stage c p pf b :
  match pstate p with
  | DcsPassthrough => match g_perform_action c p pf AUnhook b with Some (o, o') => Some (o, o') | None => None end
  | OscString => match g_perform_action c p pf AOscEnd b with Some (o, o') => Some (o, o') | None => None end
  | _ => Some (p, pf)
  end = acc pf (exit_hand c p b).
Proof. unfold exit_hand. destruct (pstate p); pa_cases. Qed.

Lemma trans_stage c q pf a b :
  match a with
  | ANop => Some (q, pf)
  | _ => match g_perform_action c q pf a b with Some (o, o') => Some (o, o') | None => None end
  end = acc pf (trans_hand c q a b).
Proof. unfold trans_hand. destruct a; pa_cases. Qed.

(* the same stage, whatever way the Rust source spells "unless the action is Nop" (`match action { Nop => (), a => .. }`,
   `if !matches!(action, Action::Nop) { .. }`, `if action != Action::Nop { .. }`): any term that is `Some (q, pf)` on
   ANop and the call of perform_action otherwise *)
Lemma trans_any c q pf a b (T : option (parser * list event)) :
  (a = ANop -> T = Some (q, pf)) ->
  (a <> ANop -> T = match g_perform_action c q pf a b with Some (o, o') => Some (o, o') | None => None end) ->
  T = acc pf (trans_hand c q a b).
Proof.
  intros H0 H1. unfold trans_hand.
  destruct a; try (rewrite H1 by discriminate; pa_cases).
  rewrite H0 by reflexivity. cbn [acc]. rewrite app_nil_r. reflexivity.
Qed.

(* the innermost scrutinee of a chain of binds: the stage that is evaluated first *)
Ltac first_stage T :=
  lazymatch T with
  | match ?U with Some _ => _ | None => _ end => first_stage U
  | _ => constr:(T)
  end.

Ltac trans_step c q pf a b :=
  first
    [ rewrite (trans_stage c q pf a b)
    | lazymatch goal with
      | |- ?L = _ =>
          let T := first_stage L in
          rewrite (trans_any c q pf a b T);
          [ | intros Ha; subst a; reflexivity | intros Ha; destruct a; try congruence; reflexivity ]
      end ].

Lemma entry_stage c q pf s b :
  match s with
  | CsiEntry | DcsEntry | Escape => match g_perform_action c q pf AClear b with Some (o, o') => Some (o, o') | None => None end
  | DcsPassthrough => match g_perform_action c q pf AHook b with Some (o, o') => Some (o, o') | None => None end
  | OscString => match g_perform_action c q pf AOscStart b with Some (o, o') => Some (o, o') | None => None end
  | _ => Some (q, pf)
  end = acc pf (entry_hand c q s b).
Proof. unfold entry_hand. destruct s; pa_cases. Qed.

(* Goal-driven stages.  The Rust source may RUN the exit / entry action inside the arms of the `match` on
   the state (`State::DcsPassthrough => self.perform_action(.., Action::Unhook, ..)`), or first PICK it as a value
   (`let exit = match self.state { DcsPassthrough => Action::Unhook, .., _ => Action::Nop }`) and run it unless it is `Nop`
   (`if !matches!(exit, Action::Nop)`, `if exit != Action::Nop`, `match exit { Nop => (), a => .. }`), or test the state with
   `==`.  None of the tactics below looks at that text: the state the goal scrutinises is destructed, the tests on the
   now-constant action / state are EVALUATED, and the call of perform_action that remains (if any) is replaced by the hand
   model's through g_perform_action_eq. *)
Ltac const_tests :=
  repeat match goal with
         | |- context [action_eqb ?x ?y] =>
             is_constructor x; is_constructor y;
             let v := eval compute in (action_eqb x y) in change (action_eqb x y) with v
         | |- context [state_eqb ?x ?y] =>
             is_constructor x; is_constructor y;
             let v := eval compute in (state_eqb x y) in change (state_eqb x y) with v
         end;
  cbn [negb andb orb acc].

(* the stage the hand model runs first: if it is a call of perform_action, the translated side must show the same call
   (g_perform_action_eq, with THAT parser, action and byte; it fails otherwise), and both are destructed together; if the
   hand stage is a plain `Some (p, [])` the reduction of const_tests has already consumed it *)
Ltac pa_first :=
  lazymatch goal with
  | |- _ = acc _ ?R =>
      let T := first_stage R in
      lazymatch T with
      | perform_action ?c ?q ?x ?b =>
          rewrite (g_perform_action_eq c q _ x b);
          destruct (perform_action c q x b) as [[? ?]|]; cbn [acc]
      | _ => idtac
      end
  | |- _ => idtac
  end.

(* the transition stage: parser and performer are read off the goal (they are whatever the exit stage left) *)
Ltac trans_goal :=
  lazymatch goal with
  | |- ?L = acc _ (match trans_hand ?c ?q ?a ?b with _ => _ end) =>
      let T := first_stage L in
      lazymatch T with
      | context [g_perform_action c q ?pf a b] => trans_step c q pf a b
      end
  end.

Lemma g_perform_state_change_eq c p perf s a b :
  g_perform_state_change c p perf s a b = acc perf (perform_state_change c p s a b).
Proof.
  destruct (state_eqb s Anywhere) eqn:Es.
  { destruct s; try discriminate Es. unfold g_perform_state_change, perform_state_change.
    const_tests. rewrite g_perform_action_eq. destruct (perform_action c p a b) as [[? ?]|]; reflexivity. }
  assert (Hs : s <> Anywhere) by (intros ->; discriminate Es).
  rewrite (psc_hand c p s a b Hs).
  (* exit: on the state being left; one goal per state entered when [exit_stage] applies (as it does on lib.rs as it
     stands), one per pair of states otherwise *)
  destruct s; try congruence; unfold g_perform_state_change; cbv beta iota zeta;
    first [ rewrite (exit_stage c p perf b); destruct (exit_hand c p b) as [[? ?]|]; cbn [acc]; [|reflexivity]
          | unfold exit_hand; const_tests; destruct (pstate p) eqn:Ep; const_tests; pa_first; try reflexivity ].
  all: trans_goal;
    match goal with |- context [trans_hand ?c0 ?q ?a0 ?b0] => destruct (trans_hand c0 q a0 b0) as [[? ?]|] end; cbn [acc]; [|reflexivity].
  (* entry: the state being entered is a constant in every goal *)
  all: unfold entry_hand; const_tests; pa_first; cbn [app]; rewrite <- ?app_assoc, ?app_nil_r; reflexivity.
Qed.

Lemma g_advance_eq c p perf b :
  g_advance c p perf b = acc perf (advance c p b).
Proof.
  unfold g_advance, advance. cbv zeta.
  destruct (pstate p); rewrite ?g_process_utf8_eq, ?g_state_change_eq;
    try (destruct (process_utf8 c p b) as [[? ?]|]; reflexivity).
  all: match goal with |- context [state_change ?s ?b0] => destruct (state_change s b0) as [[s1 a1]|]; [|reflexivity] end.
  all: rewrite g_perform_state_change_eq; match goal with |- context [perform_state_change ?c0 ?p0 ?s0 ?a0 ?b0] => destruct (perform_state_change c0 p0 s0 a0 b0) as [[? ?]|] end; reflexivity.
Qed.

Fixpoint g_run (c : cfg) (p : parser) (perf : list event) (bs : list N) : option (parser * list event) :=
  match bs with
  | [] => Some (p, perf)
  | b :: rest =>
      match g_advance c p perf b with
      | Some (p1, perf1) => g_run c p1 perf1 rest
      | None => None
      end
  end.

Lemma g_run_eq c bs : forall p perf, g_run c p perf bs = acc perf (run c p bs).
Proof.
  induction bs as [|b bs IH]; intros p perf; cbn [g_run run].
  - cbn. rewrite app_nil_r. reflexivity.
  - rewrite g_advance_eq. destruct (advance c p b) as [[p1 e1]|]; cbn [acc]; [|reflexivity].
    rewrite IH. destruct (run c p1 bs) as [[p2 e2]|]; cbn [acc]; [rewrite app_assoc|]; reflexivity.
Qed.

Theorem translated_parser_is_model c bs :
  g_run c parser_new [] bs = run c parser_new bs.
Proof. rewrite g_run_eq. destruct (run c parser_new bs) as [[? ?]|]; reflexivity. Qed.

(* the same from the TRANSLATED constructor: `Parser::new()` followed by `advance` for every byte *)
Theorem translated_parser_from_new c bs :
  g_run c (g_parser_new c) [] bs = run c parser_new bs.
Proof. rewrite g_parser_new_eq. apply translated_parser_is_model. Qed.

(* configuration: Parser::new() builds the same value in every build; without `utf8` the accumulator is the
   `unreachable!` of AsciiParser::add, with it the utf8parse decoder and the translated callbacks *)
Lemma g_parser_new_cfg_independent c1 c2 : g_parser_new c1 = g_parser_new c2.
Proof. rewrite !g_parser_new_eq. reflexivity. Qed.

Lemma g_char_add_no_utf8 c u b : utf8_on c = false -> g_char_add c u b = None.
Proof. intros H. unfold g_char_add. rewrite H. reflexivity. Qed.

Lemma g_char_add_utf8 c u b : utf8_on c = true ->
  g_char_add c u b =
  Some (fst (u8_parser_advance u b),
        match snd (u8_parser_advance u b) with U8None => None | U8Codepoint cp => Some cp | U8Invalid => Some 65533 end).
Proof.
  intros H. rewrite g_char_add_eq. unfold char_add. rewrite H.
  destruct (u8_parser_advance u b) as [u' o]. reflexivity.
Qed.

(* Action::OscPut with the translated buffer operations: `is_full` of the ArrayVec (`raw_full c`), the `#[cfg(feature =
   "core")]` guard (`if cfg_core c`), and `push`, which on a full ArrayVec PANICS (None in the translation): equal to the
   hand model, which has no such panic -- the guard excludes it *)
Lemma g_osc_put_eq c p perf b :
  g_perform_action c p perf AOscPut b = acc perf (perform_action c p AOscPut b).
Proof. apply g_perform_action_eq. Qed.

Lemma g_osc_put_byte_no_panic c p perf b :
  b <> 59 -> g_perform_action c p perf AOscPut b <> None.
Proof.
  intros Hb. rewrite g_osc_put_eq. unfold perform_action.
  destruct (osc_full c p); [discriminate|]. apply N.eqb_neq in Hb. rewrite Hb. discriminate.
Qed.
