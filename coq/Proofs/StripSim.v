(* Proofs/StripSim.v -- the byte-at-a-time machine of Proofs/StripMachine.v
   (table + utf8parse) simulates the specification machine of Spec/Strip.v
   (by-range VT model + Table 3-7 DFA).  Outside a character one step is compared
   entry by entry over the table; inside, the two decoders test the same ranges.
   Also (Spec/Strip and Spec/Vt only): what the specification keeps is never ESC,
   DEL or a non-whitespace C0 control. *)
From Coq Require Import NArith Arith List Bool Lia.
From AV Require Import Generated.Table Spec.Utf8 Spec.Vt Spec.Strip
  Model.Base Model.Utf8parse Model.Parser Model.Strip Proofs.TableFacts Proofs.VtFacts Proofs.StripMachine.
Import ListNotations.
Local Open Scope N_scope.

(* utf8parse's states against the DFA of the specification ([Utf8Sim.conc_ustate]
   is the other direction of the same correspondence) *)
Definition abs_u8 (s : u8state) : option ustate :=
  match s with
  | U8Ground => None
  | U8Tail1 => Some UTail1 | U8Tail2 => Some UTail2 | U8Tail3 => Some UTail3
  | U8_3_2_e0 => Some UE0 | U8_3_2_ed => Some UED
  | U8_4_3_f0 => Some UF0 | U8_4_3_f4 => Some UF4
  end.

Definition ustate_eqb (a b : ustate) : bool :=
  match a, b with
  | UTail1, UTail1 | UTail2, UTail2 | UTail3, UTail3 | UE0, UE0 | UED, UED | UF0, UF0 | UF4, UF4 => true
  | _, _ => false
  end.

Lemma ustate_eqb_eq a b : ustate_eqb a b = true <-> a = b.
Proof. destruct a, b; cbn; split; intros H; try reflexivity; try discriminate. Qed.

Definition opt_ustate_eqb (a b : option ustate) : bool :=
  match a, b with
  | None, None => true
  | Some x, Some y => ustate_eqb x y
  | _, _ => false
  end.

Lemma opt_ustate_eqb_eq a b : opt_ustate_eqb a b = true <-> a = b.
Proof.
  destruct a, b; cbn; rewrite ?ustate_eqb_eq; split; intros H; try reflexivity; try discriminate; congruence.
Qed.

(* continuing a character: utf8parse against Table 3-7 *)
Definition cont_matches (s8 : u8state) (b : N) : bool :=
  match abs_u8 s8 with
  | None => true
  | Some us =>
      if is_ascii b then true else
      let '(s8', a) := u8_advance s8 b in
      match utf8_cont us b with
      | UMore us' => opt_ustate_eqb (abs_u8 s8') (Some us')
                     && match a with SetByte2 | SetByte3 => true | _ => false end
      | UDone => match a with SetByte1 => true | _ => false end
      | UBad => match a with InvalidSequence => true | _ => false end
      end
  end.

(* state by state, the two decoders put the same range test on the byte (for every
   [b]: the bound is not used) *)
Lemma cont_matches_ok s8 b : b < 256 -> cont_matches s8 b = true.
Proof.
  intros _. unfold cont_matches. destruct (is_ascii b); [destruct (abs_u8 s8); reflexivity|].
  destruct s8; cbn [abs_u8 u8_advance utf8_cont]; try reflexivity;
    change rng with in_range; destruct (in_range _ _ b); reflexivity.
Qed.

Lemma utf8_add_cont u us b :
  b < 256 -> is_ascii b = false -> abs_u8 (u8st u) = Some us ->
  match utf8_cont us b with
  | UMore us' => snd (utf8_add u b) = false /\ abs_u8 (u8st (fst (utf8_add u b))) = Some us'
  | UDone | UBad => snd (utf8_add u b) = true
  end.
Proof.
  intros Hb Ha Hu. pose proof (cont_matches_ok (u8st u) b Hb) as H.
  unfold cont_matches in H. rewrite Hu, Ha in H.
  unfold utf8_add, u8_parser_advance. destruct (u8_advance (u8st u) b) as [s8' a].
  destruct (utf8_cont us b) as [us'| |].
  - apply andb_true_iff in H as [H1 H2]. apply opt_ustate_eqb_eq in H1.
    destruct a; try discriminate H2; (split; [reflexivity|exact H1]).
  - destruct a; try discriminate H; reflexivity.
  - destruct a; try discriminate H; reflexivity.
Qed.

(* in a character the specification is in Ground with the DFA state the decoder
   stands for; outside, the states correspond and the decoder is idle *)
Definition Rs (st : state) (u : u8parser) (s : sstate) : Prop :=
  match su s with
  | Some us => st = Utf8 /\ sv s = VGround /\ abs_u8 (u8st u) = Some us
  | None => abs_state st = Some (sv s) /\ u = u8_new
  end.

(* one step from an idle decoder, for every entry of the 14 diagram rows: the kept
   flag and the successor states correspond *)
Definition sstate_matches (st' : state) (u' : u8parser) (s' : sstate) : bool :=
  match st' with
  | Utf8 => vstate_eqb (sv s') VGround
            && match su s' with None => false | Some _ => true end
            && opt_ustate_eqb (abs_u8 (u8st u')) (su s')
  | _ => opt_vstate_eqb (abs_state st') (Some (sv s'))
         && match su s' with None => true | Some _ => false end
         && (u8point u' =? 0) && match u8st u' with U8Ground => true | _ => false end
  end.

Definition plain_matches (st : state) (b : N) : bool :=
  match abs_state st with
  | None => true
  | Some v =>
      match mstep st u8_new b with
      | Some (st', u', k) =>
          let '(s', k') := plain_step v b in
          Bool.eqb k k' && sstate_matches st' u' s'
      | None => false
      end
  end.

(* [plain_matches] as a function of the table entry *)
Definition plain_entry_matches (st : state) (b : N) (r : option (state * action)) : bool :=
  match abs_state st with
  | None => true
  | Some v =>
      match idle_step st u8_new b r with
      | Some (st', u', k) =>
          let '(s', k') := plain_step v b in
          Bool.eqb k k' && sstate_matches st' u' s'
      | None => false
      end
  end.

Lemma plain_matches_all : forallb (sweep_state plain_entry_matches) all_states = true.
Proof. vm_compute. reflexivity. Qed.

Lemma plain_matches_ok st b : b < 256 -> plain_matches st b = true.
Proof.
  intros Hb. pose proof (state_change_sweep _ plain_matches_all st b Hb) as H.
  unfold plain_entry_matches in H. unfold plain_matches.
  destruct (abs_state st) eqn:Ha; [|reflexivity].
  rewrite mstep_idle; [exact H|]. intros ->. discriminate.
Qed.

Lemma sstate_matches_Rs st' u' s' : sstate_matches st' u' s' = true -> Rs st' u' s'.
Proof.
  unfold Rs. intros H. destruct (state_eqb st' Utf8) eqn:E.
  - apply state_eqb_eq in E. subst st'. cbn [sstate_matches] in H.
    apply andb_true_iff in H as [H H3]. apply andb_true_iff in H as [H1 H2].
    apply vstate_eqb_eq in H1. apply opt_ustate_eqb_eq in H3.
    destruct (su s'); [auto|discriminate].
  - assert (H' : opt_vstate_eqb (abs_state st') (Some (sv s'))
                 && match su s' with None => true | Some _ => false end
                 && (u8point u' =? 0) && match u8st u' with U8Ground => true | _ => false end = true)
      by (destruct st'; try exact H; discriminate E).
    apply andb_true_iff in H' as [H' H4]. apply andb_true_iff in H' as [H' H3].
    apply andb_true_iff in H' as [H1 H2]. apply opt_vstate_eqb_eq in H1. apply N.eqb_eq in H3.
    destruct (su s'); [discriminate|]. split; [exact H1|].
    destruct u' as [pt us]. cbn [u8point u8st] in *. subst pt. destruct us; try discriminate. reflexivity.
Qed.

Lemma sim_plain st v b st' u' k :
  b < 256 -> abs_state st = Some v -> mstep st u8_new b = Some (st', u', k) ->
  exists s', plain_step v b = (s', k) /\ Rs st' u' s'.
Proof.
  intros Hb Ha Hm. pose proof (plain_matches_ok st b Hb) as H.
  unfold plain_matches in H. rewrite Ha, Hm in H.
  destruct (plain_step v b) as [s' k']. apply andb_true_iff in H as [Hk Hs].
  apply Bool.eqb_prop in Hk. subst k'. exists s'. split; [reflexivity|]. now apply sstate_matches_Rs.
Qed.

Lemma sim_step st u s b st' u' k :
  b < 256 -> Rs st u s -> mstep st u b = Some (st', u', k) ->
  exists s', strip_step s b = (s', k) /\ Rs st' u' s'.
Proof.
  intros Hb HR Hm. unfold Rs in HR. unfold strip_step. destruct (su s) as [us|].
  - destruct HR as (-> & Hv & Hu). change (b <? 128) with (is_ascii b).
    destruct (is_ascii b) eqn:Ha.
    + (* a 7-bit byte ends the broken character and is processed from Ground *)
      rewrite (mstep_ascii_norm u b Ha) in Hm. exact (sim_plain Ground VGround b _ _ _ Hb eq_refl Hm).
    + rewrite (mstep_char u b Ha) in Hm. injection Hm as <- <- <-.
      pose proof (utf8_add_cont u us b Hb Ha Hu) as Hc.
      destruct (utf8_cont us b) as [us'| |]; [destruct Hc as [-> Hu']|rewrite Hc..];
        (eexists; split; [reflexivity|]); unfold Rs; cbn [su sv]; auto;
        (split; [now rewrite Hv|]); apply utf8_add_done; assumption.
  - destruct HR as [Ha ->]. exact (sim_plain st (sv s) b _ _ _ Hb Ha Hm).
Qed.

Lemma sim_run : forall bs st u s st' u' out,
  bytes_ok bs -> Rs st u s -> mrun st u bs = Some (st', u', out) ->
  exists s', strip_run s bs = (s', out) /\ Rs st' u' s'.
Proof.
  induction bs as [|b bs IH]; intros st u s st' u' out Hok HR H; cbn [mrun] in H.
  - injection H as <- <- <-. exists s. cbn. auto.
  - apply bytes_ok_cons in Hok as [Hb Hok'].
    destruct (mstep st u b) as [[[sx ux] k]|] eqn:Hs; [|discriminate].
    destruct (mrun sx ux bs) as [[[sa ua] oa]|] eqn:Hr; [|discriminate].
    injection H as <- <- <-.
    destruct (sim_step _ _ _ _ _ _ _ Hb HR Hs) as (s1 & Hstep & HR1).
    destruct (IH _ _ _ _ _ _ Hok' HR1 Hr) as (s2 & Hrun & HR2).
    exists s2. cbn [strip_run]. rewrite Hstep, Hrun. auto.
Qed.

Lemma Rs_init : Rs Ground u8_new s_init.
Proof. split; reflexivity. Qed.

Lemma Inv_init : Inv Ground u8_new.
Proof. constructor. reflexivity. Qed.

Lemma mrun_is_spec input st u out :
  bytes_ok input -> mrun Ground u8_new input = Some (st, u, out) -> out = spec_strip input.
Proof.
  intros Hok H. destruct (sim_run _ _ _ _ _ _ _ Hok Rs_init H) as (s' & Hs & _).
  unfold spec_strip. now rewrite Hs.
Qed.

Lemma strip_next_bytes_run c st u :
  bytes_ok c -> Inv st u ->
  exists ps st1 u1, strip_next_bytes c st u = Some (ps, [], st1, u1) /\
                    mrun st u c = Some (st1, u1, concat (map p_bytes ps)).
Proof.
  intros Hc HI. unfold strip_next_bytes.
  destruct (bytes_iter_total (S (length c)) c 0 st u (Nat.lt_succ_diag_r _) Hc) as [[[[ps bs'] st1] u1] Hit].
  destruct (bytes_iter_spec _ _ _ _ _ _ _ _ _ (Nat.lt_succ_diag_r _) Hc HI Hit) as [-> Hrun]. eauto 6.
Qed.

(* C01: strip_bytes = specification, for every byte string *)
Theorem strip_bytes_is_spec : forall input,
  bytes_ok input -> strip_bytes_model input = Some (spec_strip input).
Proof.
  intros input Hok.
  destruct (strip_next_bytes_run input Ground u8_new Hok Inv_init) as (ps & st & u & Hn & Hrun).
  unfold strip_bytes_model, strip_bytes_pieces. rewrite Hn. f_equal. exact (mrun_is_spec _ _ _ _ Hok Hrun).
Qed.

Lemma bytes_ok_concat : forall chunks, bytes_ok (concat chunks) -> Forall bytes_ok chunks.
Proof.
  induction chunks as [|c cs IH]; intros H; constructor; apply bytes_ok_app in H as [Hc Hcs]; auto.
Qed.

Lemma chunks_spec : forall chunks st u,
  Forall bytes_ok chunks -> Inv st u ->
  exists pss st' u',
    strip_bytes_chunks chunks st u = Some (pss, st', u') /\
    mrun st u (concat chunks) = Some (st', u', concat (map (fun ps => concat (map p_bytes ps)) pss)).
Proof.
  induction chunks as [|c cs IH]; intros st u Hok HI; cbn [strip_bytes_chunks concat].
  - exists [], st, u. cbn. auto.
  - apply Forall_cons_iff in Hok as [Hc Hcs].
    destruct (strip_next_bytes_run c st u Hc HI) as (ps & st1 & u1 & -> & Hrun).
    destruct (IH st1 u1 Hcs (mrun_inv _ _ _ _ _ _ Hc HI Hrun)) as (pss & st2 & u2 & -> & Hrun2).
    exists (ps :: pss), st2, u2. split; [reflexivity|].
    rewrite (mrun_app c _ _ _ _ _ _ Hrun), Hrun2. reflexivity.
Qed.

(* C03: any chunking of the byte API *)
Theorem strip_bytes_chunked : forall chunks,
  bytes_ok (concat chunks) ->
  exists pss st u,
    strip_bytes_chunks chunks Ground u8_new = Some (pss, st, u) /\
    concat (map (fun ps => concat (map p_bytes ps)) pss) = spec_strip (concat chunks) /\
    Some (concat (map (fun ps => concat (map p_bytes ps)) pss)) = strip_bytes_model (concat chunks) /\
    (* the carried state is the state of the one-shot run *)
    exists ps1, strip_next_bytes (concat chunks) Ground u8_new = Some (ps1, [], st, u).
Proof.
  intros chunks Hok.
  destruct (chunks_spec chunks Ground u8_new (bytes_ok_concat _ Hok) Inv_init) as (pss & st & u & Hch & Hrun).
  exists pss, st, u. split; [exact Hch|].
  pose proof (mrun_is_spec _ _ _ _ Hok Hrun) as Hs.
  split; [exact Hs|]. split; [now rewrite (strip_bytes_is_spec _ Hok), Hs|].
  destruct (strip_next_bytes_run (concat chunks) Ground u8_new Hok Inv_init) as (ps1 & st1 & u1 & Hn & Hrun1).
  rewrite Hrun in Hrun1. injection Hrun1 as <- <- _. exists ps1. exact Hn.
Qed.

Definition clean_byte (b : N) : bool :=
  negb (b =? 27) && negb (b =? 127) && ((32 <=? b) || is_ws_control b).

(* what the by-range model keeps outside a character: the lead bytes C2..F4, and
   clean 7-bit bytes *)
Definition kept_class (v : vstate) (b : N) : bool :=
  let '(_, a) := vt_trans v b in
  match a with
  | TUtf8 => in_range 194 244 b
  | _ => if keeps a b then (b <? 128) && clean_byte b else true
  end.

Lemma kept_class_all : forallb (fun v => forallb (kept_class v) all_bytes) all_vstates = true.
Proof. vm_compute. reflexivity. Qed.

Lemma trans_utf8_range v b tgt : b < 256 -> vt_trans v b = (tgt, TUtf8) -> 194 <= b <= 244.
Proof.
  intros Hb Ht. pose proof (forall_vstates_bytes _ kept_class_all v b Hb) as H.
  unfold kept_class in H. rewrite Ht in H. apply andb_true_iff in H as [H1 H2].
  apply N.leb_le in H1, H2. auto.
Qed.

Lemma keeps_ascii v b tgt a :
  b < 256 -> vt_trans v b = (tgt, a) -> a <> TUtf8 -> keeps a b = true -> b < 128 /\ clean_byte b = true.
Proof.
  intros Hb Ht Ha Hk. pose proof (forall_vstates_bytes _ kept_class_all v b Hb) as H.
  unfold kept_class in H. rewrite Ht, Hk in H.
  assert (H' : (b <? 128) && clean_byte b = true) by (destruct a; congruence).
  apply andb_true_iff in H' as [H1 H2]. apply N.ltb_lt in H1. auto.
Qed.

Lemma vact_utf8_dec a : {a = TUtf8} + {a <> TUtf8}.
Proof. destruct a; (left; reflexivity) || (right; discriminate). Qed.

Lemma plain_step_lead v b tgt :
  vt_trans v b = (tgt, TUtf8) ->
  plain_step v b = (mkS match tgt with Some t => t | None => v end (utf8_lead b), true).
Proof. intros H. unfold plain_step. now rewrite H. Qed.

Lemma plain_step_other v b tgt a :
  vt_trans v b = (tgt, a) -> a <> TUtf8 ->
  plain_step v b = (mkS match tgt with Some t => t | None => v end None, keeps a b).
Proof. intros H Ha. unfold plain_step. rewrite H. destruct a; try reflexivity. contradiction. Qed.

Lemma high_clean b : 128 <= b -> clean_byte b = true.
Proof.
  intros H. unfold clean_byte.
  assert (b <> 27 /\ b <> 127 /\ 32 <= b) as (H1 & H2 & H3) by lia.
  apply N.eqb_neq in H1, H2. apply N.leb_le in H3. now rewrite H1, H2, H3.
Qed.

Lemma plain_step_clean v b s' : b < 256 -> plain_step v b = (s', true) -> clean_byte b = true.
Proof.
  intros Hb. destruct (vt_trans v b) as [tgt a] eqn:Ht. destruct (vact_utf8_dec a) as [->|Ha].
  - intros _. apply high_clean. pose proof (trans_utf8_range _ _ _ Hb Ht). lia.
  - rewrite (plain_step_other _ _ _ _ Ht Ha). intros H. injection H as _ Hk.
    apply (keeps_ascii _ _ _ _ Hb Ht Ha Hk).
Qed.

Lemma strip_step_clean s b s' :
  b < 256 -> strip_step s b = (s', true) -> clean_byte b = true.
Proof.
  intros Hb. unfold strip_step. destruct (su s) as [us|]; [|apply plain_step_clean, Hb].
  destruct (b <? 128) eqn:Hlt; [apply plain_step_clean, Hb|]. intros _. apply high_clean, N.ltb_ge, Hlt.
Qed.

Theorem strip_no_controls : forall input,
  bytes_ok input -> Forall (fun b => clean_byte b = true) (spec_strip input).
Proof.
  intros input. unfold spec_strip. generalize s_init.
  induction input as [|b bs IH]; intros s Hok; cbn [strip_run snd].
  - constructor.
  - apply bytes_ok_cons in Hok as [Hb Hok'].
    destruct (strip_step s b) as [s1 k] eqn:Hs.
    specialize (IH s1 Hok'). destruct (strip_run s1 bs) as [s2 out]. cbn [snd] in *.
    destruct k; [|exact IH]. constructor; [|exact IH].
    eapply strip_step_clean; eauto.
Qed.
