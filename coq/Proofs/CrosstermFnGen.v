(* For C16: the rendering of crossterm 0.28.1 as TRANSLATED from the registry source (Generated/CrosstermFn.v,
   tools/gen_fn_crossterm.py).  For EVERY `v : ContentStyle`, `v.apply(text).to_string()` does not panic and is SGR
   sequences (background, foreground, underline colour, one per attribute in declaration order) ++ text ++ resetting
   sequences.  On the values the adapter builds, Spec/Vt + Spec/Sgr read the rendition of "x" as the projection of the
   source style, up to palette entries 0-15 = the 16 ANSI colours and, with several underline kinds at once, up to the
   underline kind (a terminal has one underline attribute: the last sequence wins). *)
From Coq Require Import NArith Arith List Bool Lia.
From AV Require Import Spec.Vt Spec.Sgr Spec.Algebra Spec.Render Spec.Targets Model.Base Model.Imp
  Proofs.TableFacts Proofs.FilterFacts Proofs.Style Proofs.Render
  Generated.Adapters Model.Adapters Generated.AdaptersFn Proofs.Adapters Proofs.AdaptersGen
  Model.Crossterm Generated.CrosstermFn Proofs.SgrRender.
Import ListNotations.
Local Open Scope N_scope.

(* the hand model of the rendering (defined here, not in Model/), as printed parameter lists *)

(* a control sequence is written as its printed parameters (Spec/Render rn_csi): parameters, each a list
   of sub-parameters, each a digit string *)
Definition ct_pr : Type := list (list (list N)).

(* the palette index crossterm prints for its named colours *)
Definition ct_named_index (c : ct_color) : N :=
  match c with
  | CtBlack => 0 | CtDarkRed => 1 | CtDarkGreen => 2 | CtDarkYellow => 3 | CtDarkBlue => 4 | CtDarkMagenta => 5
  | CtDarkCyan => 6 | CtGrey => 7 | CtDarkGrey => 8 | CtRed => 9 | CtGreen => 10 | CtYellow => 11 | CtBlue => 12
  | CtMagenta => 13 | CtCyan => 14 | CtWhite => 15
  | _ => 0
  end.

Definition ct_color_tail (c : ct_color) : ct_pr :=
  match c with
  | CtReset => []
  | CtRgb r g b => [[[50]]; [ct_dec r]; [ct_dec g]; [ct_dec b]]
  | CtAnsiValue n => [[[53]]; [ct_dec n]]
  | named => [[[53]]; [ct_dec (ct_named_index named)]]
  end.

Definition ct_colored_parts (cl : ct_colored) : N * ct_color :=
  match cl with CtForeground c => (51, c) | CtBackground c => (52, c) | CtUnderline c => (53, c) end.

(* <Colored as Display>::fmt, colours enabled *)
Definition ct_colored_pr (cl : ct_colored) : ct_pr :=
  let '(base, c) := ct_colored_parts cl in
  if ct_color_eqb c CtReset then [[[base; 57]]] else [[base; 56]] :: ct_color_tail c.

(* Attribute::sgr *)
Definition ct_attr_pr (x : N) : ct_pr :=
  let c := nth (N.to_nat x) g_ct_SGR 0 in
  if (4 <? x) && (x <? 9) then [[[52]; ct_dec c]] else [[ct_dec c]].

(* Attributes::has *)
Definition ct_has (a x : N) : bool := negb (N.land a (N.shiftl 1 (x + 1)) =? 0).

Definition ct_csis (prs : list ct_pr) : list N := concat (map (fun pr => rn_csi pr 109) prs).

Definition ct_olist (mk : ct_color -> ct_colored) (o : option ct_color) : list ct_pr :=
  match o with Some c => [ct_colored_pr (mk c)] | None => [] end.

Definition ct_attrs_prs (a : N) : list ct_pr := map ct_attr_pr (filter (ct_has a) g_ct_attr_iterator).

(* the commands PrintStyledContent issues before the text ... *)
Definition ct_before (v : ct_style) : list ct_pr :=
  ct_olist CtBackground (ct_bg v) ++ ct_olist CtForeground (ct_fg v) ++ ct_olist CtUnderline (ct_ul v)
  ++ (if ct_attrs v =? 0 then [] else ct_attrs_prs (ct_attrs v)).

(* ... and after it: ESC[0m when an attribute was set, else the colours that were set go back to the
   default (the underline colour is "reset" by ESC[39m, the foreground's sequence) *)
Definition ct_is_some {A} (o : option A) : bool := match o with Some _ => true | None => false end.
Definition ct_after (v : ct_style) : list ct_pr :=
  if ct_attrs v =? 0 then
    (if ct_is_some (ct_bg v) then [[[[52; 57]]]] else []) ++
    (if ct_is_some (ct_fg v) || ct_is_some (ct_ul v) then [[[[51; 57]]]] else [])
  else [[[[48]]]].

(* the bytes of `v.apply(text).to_string()` *)
Definition ct_obytes (mk : ct_color -> ct_colored) (o : option ct_color) : list N :=
  match o with Some c => rn_csi (ct_colored_pr (mk c)) 109 | None => [] end.
Definition ct_render_bytes (v : ct_style) (text : list N) : list N :=
  ct_obytes CtBackground (ct_bg v) ++ ct_obytes CtForeground (ct_fg v) ++ ct_obytes CtUnderline (ct_ul v)
  ++ (if ct_attrs v =? 0 then [] else ct_csis (ct_attrs_prs (ct_attrs v)))
  ++ text
  ++ (if ct_attrs v =? 0 then
        (if ct_is_some (ct_bg v) then rn_csi [[[52; 57]]] 109 else []) ++
        (if ct_is_some (ct_fg v) || ct_is_some (ct_ul v) then rn_csi [[[51; 57]]] 109 else [])
      else rn_csi [[[48]]] 109).

Lemma g_ct_colored_fmt_eq cl f :
  g_ct_colored_fmt false cl f = Some (f ++ rn_print_params (ct_colored_pr cl), inl tt).
Proof.
  unfold g_ct_colored_fmt, ct_colored_pr.
  destruct cl as [c|c|c]; destruct c; cbn [ct_colored_parts ct_color_eqb ct_color_tail];
    cbv beta iota zeta delta [ct_write_str ct_write_fmt ct_lit];
    unfold rn_print_params; cbn [map rn_join app];
    repeat rewrite <- app_assoc; cbn [app]; reflexivity.
Qed.

(* SetForegroundColor / SetBackgroundColor / SetUnderlineColor: `write!(f, csi!("{}m"), Colored::X(c))` *)
Lemma write_csi_colored cl f :
  ct_write_fmt [ct_lit [27; 91]; (fun f0 => g_ct_colored_fmt false cl f0); ct_lit [109]] f =
  Some (f ++ rn_csi (ct_colored_pr cl) 109, inl tt).
Proof.
  cbn [ct_write_fmt]. unfold ct_lit at 1. unfold ct_write_str at 1.
  rewrite g_ct_colored_fmt_eq. unfold ct_lit, ct_write_str. unfold rn_csi.
  repeat rewrite <- app_assoc. reflexivity.
Qed.

Lemma g_ct_set_fg_eq c f :
  g_ct_set_fg_write_ansi false c f = Some (f ++ rn_csi (ct_colored_pr (CtForeground c)) 109, inl tt).
Proof. unfold g_ct_set_fg_write_ansi, ct_cmd_f0. rewrite write_csi_colored. reflexivity. Qed.
Lemma g_ct_set_bg_eq c f :
  g_ct_set_bg_write_ansi false c f = Some (f ++ rn_csi (ct_colored_pr (CtBackground c)) 109, inl tt).
Proof. unfold g_ct_set_bg_write_ansi, ct_cmd_f0. rewrite write_csi_colored. reflexivity. Qed.
Lemma g_ct_set_ul_eq c f :
  g_ct_set_ul_write_ansi false c f = Some (f ++ rn_csi (ct_colored_pr (CtUnderline c)) 109, inl tt).
Proof. unfold g_ct_set_ul_write_ansi, ct_cmd_f0. rewrite write_csi_colored. reflexivity. Qed.

(* attributes: crossterm's `Attributes` keeps the attribute declared n-th at bit n + 1 (`1 << (attr as u32 + 1)`),
   hence the [+ 1] of [ct_has], [ct_attr_ok], [ct_attrs_bits]. *)

Definition ct_attr_ok (x : N) : Prop :=
  g_ct_attr_bytes x = Some (bit (x + 1)) /\ g_ct_attr_sgr x = Some (rn_print_params (ct_attr_pr x)).

Lemma attr_facts : Forall ct_attr_ok g_ct_attr_iterator.
Proof. repeat constructor. Qed.

Lemma g_ct_attrs_has_eq a x : ct_attr_ok x -> g_ct_attrs_has a x = Some (ct_has a x).
Proof. intros [H _]. unfold g_ct_attrs_has. rewrite H. reflexivity. Qed.

Lemma g_ct_set_attr_eq x f : ct_attr_ok x ->
  g_ct_set_attr_write_ansi false x f = Some (f ++ rn_csi (ct_attr_pr x) 109, inl tt).
Proof.
  intros [_ H]. unfold g_ct_set_attr_write_ansi, ct_cmd_f0. rewrite H.
  cbn [ct_write_fmt]. unfold ct_lit, ct_write_str, rn_csi. repeat rewrite <- app_assoc. reflexivity.
Qed.

(* SetAttributes: one sequence per attribute that is set, in declaration order *)
Lemma g_ct_set_attrs_eq a f :
  g_ct_set_attrs_write_ansi false a f = Some (f ++ ct_csis (ct_attrs_prs a), inl tt).
Proof.
  unfold g_ct_set_attrs_write_ansi, ct_cmd_f0, ct_attrs_prs.
  match goal with |- context [for_list ?F _ _] => set (step := F) end.
  assert (L : forall l, Forall ct_attr_ok l -> forall acc,
            for_list step l acc = Some (inl (acc ++ ct_csis (map ct_attr_pr (filter (ct_has a) l))))).
  { induction 1 as [|x t Hx _ IH]; intros acc.
    - cbn. now rewrite app_nil_r.
    - cbn [for_list filter]. unfold step at 1. rewrite (g_ct_attrs_has_eq a x Hx).
      destruct (ct_has a x).
      + rewrite (g_ct_set_attr_eq x acc Hx). cbv beta iota. rewrite IH.
        cbn [map]. unfold ct_csis. cbn [map concat]. now rewrite <- app_assoc.
      + cbv beta iota. apply IH. }
  rewrite (L _ attr_facts). reflexivity.
Qed.

Lemma g_ct_reset_eq f : g_ct_reset_color_write_ansi false tt f = (f ++ rn_csi [[[48]]] 109, inl tt).
Proof. reflexivity. Qed.

Lemma ct_csis_app a b : ct_csis (a ++ b) = ct_csis a ++ ct_csis b.
Proof. unfold ct_csis. now rewrite map_app, concat_app. Qed.

Lemma reset_bg_pr : rn_csi (ct_colored_pr (CtBackground CtReset)) 109 = rn_csi [[[52; 57]]] 109.
Proof. reflexivity. Qed.
Lemma reset_fg_pr : rn_csi (ct_colored_pr (CtForeground CtReset)) 109 = rn_csi [[[51; 57]]] 109.
Proof. reflexivity. Qed.

(* the symbolic pieces are generalised before the lists are normalised: with them in place the kernel's
   conversion check of the `cbn` steps at Qed does not return *)
Ltac ct_abstract_pieces a :=
  repeat match goal with |- context [rn_csi ?p 109] => generalize (rn_csi p 109); intro end;
  try generalize (ct_csis (ct_attrs_prs a)); intros.

Lemma ct_render_eq v text f :
  g_ct_print_styled_write_ansi false (mkCtStyled v text) f = Some (f ++ ct_render_bytes v text, inl tt).
Proof.
  unfold g_ct_print_styled_write_ansi, g_ct_styled_style, g_ct_styled_content, ct_cmd_f0, ct_render_bytes.
  cbn [ct_sc_style ct_sc_content]. unfold g_ct_attrs_is_empty, ct_attrs_f0.
  destruct v as [fg bg ul a]. cbn [ct_fg ct_bg ct_ul ct_attrs].
  (* 8 cases of the three colour slots x (no attribute | some): before the text bg, fg, ul, attributes; after it
     ESC[0m, and again the colours of bg and fg that were set -- hence their rewrites a second time *)
  destruct bg as [bg|], fg as [fg|], ul as [ul|]; cbv beta iota zeta;
    rewrite ?g_ct_set_bg_eq; cbv beta iota zeta;
    rewrite ?g_ct_set_fg_eq; cbv beta iota zeta;
    rewrite ?g_ct_set_ul_eq; cbv beta iota zeta;
    (destruct (a =? 0); cbn [negb]; cbv beta iota zeta;
     rewrite ?g_ct_set_attrs_eq; cbv beta iota zeta;
     cbn [ct_write_fmt]; unfold ct_lit, ct_write_str; cbv beta iota zeta;
     rewrite ?g_ct_reset_eq; cbv beta iota zeta;
     rewrite ?g_ct_set_bg_eq; cbv beta iota zeta;
     rewrite ?g_ct_set_fg_eq; cbv beta iota zeta;
     rewrite ?reset_bg_pr, ?reset_fg_pr;
     cbn [ct_obytes ct_is_some orb];
     ct_abstract_pieces a;
     rewrite ?app_nil_r; cbn [app]; repeat rewrite <- app_assoc; reflexivity).
Qed.

Lemma olist_bytes mk o : ct_csis (ct_olist mk o) = ct_obytes mk o.
Proof. destruct o; cbn [ct_olist ct_obytes ct_csis map concat]; [apply app_nil_r|reflexivity]. Qed.

Lemma ct_render_bytes_csis v text :
  ct_render_bytes v text = ct_csis (ct_before v) ++ text ++ ct_csis (ct_after v).
Proof.
  unfold ct_render_bytes, ct_before, ct_after. rewrite !ct_csis_app, !olist_bytes, <- !app_assoc.
  destruct (ct_attrs v =? 0); [destruct (ct_is_some (ct_bg v)), (ct_is_some (ct_fg v) || ct_is_some (ct_ul v))|];
    cbn [ct_csis map concat app]; rewrite ?app_nil_r; reflexivity.
Qed.

(* `v.apply(text).to_string()`, for EVERY value *)
Theorem g_crossterm_render_str_eq v text :
  g_crossterm_render_str false v text = Some (ct_render_bytes v text).
Proof.
  unfold g_crossterm_render_str, g_ct_apply, g_ct_styled_new, g_ct_styled_fmt. cbn [ct_sc_style ct_sc_content].
  rewrite ct_render_eq. reflexivity.
Qed.

Theorem g_crossterm_render_eq v : g_crossterm_render v = Some (ct_render_bytes v [120]).
Proof. apply g_crossterm_render_str_eq. Qed.

Definition pr_ok (pr : ct_pr) : Prop := rn_csi_ok pr = true.

Definition ct_u8_color (c : ct_color) : Prop :=
  match c with CtRgb r g b => r < 256 /\ g < 256 /\ b < 256 | CtAnsiValue n => n < 256 | _ => True end.
Definition ct_u8_slot (o : option ct_color) : Prop := match o with Some c => ct_u8_color c | None => True end.

(* the colour a terminal shows for a crossterm colour as crossterm prints it: the named colours are printed
   as entries 0..15 of the 256-colour palette *)
Definition ct_color_colour (c : ct_color) : option colour :=
  match c with
  | CtReset => None
  | CtRgb r g b => Some (CRgb r g b)
  | CtAnsiValue n => Some (CIdx n)
  | named => Some (CIdx (ct_named_index named))
  end.
Definition ct_slot_colour (o : option ct_color) : option colour :=
  match o with Some c => ct_color_colour c | None => None end.

(* <u8 as Display>::fmt is read back *)
Lemma ct_dec_of n : dec_of (ct_dec n) n.
Proof. exact (dec_go_of _ n (lt_pow10_size n)). Qed.

Lemma dec_value_u8 n : rn_dec_value (ct_dec n) = n.
Proof. apply ct_dec_of. Qed.

Lemma digits_ok_u8 n : n < 256 -> rn_digits_ok (ct_dec n) = true.
Proof. intros H. apply (dec_of_digits_ok _ n (ct_dec_of n)). lia. Qed.

Definition ct_colored_target (cl : ct_colored) : target :=
  match cl with CtForeground _ => TFg | CtBackground _ => TBg | CtUnderline _ => TUl end.

Lemma colored_ok cl : ct_u8_color (snd (ct_colored_parts cl)) -> pr_ok (ct_colored_pr cl).
Proof.
  unfold pr_ok, ct_colored_pr.
  destruct cl as [c|c|c]; destruct c; cbn [ct_colored_parts snd ct_color_eqb ct_color_tail ct_u8_color]; intros H;
    try reflexivity;
    unfold rn_csi_ok; cbn [rn_nonempty forallb andb concat app length];
    try (destruct H as (Hr & Hg & Hb)); rewrite ?digits_ok_u8 by assumption; reflexivity.
Qed.

Lemma colored_apply cl s :
  sgr_apply s (rn_param_values (ct_colored_pr cl)) =
  set_target (ct_colored_target cl) s (ct_color_colour (snd (ct_colored_parts cl))).
Proof.
  unfold ct_colored_pr.
  destruct cl as [c|c|c]; destruct c;
    cbn [ct_colored_parts snd ct_color_eqb ct_color_tail ct_colored_target ct_color_colour];
    try reflexivity; unfold rn_param_values; cbn [map]; rewrite ?dec_value_u8; reflexivity.
Qed.

Lemma olist_ok mk o : (forall c, ct_u8_color c -> ct_u8_color (snd (ct_colored_parts (mk c)))) ->
  ct_u8_slot o -> Forall pr_ok (ct_olist mk o).
Proof.
  intros Hm H. destruct o as [c|]; cbn [ct_olist]; [|constructor].
  constructor; [|constructor]. apply colored_ok. apply Hm. exact H.
Qed.

Lemma before_colours fg bg ul :
  fold_left sgr_apply
    (map rn_param_values (ct_olist CtBackground bg ++ ct_olist CtForeground fg ++ ct_olist CtUnderline ul))
    style_default
  = mkStyle (ct_slot_colour fg) (ct_slot_colour bg) (ct_slot_colour ul) 0.
Proof.
  destruct bg as [bg|], fg as [fg|], ul as [ul|]; cbn [ct_olist app map fold_left ct_slot_colour];
    rewrite ?colored_apply; reflexivity.
Qed.

(* the attributes that denote an anstyle effect (Bold .. CrossedOut), and the effect: SlowBlink and RapidBlink
   are both BLINK.  Their sequences act on the effects only, as Proofs/Render.v [eff_step] of that effect.
   Declaration numbers: Reset 0, Bold 1, Dim 2, Italic 3, Underlined 4, DoubleUnderlined 5, Undercurled 6,
   Underdotted 7, Underdashed 8, SlowBlink 9, RapidBlink 10, Reverse 11, Hidden 12, CrossedOut 13; effects 0 .. 11 *)
Definition attr_plain (x : N) : bool := (1 <=? x) && (x <=? 13).
Definition ct_attr_effect (x : N) : N := if x <? 10 then x - 1 else x - 2.

Lemma attr_plain_cases x : attr_plain x = true ->
  x = 1 \/ x = 2 \/ x = 3 \/ x = 4 \/ x = 5 \/ x = 6 \/ x = 7 \/ x = 8 \/ x = 9 \/ x = 10 \/ x = 11 \/ x = 12 \/ x = 13.
Proof. unfold attr_plain. intros H. apply andb_true_iff in H. destruct H as [A B]. apply N.leb_le in A, B. lia. Qed.

Lemma attr_apply x s : attr_plain x = true ->
  sgr_apply s (rn_param_values (ct_attr_pr x)) = mkStyle (s_fg s) (s_bg s) (s_ul s) (eff_step (s_eff s) (ct_attr_effect x)).
Proof. intros H. apply attr_plain_cases in H. repeat (destruct H as [->|H]; [reflexivity|]). now subst. Qed.

Lemma attrs_fold xs : Forall (fun x => attr_plain x = true) xs -> forall s,
  fold_left sgr_apply (map rn_param_values (map ct_attr_pr xs)) s =
  mkStyle (s_fg s) (s_bg s) (s_ul s) (fold_left eff_step (map ct_attr_effect xs) (s_eff s)).
Proof.
  induction 1 as [|x t Hx _ IH]; intros s; cbn [map fold_left].
  - now destruct s.
  - rewrite (attr_apply x s Hx), IH. reflexivity.
Qed.

Lemma attrs_prs_ok a : Forall pr_ok (ct_attrs_prs a).
Proof.
  apply Forall_map, Forall_filter_keep.
  change (Forall (fun x => pr_ok (ct_attr_pr x)) g_ct_attr_iterator). repeat constructor.    (* 28 rows *)
Qed.

Lemma attrs_prs_0 : ct_attrs_prs 0 = [].
Proof. reflexivity. Qed.

Lemma ct_before_eq v :
  ct_before v = ct_olist CtBackground (ct_bg v) ++ ct_olist CtForeground (ct_fg v) ++ ct_olist CtUnderline (ct_ul v)
                ++ ct_attrs_prs (ct_attrs v).
Proof. unfold ct_before. destruct (N.eqb_spec (ct_attrs v) 0) as [->|_]; [now rewrite attrs_prs_0|reflexivity]. Qed.

Theorem ct_render_interp v : ct_u8_slot (ct_fg v) -> ct_u8_slot (ct_bg v) -> ct_u8_slot (ct_ul v) ->
  ad_interp_x (ct_render_bytes v [120]) = Some (fold_left sgr_apply (map rn_param_values (ct_before v)) style_default).
Proof.
  intros Ufg Ubg Uul. rewrite ct_render_bytes_csis. apply seqs_interp_x.
  - rewrite ct_before_eq. repeat (apply Forall_app; split; [apply olist_ok; [intros c Hc; exact Hc|assumption]|]).
    apply attrs_prs_ok.
  - unfold ct_after. destruct (ct_attrs v =? 0).
    + apply Forall_app. split; [destruct (ct_is_some _)|destruct (_ || _)]; repeat constructor.
    + repeat constructor.
Qed.

(* with attributes among Bold .. CrossedOut: the colours of the value (named ones as palette entries) and the
   effects of its attributes, taken in declaration order *)
Theorem ct_render_meaning v :
  ct_u8_slot (ct_fg v) -> ct_u8_slot (ct_bg v) -> ct_u8_slot (ct_ul v) ->
  Forall (fun x => attr_plain x = true) (filter (ct_has (ct_attrs v)) g_ct_attr_iterator) ->
  ad_interp_x (ct_render_bytes v [120]) =
  Some (mkStyle (ct_slot_colour (ct_fg v)) (ct_slot_colour (ct_bg v)) (ct_slot_colour (ct_ul v))
                (fold_left eff_step (map ct_attr_effect (filter (ct_has (ct_attrs v)) g_ct_attr_iterator)) 0)).
Proof.
  intros Ufg Ubg Uul Hplain.
  rewrite ct_render_interp, ct_before_eq, !app_assoc, map_app, fold_left_app, <- !app_assoc, before_colours by assumption.
  unfold ct_attrs_prs. now rewrite (attrs_fold _ Hplain).
Qed.

(* the crossterm colour the adapter model chooses, as a value of the Rust enum *)
Definition ct_ansi_ctors : list ct_color :=
  [CtBlack; CtDarkRed; CtDarkGreen; CtDarkYellow; CtDarkBlue; CtDarkMagenta; CtDarkCyan; CtGrey;
   CtDarkGrey; CtRed; CtGreen; CtYellow; CtBlue; CtMagenta; CtCyan; CtWhite].
Definition ct_of_colour (c : colour) : ct_color :=
  match c with
  | CAnsi i => nth (N.to_nat i) ct_ansi_ctors CtReset
  | CIdx n => CtAnsiValue n
  | CRgb r g b => CtRgb r g b
  end.

(* by name, the constructor of the adapter model IS that variant; it is printed as the palette entry with
   the ANSI colour's number *)
Lemma image_colour c : ad_colour_ok (Some c) ->
  ct_color_of (ad_conv_colour ad_gen_crossterm_colors c) = Some (ct_of_colour c) /\
  ad_norm_colour (ct_color_colour (ct_of_colour c)) = ad_norm_colour (ad_project_colour AdCrossterm (Some c)).
Proof.
  destruct c as [i|n|r g b]; cbn [ad_colour_ok]; intros H.
  - apply ansi_cases in H. repeat (destruct H as [->|H]; [split; reflexivity|]). subst. split; reflexivity.
  - split; reflexivity.
  - split; reflexivity.
Qed.

Lemma image_slot o : ad_colour_ok o ->
  ct_slot_of (option_map (ad_conv_colour ad_gen_crossterm_colors) o) = Some (option_map ct_of_colour o) /\
  ad_norm_colour (ct_slot_colour (option_map ct_of_colour o)) = ad_norm_colour (ad_project_colour AdCrossterm o).
Proof.
  destruct o as [c|]; intros H; [|split; reflexivity].
  destruct (image_colour c H) as [A B]. cbn [option_map ct_slot_of ct_slot_colour]. rewrite A. split; [reflexivity|exact B].
Qed.

Lemma image_u8 o : ad_colour_ok o -> ct_u8_colour o -> ct_u8_slot (option_map ct_of_colour o).
Proof.
  destruct o as [[i|n|r g b]|]; cbn; auto. intros H _.
  apply ansi_cases in H. repeat (destruct H as [->|H]; [exact I|]). subst. exact I.
Qed.

(* the attribute set `attributes.set(..)` builds for an effect set, through the translated `Attributes::set` *)
Definition ct_image_attrs (e : N) : option N :=
  ct_attrs_of g_ct_attrs_set g_ct_attr_names (ad_conv_effects ad_gen_crossterm_effects e) 0.

(* the attribute `to_crossterm` sets for effect k: Bold .. Underdashed and SlowBlink are declared in the order of the
   effects, RapidBlink is skipped *)
Definition ct_eff_attr (k : N) : N := if k <? 9 then k + 1 else k + 2.

Lemma attr_effect_attr k : ct_attr_effect (ct_eff_attr k) = k.
Proof.
  unfold ct_attr_effect, ct_eff_attr. destruct (N.ltb_spec k 9).
  - destruct (N.ltb_spec (k + 1) 10); lia.
  - destruct (N.ltb_spec (k + 2) 10); lia.
Qed.

(* a row (effect, attribute name) of the adapter's table of effect statements names that attribute *)
Definition ct_eff_row (row : N * list N) : Prop :=
  ct_index_of (snd row) g_ct_attr_names 0 = Some (ct_eff_attr (fst row)) /\
  ct_attr_ok (ct_eff_attr (fst row)) /\ attr_plain (ct_eff_attr (fst row)) = true.

Lemma eff_attr_rows : Forall ct_eff_row ad_gen_crossterm_effects.
Proof. repeat constructor. Qed.    (* the 12 rows of the adapter's table *)

(* `Attributes::set` over the names chosen from a table of such rows: no overflow, the bits of the attributes *)
Lemma ct_attrs_of_rows tbl : Forall ct_eff_row tbl -> forall e acc,
  ct_attrs_of g_ct_attrs_set g_ct_attr_names (ad_conv_effects tbl e) acc =
  Some (fold_left (fun a k => N.lor a (bit (ct_eff_attr k + 1))) (filter (N.testbit e) (map fst tbl)) acc).
Proof.
  induction 1 as [|[k nm] t (Hi & (Hb & _) & _) _ IH]; intros e acc; cbn [ad_conv_effects map filter fst snd] in *;
    [reflexivity|].
  destruct (N.testbit e k); [|apply IH].
  cbn [ct_attrs_of fold_left]. rewrite Hi. unfold g_ct_attrs_set. rewrite Hb. apply IH.
Qed.

Definition ct_attrs_bits (ks : list N) : N := fold_left (fun a k => N.lor a (bit (ct_eff_attr k + 1))) ks 0.

Lemma ct_image_attrs_eq e : ct_image_attrs e = Some (ct_attrs_bits (members e)).
Proof. exact (ct_attrs_of_rows _ eff_attr_rows e 0). Qed.

Lemma ct_has_testbit a x : ct_has a x = N.testbit a (x + 1).
Proof.
  unfold ct_has. apply land_bit_ne0.
Qed.

Lemma ct_has_attrs_bits ks y : ct_has (ct_attrs_bits ks) y = true <-> In y (map ct_eff_attr ks).
Proof.
  rewrite ct_has_testbit. unfold ct_attrs_bits.
  assert (F : forall a, N.testbit (fold_left (fun a k => N.lor a (bit (ct_eff_attr k + 1))) ks a) (y + 1) = true <->
                        N.testbit a (y + 1) = true \/ In y (map ct_eff_attr ks)).
  { induction ks as [|k t IH]; intros a; cbn [fold_left map In]; [tauto|].
    rewrite IH, N.lor_spec, bit_testbit, orb_true_iff, N.eqb_eq. intuition lia. }
  rewrite F, N.bits_0. intuition discriminate.
Qed.

(* SetAttributes on the image: the attributes of the effects in e, and in the order of the effects *)
Lemma ct_set_attrs_image e :
  filter (ct_has (ct_attrs_bits (members e))) g_ct_attr_iterator = map ct_eff_attr (members e).
Proof.
  assert (S : map ct_eff_attr (members e) =
              filter (fun y => existsb (N.eqb y) (map ct_eff_attr idxs) && mem e (ct_attr_effect y)) g_ct_attr_iterator).
  { unfold members. rewrite (filter_map_inv _ _ _ _ attr_effect_attr), filter_andb. reflexivity. }
  rewrite S. apply filter_selection. intros y _. rewrite <- S. apply ct_has_attrs_bits.
Qed.

Lemma image_attrs_plain e : Forall (fun x => attr_plain x = true) (map ct_eff_attr (members e)).
Proof.
  apply Forall_map, Forall_filter_keep. change idxs with (map fst ad_gen_crossterm_effects). apply Forall_map.
  exact (Forall_impl _ (fun row H => proj2 (proj2 H)) eff_attr_rows).
Qed.

(* a terminal has one underline attribute *)

Lemma last_kind_wins_off_mask e : valid e ->
  N.ldiff (rn_last_kind_wins e) underline_mask = N.ldiff e underline_mask.
Proof.
  intros V. apply N.bits_inj. intros j. rewrite !N.ldiff_spec, mask_bits.
  destruct (is_ul j) eqn:U; cbn [negb]; [now rewrite !andb_false_r|]. rewrite !andb_true_r.
  rewrite <- (effects_fold e V), fold_bits, U, existsb_members, N.bits_0. cbn [orb]. fold (mem e j).
  destruct (N.ltb_spec j 12); [reflexivity|]. symmetry. now apply valid_high.
Qed.

Lemma one_underline_kinds e : ad_one_underline e = true -> (length (rn_underline_kinds e) <= 1)%nat.
Proof.
  intros H.
  assert (E : rn_underline_kinds e = rn_underline_kinds (N.land e underline_mask)).
  { apply filter_ext_in. intros k Hk. unfold mem. rewrite N.land_spec. cbn [In] in Hk.
    repeat (destruct Hk as [<-|Hk]; [now rewrite andb_true_r|]). destruct Hk. }
  rewrite E. unfold ad_one_underline in H. cbv zeta in H.
  repeat (apply orb_true_iff in H; destruct H as [H|H]); apply N.eqb_eq in H; rewrite H; apply Nat.leb_le; reflexivity.
Qed.

Definition ct_image (s : sstyle) : ct_style :=
  mkCtStyle (option_map ct_of_colour (s_fg s)) (option_map ct_of_colour (s_bg s)) (option_map ct_of_colour (s_ul s))
            (ct_attrs_bits (members (s_eff s))).

(* the adapter's value is [ct_image s]; "x" is shown in the colours of s (the 16 ANSI colours as palette entries) and
   its effects, of the underline kinds the last one *)
Theorem crossterm_image_rendition s : ad_src_ok s -> ct_src_u8 s ->
  g_ct_of_tstyle (ad_to_crossterm s) = Some (ct_image s) /\
  ad_interp_x (ct_render_bytes (ct_image s) [120]) =
  Some (mkStyle (ct_slot_colour (option_map ct_of_colour (s_fg s))) (ct_slot_colour (option_map ct_of_colour (s_bg s)))
                (ct_slot_colour (option_map ct_of_colour (s_ul s))) (rn_last_kind_wins (s_eff s))).
Proof.
  intros (Hfg & Hbg & Hul & He) (Ufg & Ubg & Uul). split.
  - unfold g_ct_of_tstyle, ct_of_tstyle, ad_to_crossterm. cbn [ad_t_fg ad_t_bg ad_t_ul ad_t_attrs].
    rewrite (proj1 (image_slot _ Hfg)), (proj1 (image_slot _ Hbg)), (proj1 (image_slot _ Hul)).
    fold (ct_image_attrs (s_eff s)). rewrite ct_image_attrs_eq. reflexivity.
  - rewrite ct_render_meaning; cbn [ct_image ct_fg ct_bg ct_ul ct_attrs]; try (apply image_u8; assumption).
    + rewrite ct_set_attrs_image, map_map, (map_ext _ (fun k => k) attr_effect_attr), map_id, effects_fold by exact He.
      reflexivity.
    + rewrite ct_set_attrs_image. apply image_attrs_plain.
Qed.

(* the adapter's value, read as a crossterm value, renders (no panic) to bytes that Spec/Vt + Spec/Sgr interpret,
   from the terminal's default state, as "x" in the projection of the source style *)
Theorem crossterm_render_image s : ad_src_ok s -> ct_src_u8 s ->
  exists v bytes,
    g_ct_of_tstyle (ad_to_crossterm s) = Some v /\ g_crossterm_render v = Some bytes /\
    ad_render_ok_but_underline (ad_project AdCrossterm s) bytes = true /\
    (ad_one_underline (s_eff s) = true -> ad_render_ok (ad_project AdCrossterm s) bytes = true).
Proof.
  intros H U. destruct (crossterm_image_rendition s H U) as [V I]. destruct H as (Hfg & Hbg & Hul & He).
  exists (ct_image s), (ct_render_bytes (ct_image s) [120]).
  split; [exact V|]. split; [apply g_crossterm_render_eq|].
  assert (P : ad_project AdCrossterm s =
              mkStyle (ad_project_colour AdCrossterm (s_fg s)) (ad_project_colour AdCrossterm (s_bg s))
                      (ad_project_colour AdCrossterm (s_ul s)) (s_eff s)).
  { unfold ad_project, ad_project_effects. cbn [ad_has_ul]. rewrite N.lor_0_r.
    change (ad_expressible AdCrossterm) with (N.ones 12). rewrite N.land_ones, N.mod_small by exact He. reflexivity. }
  unfold ad_render_ok_but_underline, ad_render_ok. rewrite I, P. unfold ad_norm_style, eff_off_mask. cbn [s_fg s_bg s_ul s_eff].
  rewrite (proj2 (image_slot _ Hfg)), (proj2 (image_slot _ Hbg)), (proj2 (image_slot _ Hul)).
  split.
  - rewrite (last_kind_wins_off_mask _ He). apply sstyle_eqb_refl.
  - intros One. rewrite (last_kind_wins_id _ (one_underline_kinds _ One)). apply sstyle_eqb_refl.
Qed.

(* anstyle_crossterm::to_crossterm (translated, Generated/AdaptersFn.v), the reading of its result as a crossterm
   value, crossterm's rendering (translated): one pipeline from an anstyle style to bytes *)
Definition g_crossterm_pipeline (s : sstyle) : option (list N) :=
  t <- g_to_crossterm s ;; v <- g_ct_of_tstyle t ;; g_crossterm_render v.

Theorem crossterm_rendered_is_projection s : ad_src_ok s -> ct_src_u8 s ->
  exists bytes, g_crossterm_pipeline s = Some bytes /\
    ad_render_ok_but_underline (ad_project AdCrossterm s) bytes = true /\
    (ad_one_underline (s_eff s) = true -> ad_render_ok (ad_project AdCrossterm s) bytes = true).
Proof.
  intros H U. destruct (crossterm_render_image s H U) as (v & bytes & Ev & Eb & R).
  exists bytes. split; [|exact R].
  unfold g_crossterm_pipeline. rewrite (g_to_crossterm_eq s H), Ev. exact Eb.
Qed.

(* the same against the meaning table of Spec/Targets.v: what the library renders for the adapter's value is what
   the table says that value means *)
Theorem crossterm_rendered_is_meaning s : ad_src_ok s -> ct_src_u8 s -> ad_one_underline (s_eff s) = true ->
  exists t m bytes, g_to_crossterm s = Some t /\ ad_meaning AdCrossterm t = Some m /\
    (v <- g_ct_of_tstyle t ;; g_crossterm_render v) = Some bytes /\ ad_render_ok m bytes = true.
Proof.
  intros H U One. destruct (crossterm_render_image s H U) as (v & bytes & Ev & Eb & _ & R).
  exists (ad_to_crossterm s), (ad_project AdCrossterm s), bytes.
  split; [exact (g_to_crossterm_eq s H)|]. split; [exact (ad_convert_meaning AdCrossterm s H)|].
  split; [rewrite Ev; exact Eb|exact (R One)].
Qed.

(* with two underline kinds at once the full comparison FAILS (UNDERLINE + DOUBLE_UNDERLINE: the terminal shows the
   double underline only, the meaning table has both): the hypothesis [ad_one_underline] cannot be dropped *)
Theorem crossterm_rendered_two_underlines_refuted :
  exists s bytes, ad_src_ok s /\ ct_src_u8 s /\ g_crossterm_pipeline s = Some bytes /\
    ad_render_ok (ad_project AdCrossterm s) bytes = false.
Proof.
  exists (mkStyle None None None 24). eexists.    (* 24 = bit UNDERLINE + bit DOUBLE_UNDERLINE *)
  split; [unfold ad_src_ok; cbn; repeat split; lia|].
  split; [unfold ct_src_u8; cbn; auto|].
  split; [vm_compute; reflexivity|vm_compute; reflexivity].
Qed.

(* colours switched off (NO_COLOR, or force_color_output(false)): every colour command prints "ESC [ m" -- an SGR
   reset -- before the attributes; the text then shows the attributes only (the attribute set 4 = 1 << (Bold + 1)) *)
Theorem crossterm_colours_disabled_witness :
  g_crossterm_render_str true (mkCtStyle (Some CtRed) None None 4) [120] =
  Some [27; 91; 109; 27; 91; 49; 109; 120; 27; 91; 48; 109].
Proof. vm_compute. reflexivity. Qed.
