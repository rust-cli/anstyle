(* The colour tables of owo-colors 4.0.0 as translated (Generated/OwoFn.v:
   DynColor::fmt_raw_ansi_fg / _bg of AnsiColors, XtermColors, Rgb and DynColors, XtermColors::from) are the hand
   model Model/Owo.v [owo_raw].  The translator writes a `match` over a table-generated enum as a chain
   `if x =? 0 then k v0 else if x =? 1 then k v1 .. else None`; such a chain is [arm_chain] over the list of its
   rows, and the rows of every chain here are the model's table. *)
From Coq Require Import NArith List Bool Lia.
From AV Require Import Model.Base Generated.Table Proofs.TableFacts Model.Owo Generated.OwoFn.
Import ListNotations.
Local Open Scope N_scope.

Fixpoint arm_chain {V R : Type} (x : N) (rows : list (N * V)) (k : V -> R) (dflt : R) : R :=
  match rows with
  | [] => dflt
  | (i, v) :: t => if x =? i then k v else arm_chain x t k dflt
  end.

Definition arm_rows {V : Type} (v : N -> V) (l : list N) : list (N * V) := map (fun i => (i, v i)) l.

Lemma arm_chain_In {V R} (v : N -> V) (k : V -> R) dflt x l :
  In x l -> arm_chain x (arm_rows v l) k dflt = k (v x).
Proof.
  induction l as [|i t IH]; intros H; [destruct H|]. cbn [arm_rows map arm_chain].
  destruct (N.eqb_spec x i) as [->|Hne]; [reflexivity|].
  apply IH. destruct H as [->|H]; [congruence|exact H].
Qed.

Lemma arm_chain_not_In {V R} (v : N -> V) (k : V -> R) dflt x l :
  ~ In x l -> arm_chain x (arm_rows v l) k dflt = dflt.
Proof.
  induction l as [|i t IH]; intros H; [reflexivity|]. cbn [arm_rows map arm_chain].
  destruct (N.eqb_spec x i) as [->|Hne]; [destruct H; now left|].
  apply IH. intros Hx. apply H. now right.
Qed.

Definition owo_ansi_variants : list N := range_from 0 17.

Lemma owo_ansi_variants_In a : a < 17 -> In a owo_ansi_variants.
Proof. intros H. apply range_from_In. cbn. lia. Qed.

Definition owo_written (f v : list N) : option (list N * (unit + unit)) := Some (owo_write_str f v, inl tt).

Lemma g_owo_ansi_raw_chain (bg : bool) a f :
  (if bg then g_owo_ansi_fmt_raw_ansi_bg else g_owo_ansi_fmt_raw_ansi_fg) a f =
  arm_chain a (arm_rows (fun i => owo_join (owo_raw bg (OwAnsi i))) owo_ansi_variants) (owo_written f) None.
Proof. destruct bg; reflexivity. Qed.

Lemma g_owo_xterm_raw_chain (bg : bool) x f :
  (if bg then g_owo_xterm_fmt_raw_ansi_bg else g_owo_xterm_fmt_raw_ansi_fg) x f =
  arm_chain x (arm_rows (fun i => owo_join (owo_raw bg (OwXterm i))) all_bytes) (owo_written f) None.
Proof. destruct bg; reflexivity. Qed.

Lemma g_owo_ansi_raw_fg_eq a f : a < 17 ->
  g_owo_ansi_fmt_raw_ansi_fg a f = Some (f ++ owo_join (owo_raw false (OwAnsi a)), inl tt).
Proof. intros H. rewrite (g_owo_ansi_raw_chain false), arm_chain_In by now apply owo_ansi_variants_In. reflexivity. Qed.

Lemma g_owo_ansi_raw_bg_eq a f : a < 17 ->
  g_owo_ansi_fmt_raw_ansi_bg a f = Some (f ++ owo_join (owo_raw true (OwAnsi a)), inl tt).
Proof. intros H. rewrite (g_owo_ansi_raw_chain true), arm_chain_In by now apply owo_ansi_variants_In. reflexivity. Qed.

Lemma g_owo_xterm_raw_fg_eq x f : x < 256 ->
  g_owo_xterm_fmt_raw_ansi_fg x f = Some (f ++ owo_join (owo_raw false (OwXterm x)), inl tt).
Proof. intros H. rewrite (g_owo_xterm_raw_chain false), arm_chain_In by now apply all_bytes_In. reflexivity. Qed.

Lemma g_owo_xterm_raw_bg_eq x f : x < 256 ->
  g_owo_xterm_fmt_raw_ansi_bg x f = Some (f ++ owo_join (owo_raw true (OwXterm x)), inl tt).
Proof. intros H. rewrite (g_owo_xterm_raw_chain true), arm_chain_In by now apply all_bytes_In. reflexivity. Qed.

(* XtermColors::from(u8): the table maps n to the variant at position n, and has no arm above 255 *)
Lemma g_owo_xterm_from_chain x : g_owo_xterm_from x = arm_chain x (arm_rows (fun i => i) all_bytes) Some None.
Proof. reflexivity. Qed.

Lemma g_owo_xterm_from_eq x : x < 256 -> g_owo_xterm_from x = Some x.
Proof. intros H. rewrite g_owo_xterm_from_chain. now apply arm_chain_In, all_bytes_In. Qed.

Lemma g_owo_xterm_from_above x : 256 <= x -> g_owo_xterm_from x = None.
Proof.
  intros H. rewrite g_owo_xterm_from_chain. apply arm_chain_not_In.
  rewrite <- all_bytes_In. lia.
Qed.

Lemma g_owo_rgb_raw_eq (bg : bool) r g b f :
  (if bg then g_owo_rgb_fmt_raw_ansi_bg else g_owo_rgb_fmt_raw_ansi_fg) (owo_rgb_new r g b) f =
  (f ++ owo_join (owo_raw bg (OwRgb r g b)), inl tt).
Proof.
  destruct bg; cbn [g_owo_rgb_fmt_raw_ansi_bg g_owo_rgb_fmt_raw_ansi_fg owo_rgb_new owo_raw owo_join];
    unfold owo_write_str; repeat (rewrite <- ?app_assoc; cbn [app]); reflexivity.
Qed.

Lemma g_owo_dyn_raw_fg_eq c f : owo_dyn_ok c ->
  g_owo_dyn_fmt_raw_ansi_fg c f = Some (f ++ owo_join (owo_raw false c), inl tt).
Proof.
  intros H. unfold g_owo_dyn_fmt_raw_ansi_fg. destruct c as [a|[]|x|r g b]; cbn [owo_dyn_ok] in H.
  - rewrite (g_owo_ansi_raw_fg_eq a f H). reflexivity.
  - rewrite (g_owo_xterm_raw_fg_eq x f H). reflexivity.
  - rewrite (g_owo_rgb_raw_eq false). reflexivity.
Qed.

Lemma g_owo_dyn_raw_bg_eq c f : owo_dyn_ok c ->
  g_owo_dyn_fmt_raw_ansi_bg c f = Some (f ++ owo_join (owo_raw true c), inl tt).
Proof.
  intros H. unfold g_owo_dyn_fmt_raw_ansi_bg. destruct c as [a|[]|x|r g b]; cbn [owo_dyn_ok] in H.
  - rewrite (g_owo_ansi_raw_bg_eq a f H). reflexivity.
  - rewrite (g_owo_xterm_raw_bg_eq x f H). reflexivity.
  - rewrite (g_owo_rgb_raw_eq true). reflexivity.
Qed.

Lemma g_owo_get_dyncolors_eq :
  (forall a, g_owo_ansi_get_dyncolors_fg a = OwAnsi a /\ g_owo_ansi_get_dyncolors_bg a = OwAnsi a) /\
  (forall x, g_owo_xterm_get_dyncolors_fg x = OwXterm x /\ g_owo_xterm_get_dyncolors_bg x = OwXterm x) /\
  (forall r g b, g_owo_rgb_get_dyncolors_fg (owo_rgb_new r g b) = OwRgb r g b /\
                 g_owo_rgb_get_dyncolors_bg (owo_rgb_new r g b) = OwRgb r g b) /\
  (forall c, g_owo_dyn_get_dyncolors_fg c = c /\ g_owo_dyn_get_dyncolors_bg c = c).
Proof. repeat split. Qed.
