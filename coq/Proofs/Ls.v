(* Proofs/Ls.v -- C12: the model of anstyle_ls::parse against Spec/SgrCodes.
   The table of arms is compared with [sgr_one] code by code, the style a variable:
   for every code but 24 the two sides are convertible.  "24 = not underlined" clears
   five flags in the specification and one in the crate; they agree on the effect sets
   the loop can reach ([plain]). *)
From Coq Require Import NArith List Bool Lia Wf_nat.
From AV Require Import Generated.Ls Spec.StyleRec Spec.SgrCodes Model.Base Model.Text Model.Ls Proofs.BaseFacts Proofs.Text.
Import ListNotations.
Local Open Scope N_scope.

(* a code that does not look ahead *)
Definition simple_step (c : N) (st : tstyle) : tstyle :=
  match ls_lookup c ls_arms with
  | Some a => ls_apply a st
  | None => st
  end.

(* the slot written by an arm that looks ahead, in the form of [ext_slot] *)
Definition arm_slot (o : option ls_action) : option (tstyle -> option tcolor -> tstyle) :=
  match o with Some (LsExtended t) => Some (set_target t) | _ => None end.

Lemma ls_loop_cons : forall c rest st,
  ls_loop (c :: rest) st =
  match arm_slot (ls_lookup c ls_arms) with
  | None => ls_loop rest (simple_step c st)
  | Some set =>
      match rest with
      | a :: n :: rest1 =>
          if a =? 5 then ls_loop rest1 (set st (Some (TAnsi256 n)))
          else if a =? 2 then
            match rest1 with
            | g :: b :: rest2 => ls_loop rest2 (set st (Some (TRgb n g b)))
            | _ => st
            end
          else st
      | _ => st
      end
  end.
Proof.
  intros c rest st. cbn [ls_loop]. unfold simple_step.
  destruct (ls_lookup c ls_arms) as [[]|]; reflexivity.
Qed.

Lemma ls_lookup_In : forall c a arms, ls_lookup c arms = Some a -> In (c, a) arms.
Proof.
  intros c a. induction arms as [|[k a'] arms IH]; cbn [ls_lookup]; [discriminate|].
  destruct (N.eqb_spec c k) as [->|_]; intros H; [injection H as ->; now left | right; now apply IH].
Qed.

Lemma set_target_eff : forall t st x, t_eff (set_target t st x) = t_eff st.
Proof. intros [] st x; reflexivity. Qed.

Lemma arm_slot_eff : forall o set, arm_slot o = Some set -> forall st x, t_eff (set st x) = t_eff st.
Proof.
  intros [[]|] set H; try discriminate H. injection H as <-. apply set_target_eff.
Qed.

Lemma ext_slot_arm : forall c, c < 256 -> ext_slot c = arm_slot (ls_lookup c ls_arms).
Proof. apply (bytes_ext ext_slot (fun c => arm_slot (ls_lookup c ls_arms))). vm_compute. reflexivity. Qed.

Lemma step_conv : forall c st, c < 256 -> c <> 24 -> simple_step c st = sgr_one c st.
Proof.
  intros c st Hc H24. apply N.eqb_neq in H24.
  assert (E : map (fun c => if c =? 24 then st else simple_step c st) all_bytes
              = map (fun c => if c =? 24 then st else sgr_one c st) all_bytes) by (vm_compute; reflexivity).
  apply bytes_ext with (c := c) in E; [|exact Hc].
  cbv beta in E. now rewrite H24 in E.
Qed.

Definition fancy : list N := [DOUBLE_UNDERLINE; CURLY_UNDERLINE; DOTTED_UNDERLINE; DASHED_UNDERLINE].

(* no code of the statement sets one of them *)
Definition plain (e : N) : Prop := forall k, In k fancy -> N.testbit e k = false.

Lemma remove_absent : forall e k, N.testbit e k = false -> eff_remove e k = e.
Proof.
  intros e k H. apply N.bits_inj. intros i. rewrite remove_bit.
  destruct (N.eqb_spec k i) as [<-|_]; [now rewrite H | apply andb_true_r].
Qed.

Lemma remove_all_absent : forall ks e, (forall k, In k ks -> N.testbit e k = false) -> eff_remove_all e ks = e.
Proof.
  unfold eff_remove_all. induction ks as [|k ks IH]; intros e H; [reflexivity|].
  cbn [fold_left]. rewrite remove_absent by (apply H; now left). apply IH. intros j Hj. apply H. now right.
Qed.

Lemma remove_plain : forall e k, plain e -> plain (eff_remove e k).
Proof. intros e k H j Hj. now rewrite remove_bit, (H j Hj). Qed.

Lemma remove_all_plain : forall ks e, plain e -> plain (eff_remove_all e ks).
Proof.
  unfold eff_remove_all. induction ks as [|k ks IH]; intros e H; [exact H|].
  cbn [fold_left]. now apply IH, remove_plain.
Qed.

Lemma insert_plain : forall e b, existsb (N.eqb b) fancy = false -> plain e -> plain (eff_insert e b).
Proof.
  intros e b Hb H k Hk. rewrite insert_bit, (H k Hk). cbn [orb].
  destruct (N.eqb_spec b k) as [->|_]; [|reflexivity].
  rewrite <- Hb. symmetry. apply existsb_exists. exists k. now rewrite N.eqb_refl.
Qed.

Definition arm_plain (ka : N * ls_action) : bool :=
  match snd ka with LsInsert b => negb (existsb (N.eqb b) fancy) | _ => true end.

Lemma step_plain : forall c st, plain (t_eff st) -> plain (t_eff (simple_step c st)).
Proof.
  intros c st H. unfold simple_step. destruct (ls_lookup c ls_arms) as [a|] eqn:L; [|exact H].
  assert (T : forallb arm_plain ls_arms = true) by reflexivity.
  rewrite forallb_forall in T. specialize (T _ (ls_lookup_In _ _ _ L)). unfold arm_plain in T. cbn [snd] in T.
  destruct a; cbn [ls_apply set_effects t_eff]; rewrite ?set_target_eff; try exact H.
  - intros k _. apply N.bits_0.
  - apply insert_plain; [now apply negb_true_iff | exact H].
  - now apply remove_all_plain.
Qed.

Lemma step_agree : forall c st, c < 256 -> plain (t_eff st) -> simple_step c st = sgr_one c st.
Proof.
  intros c st Hc H. destruct (N.eq_dec c 24) as [->|H24]; [|now apply step_conv].
  change (set_effects st (eff_remove_all (t_eff st) [UNDERLINE])
          = set_effects st (eff_remove_all (eff_remove (t_eff st) UNDERLINE) fancy)).
  now rewrite (remove_all_absent fancy) by (apply remove_plain, H).
Qed.

Lemma loop_is_fold_plain : forall codes st,
  Forall (fun c => c < 256) codes -> well_formed codes = true -> plain (t_eff st) ->
  ls_loop codes st = sgr_codes st codes.
Proof.
  induction codes as [codes IH] using (induction_ltof1 _ (@length N)). unfold ltof in IH.
  intros st Hb Hwf Hp. destruct codes as [|c rest]; [reflexivity|].
  apply Forall_cons_iff in Hb as [Hc Hb].
  rewrite ls_loop_cons. cbn [sgr_codes well_formed] in *. rewrite (ext_slot_arm c Hc) in *.
  destruct (arm_slot (ls_lookup c ls_arms)) as [set|] eqn:Hs.
  - (* both sides read the same complete ;5;n or ;2;r;g;b form *)
    pose proof (arm_slot_eff _ _ Hs) as Heff.
    destruct rest as [|a [|n rest1]]; try discriminate Hwf.
    pose proof (Forall_inv_tail (Forall_inv_tail Hb)) as Hb1.
    destruct (a =? 5).
    + apply IH; [cbn; lia | exact Hb1 | exact Hwf | now rewrite Heff].
    + destruct (a =? 2); [|discriminate Hwf].
      destruct rest1 as [|g [|b rest2]]; try discriminate Hwf.
      apply IH; [cbn; lia | exact (Forall_inv_tail (Forall_inv_tail Hb1)) | exact Hwf | now rewrite Heff].
  - rewrite <- (step_agree c st Hc Hp).
    apply IH; [cbn; lia | exact Hb | exact Hwf | now apply step_plain].
Qed.

Lemma loop_is_fold : forall codes,
  Forall (fun c => c <= 255) codes -> well_formed codes = true ->
  ls_loop codes t_default = sgr_codes t_default codes.
Proof.
  intros codes Hb Hwf. apply loop_is_fold_plain; [|exact Hwf|intros k _; apply N.bits_0].
  eapply Forall_impl; [|exact Hb]. cbv beta. intros; lia.
Qed.
