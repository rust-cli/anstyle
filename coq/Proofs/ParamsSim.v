(* The `Params` arrays of params.rs (two 32-element arrays,
   `current_subparams`, `len`) against the abstract parameter groups of Spec/Vt
   (closed groups + the group being built): bounds-checked writes never panic
   while fewer than 32 values are recorded, and ParamsIter yields the groups. *)
From Coq Require Import NArith List Bool Lia Arith.
From AV Require Import Generated.Table Spec.Vt Model.Base Model.Parser Proofs.BaseFacts.
Import ListNotations.
Local Open Scope N_scope.

Section Lists.
Context {A : Type}.

Lemma aset_nat_some : forall (l : list A) i v, (i < length l)%nat -> exists l', aset_nat l i v = Some l'.
Proof.
  induction l as [|h t IH]; intros i v Hi; cbn [length] in Hi; [lia|].
  destruct i as [|j]; cbn [aset_nat]; [eauto|].
  destruct (IH j v) as [t' Ht]; [lia|]. rewrite Ht. eauto.
Qed.

(* induction on a successful write: at the head, or below it *)
Lemma aset_nat_some_ind (v : A) (P : list A -> nat -> list A -> Prop) :
  (forall h t, P (h :: t) O (v :: t)) ->
  (forall h t j t', aset_nat t j v = Some t' -> P t j t' -> P (h :: t) (S j) (h :: t')) ->
  forall l i l', aset_nat l i v = Some l' -> P l i l'.
Proof.
  intros H0 HS. induction l as [|h t IH]; intros i l' H; cbn [aset_nat] in H; [destruct i; discriminate|].
  destruct i as [|j].
  - injection H as <-. apply H0.
  - destruct (aset_nat t j v) as [t'|] eqn:E; [|discriminate]. injection H as <-. auto.
Qed.

Lemma aset_nat_length : forall (l : list A) i v l', aset_nat l i v = Some l' -> length l' = length l.
Proof. intros l i v l'. revert l i l'. refine (aset_nat_some_ind v _ _ _); intros; cbn [length]; congruence. Qed.

Lemma aset_nat_nth_eq : forall (l : list A) i v l', aset_nat l i v = Some l' -> nth_error l' i = Some v.
Proof. intros l i v l'. revert l i l'. refine (aset_nat_some_ind v _ _ _); intros; [reflexivity | assumption]. Qed.

Lemma aset_nat_nth_neq : forall (l : list A) i v l' j,
  aset_nat l i v = Some l' -> j <> i -> nth_error l' j = nth_error l j.
Proof.
  intros l i v l' j H. revert j. revert l i l' H. refine (aset_nat_some_ind v _ _ _).
  - intros h t [|j] Hj; [congruence | reflexivity].
  - intros h t i t' _ IH [|j] Hj; [reflexivity | apply IH; congruence].
Qed.

Lemma aset_nat_firstn : forall (l : list A) i v l', aset_nat l i v = Some l' -> firstn i l' = firstn i l.
Proof. intros l i v l'. revert l i l'. refine (aset_nat_some_ind v _ _ _); intros; cbn [firstn]; congruence. Qed.

Lemma aset_nat_firstn_S : forall (l : list A) i v l',
  aset_nat l i v = Some l' -> firstn (S i) l' = firstn i l ++ [v].
Proof.
  intros l i v l'. revert l i l'. refine (aset_nat_some_ind v _ _ _); [reflexivity|].
  intros h t j t' _ IH. change (firstn (S (S j)) (h :: t')) with (h :: firstn (S j) t'). rewrite IH. reflexivity.
Qed.

Lemma firstn_add_split : forall a b (l x y : list A),
  firstn (a + b) l = x ++ y -> length x = a -> firstn a l = x /\ firstn b (skipn a l) = y.
Proof.
  induction a as [|a IH]; intros b l x y H Hl.
  - destruct x; [|discriminate]. cbn in *. auto.
  - destruct x as [|x0 x]; [discriminate|]. cbn [length] in Hl.
    destruct l as [|h t]; [discriminate|].
    cbn [Nat.add firstn app skipn] in *. injection H as -> H.
    destruct (IH b t x y H) as [E1 E2]; [lia|]. rewrite E1. auto.
Qed.

End Lists.

Fixpoint heads_ok (sub : list N) (off : nat) (G : list (list N)) : Prop :=
  match G with
  | [] => True
  | g :: G' => g <> [] /\ nth_error sub off = Some (N.of_nat (length g))
               /\ heads_ok sub (off + length g) G'
  end.

Definition groups_of (closed : list (list N)) (cur : list N) : list (list N) :=
  closed ++ match cur with [] => [] | _ => [cur] end.

Lemma concat_groups_of : forall closed cur, concat (groups_of closed cur) = concat closed ++ cur.
Proof.
  intros closed cur. unfold groups_of. rewrite concat_app.
  destruct cur; cbn [concat]; now rewrite ?app_nil_r.
Qed.

Record params_rep (ps : params) (closed : list (list N)) (cur : list N) : Prop := {
  pr_sub_len : length (subparams ps) = 32%nat;
  pr_val_len : length (pvals ps) = 32%nat;
  pr_plen : plen ps = N.of_nat (length (concat closed) + length cur);
  pr_bound : (length (concat closed) + length cur <= 32)%nat;
  pr_cur : current_subparams ps = N.of_nat (length cur);
  pr_vals : firstn (length (concat closed) + length cur) (pvals ps) = concat closed ++ cur;
  pr_heads : heads_ok (subparams ps) 0 (groups_of closed cur)
}.

Lemma heads_ok_snoc : forall sub G off g,
  heads_ok sub off (G ++ [g]) <->
  heads_ok sub off G /\ g <> [] /\ nth_error sub (off + length (concat G)) = Some (N.of_nat (length g)).
Proof.
  intros sub. induction G as [|h G IH]; intros off g; cbn [app heads_ok concat length].
  - rewrite Nat.add_0_r. tauto.
  - rewrite IH, app_length, Nat.add_assoc. tauto.
Qed.

Lemma heads_ok_aset : forall sub sub' i v G off,
  heads_ok sub off G -> aset_nat sub i v = Some sub' ->
  (off + length (concat G) <= i)%nat -> heads_ok sub' off G.
Proof.
  intros sub sub' i v. induction G as [|g G IH]; intros off H Hs Hi; cbn [heads_ok] in *; [exact I|].
  destruct H as (Hne & Hh & Ht). cbn [concat] in Hi. rewrite app_length in Hi.
  assert (length g <> 0)%nat by (destruct g; [congruence | discriminate]).
  split; [exact Hne|]. split.
  - rewrite (aset_nat_nth_neq _ _ _ _ off Hs); [exact Hh | lia].
  - apply IH; [exact Ht | exact Hs | lia].
Qed.

Lemma heads_ok_count : forall sub G off, heads_ok sub off G -> (length G <= length (concat G))%nat.
Proof.
  intros sub. induction G as [|g G IH]; intros off H; cbn [heads_ok length concat] in *; [lia|].
  destruct H as (Hne & _ & Ht). rewrite app_length. specialize (IH _ Ht).
  destruct g; [congruence | cbn [length]; lia].
Qed.

Lemma heads_ok_nonempty : forall sub G off, heads_ok sub off G -> Forall (fun g => g <> []) G.
Proof.
  intros sub. induction G as [|g G IH]; intros off H; cbn [heads_ok] in *; constructor.
  - tauto.
  - eapply IH. apply H.
Qed.

(* Params::default / clear *)
Lemma params_rep_clear : forall ps,
  length (subparams ps) = 32%nat -> length (pvals ps) = 32%nat -> params_rep (params_clear ps) [] [].
Proof.
  intros ps H1 H2. constructor; cbn; auto. lia.
Qed.

(* the common body of Params::push and Params::extend (params.rs): both write
   subparams[len - current_subparams] := current_subparams + 1 and params[len] := item;
   they differ in what they leave in `current_subparams` *)
Lemma params_write : forall ps closed cur item,
  params_rep ps closed cur -> (length (concat closed) + length cur < 32)%nat ->
  exists sp pv,
    csub (plen ps) (current_subparams ps) = Some (N.of_nat (length (concat closed))) /\
    cadd 8 (current_subparams ps) 1 = Some (N.of_nat (S (length cur))) /\
    aset (subparams ps) (N.of_nat (length (concat closed))) (N.of_nat (S (length cur))) = Some sp /\
    aset (pvals ps) (plen ps) item = Some pv /\
    length sp = 32%nat /\ length pv = 32%nat /\
    firstn (S (length (concat closed) + length cur)) pv = concat closed ++ cur ++ [item] /\
    heads_ok sp 0 (closed ++ [cur ++ [item]]).
Proof.
  intros ps closed cur item [Hsl Hvl Hpl Hb Hc Hv Hh] Hlt.
  destruct (aset_nat_some (subparams ps) (length (concat closed)) (N.of_nat (S (length cur))))
    as [sp Hsp]; [lia|].
  destruct (aset_nat_some (pvals ps) (length (concat closed) + length cur) item)
    as [pv Hpv]; [lia|].
  exists sp, pv.
  assert (Hcs : csub (plen ps) (current_subparams ps) = Some (N.of_nat (length (concat closed)))).
  { unfold csub. rewrite Hpl, Hc.
    destruct (N.leb_spec (N.of_nat (length cur)) (N.of_nat (length (concat closed) + length cur))); [|lia].
    f_equal. lia. }
  assert (Hca : cadd 8 (current_subparams ps) 1 = Some (N.of_nat (S (length cur)))).
  { unfold cadd. rewrite Hc. change (2 ^ 8) with 256.
    destruct (N.ltb_spec (N.of_nat (length cur) + 1) 256); [|lia]. f_equal. lia. }
  split; [exact Hcs|]. split; [exact Hca|].
  split; [unfold aset; rewrite Nat2N.id; exact Hsp|].
  split; [unfold aset; rewrite Hpl, Nat2N.id; exact Hpv|].
  split; [rewrite (aset_nat_length _ _ _ _ Hsp); exact Hsl|].
  split; [rewrite (aset_nat_length _ _ _ _ Hpv); exact Hvl|].
  split.
  - rewrite (aset_nat_firstn_S _ _ _ _ Hpv), Hv, <- app_assoc. reflexivity.
  - apply heads_ok_snoc. split; [|split].
    + assert (Hcl : heads_ok (subparams ps) 0 closed).
      { unfold groups_of in Hh. destruct cur; [now rewrite app_nil_r in Hh|].
        apply heads_ok_snoc in Hh. tauto. }
      eapply heads_ok_aset; [exact Hcl | exact Hsp | lia].
    + destruct cur; discriminate.
    + cbn [Nat.add]. rewrite (aset_nat_nth_eq _ _ _ _ Hsp). f_equal. f_equal.
      rewrite app_length. cbn [length]. lia.
Qed.

Lemma params_push_rep : forall ps closed cur item,
  params_rep ps closed cur -> (length (concat closed) + length cur < 32)%nat ->
  exists ps', params_push ps item = Some ps' /\ params_rep ps' (closed ++ [cur ++ [item]]) [].
Proof.
  intros ps closed cur item Hr Hlt.
  destruct (params_write ps closed cur item Hr Hlt)
    as (sp & pv & Hcs & Hca & Hsp & Hpv & Hl1 & Hl2 & Hf & Hh).
  unfold params_push. rewrite Hcs, Hca, Hsp, Hpv. eexists; split; [reflexivity|].
  assert (Hlen : (length (concat (closed ++ [cur ++ [item]])) + 0
                  = S (length (concat closed) + length cur))%nat).
  { rewrite concat_app, !app_length. cbn [concat length]. rewrite app_nil_r, app_length. cbn [length]. lia. }
  constructor; cbn [subparams pvals plen current_subparams length]; auto.
  - rewrite Hlen, (pr_plen _ _ _ Hr). lia.
  - rewrite Hlen. lia.
  - rewrite Hlen, Hf, concat_app. cbn [concat]. now rewrite !app_nil_r.
  - unfold groups_of. now rewrite app_nil_r.
Qed.

Lemma params_extend_rep : forall ps closed cur item,
  params_rep ps closed cur -> (length (concat closed) + length cur < 32)%nat ->
  exists ps', params_extend ps item = Some ps' /\ params_rep ps' closed (cur ++ [item]).
Proof.
  intros ps closed cur item Hr Hlt.
  destruct (params_write ps closed cur item Hr Hlt)
    as (sp & pv & Hcs & Hca & Hsp & Hpv & Hl1 & Hl2 & Hf & Hh).
  unfold params_extend. rewrite Hcs, Hca, Hsp, Hpv. eexists; split; [reflexivity|].
  assert (Hlen : (length (concat closed) + length (cur ++ [item])
                  = S (length (concat closed) + length cur))%nat).
  { rewrite app_length. cbn [length]. lia. }
  constructor; cbn [subparams pvals plen current_subparams]; auto.
  - rewrite Hlen, (pr_plen _ _ _ Hr). lia.
  - rewrite Hlen. lia.
  - rewrite app_length. cbn [length]. lia.
  - rewrite Hlen, Hf. reflexivity.
  - unfold groups_of. destruct (cur ++ [item]) eqn:E; [|exact Hh].
    destruct cur; discriminate.
Qed.

Lemma params_iter_groups : forall G fuel p off,
  heads_ok (subparams p) off G ->
  (length G < fuel)%nat ->
  plen p = N.of_nat (off + length (concat G)) ->
  firstn (length (concat G)) (skipn off (pvals p)) = concat G ->
  (off + length (concat G) <= length (pvals p))%nat ->
  params_iter fuel p (N.of_nat off) = Some G.
Proof.
  induction G as [|g G IH]; intros fuel p off Hh Hf Hl Hv Hb.
  - cbn [concat length] in Hl. rewrite Nat.add_0_r in Hl.
    destruct fuel; cbn [params_iter]; rewrite Hl, N.leb_refl; reflexivity.
  - destruct fuel as [|f]; [cbn [length] in Hf; lia|]. cbn [length] in Hf.
    destruct Hh as (Hne & Hhd & Hh'). cbn [concat] in Hl, Hv, Hb. rewrite app_length in Hl, Hv, Hb.
    assert (Hg : (0 < length g)%nat) by (destruct g; [congruence | cbn; lia]).
    cbn [params_iter].
    destruct (N.leb_spec (plen p) (N.of_nat off)) as [Hc|_]; [lia|].
    unfold aget. rewrite Nat2N.id, Hhd.
    destruct (firstn_add_split _ _ _ _ _ Hv eq_refl) as [Hv1 Hv2].
    assert (Hs : slice (pvals p) (N.of_nat off) (N.of_nat off + N.of_nat (length g)) = Some g).
    { unfold slice.
      destruct (N.leb_spec (N.of_nat off) (N.of_nat off + N.of_nat (length g))); [|lia].
      destruct (N.leb_spec (N.of_nat off + N.of_nat (length g)) (N.of_nat (length (pvals p)))); [|lia].
      cbn [andb]. f_equal.
      replace (N.to_nat (N.of_nat off + N.of_nat (length g) - N.of_nat off)) with (length g) by lia.
      rewrite Nat2N.id. exact Hv1. }
    rewrite Hs.
    replace (N.of_nat off + N.of_nat (length g)) with (N.of_nat (off + length g)) by lia.
    rewrite (IH f p (off + length g)%nat); [reflexivity | exact Hh' | lia | | | lia].
    + rewrite Hl. f_equal. lia.
    + rewrite skipn_add. exact Hv2.
Qed.

Lemma params_groups_rep : forall ps closed cur,
  params_rep ps closed cur -> params_groups ps = Some (groups_of closed cur).
Proof.
  intros ps closed cur [Hsl Hvl Hpl Hb Hc Hv Hh].
  unfold params_groups. change (N.to_nat MAX_PARAMS) with 32%nat. change 0 with (N.of_nat 0).
  pose proof (heads_ok_count _ _ _ Hh) as Hcnt.
  apply params_iter_groups; rewrite ?concat_groups_of, ?app_length in *; cbn [skipn Nat.add].
  - exact Hh.
  - lia.
  - exact Hpl.
  - exact Hv.
  - lia.
Qed.
