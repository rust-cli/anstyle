(* What the bytes owo-colors 4.0.0 writes for a Style MEAN: the hand model of the rendering (Model/Owo.v [owo_render],
   proved equal to the translated crate in Proofs/OwoFnGen.v) interpreted from the terminal's default state by
   Spec/Vt + Spec/Sgr (the interpreter of C05 / C07), for the values the adapter anstyle-owo-colors can produce.
   [owo_value s] is the owo_colors::Style the adapter builds for the anstyle style [s] (Proofs/OwoFnGen.v proves it is
   what the translated constructors / builder methods give for the adapter model's [ad_to_owo s]). *)
From Coq Require Import NArith Arith List Bool Lia.
From AV Require Import Spec.Vt Spec.Sgr Spec.Algebra Spec.Render Spec.Targets Model.Base Proofs.TableFacts
  Proofs.FilterFacts Proofs.Style Proofs.Render Proofs.SgrRender Proofs.SgrEffects Generated.Adapters Model.Adapters Model.Owo.
Import ListNotations.
Local Open Scope N_scope.

(* AnsiColors is its variant position: Black .. White = 0 .. 7, Default = 8, BrightBlack .. BrightWhite = 9 .. 16 *)
Definition owo_colour (c : colour) : owo_dyn :=
  match c with
  | CAnsi i => OwAnsi (if i <? 8 then i else i + 1)
  | CIdx n => OwXterm n
  | CRgb r g b => OwRgb r g b
  end.

Definition owo_bit (e k v : N) : N := if N.testbit e k then v else 0.
(* StyleFlags: dimmed 1, italic 2, underline 4, blink 8, (blink_fast 16,) reversed 32, hidden 64, strikethrough 128 *)
Definition owo_flags_of (e : N) : N :=
  owo_bit e DIMMED 1 + owo_bit e ITALIC 2 + owo_bit e UNDERLINE 4 + owo_bit e BLINK 8 + owo_bit e INVERT 32
  + owo_bit e HIDDEN 64 + owo_bit e STRIKETHROUGH 128.

Definition owo_value (s : sstyle) : owo_style :=
  mkOwo (option_map owo_colour (s_fg s)) (option_map owo_colour (s_bg s)) (N.testbit (s_eff s) BOLD) (owo_flags_of (s_eff s)).

(* the values the Rust types hold: u8 components *)
Definition owo_u8_colour (c : option colour) : Prop :=
  match c with Some (CIdx n) => n < 256 | Some (CRgb r g b) => r < 256 /\ g < 256 /\ b < 256 | _ => True end.
Definition owo_src_ok (s : sstyle) : Prop := ad_src_ok s /\ owo_u8_colour (s_fg s) /\ owo_u8_colour (s_bg s).

(* the defect class of owo-colors 4.0.0: a background, no foreground, and an effect the library can express *)
Definition owo_defect (s : sstyle) : bool :=
  match s_fg s, s_bg s with
  | None, Some _ => negb (N.land (s_eff s) (ad_expressible AdOwo) =? 0)
  | _, _ => false
  end.

Definition owo_vals (bg : bool) (c : owo_dyn) : list N :=
  let ext := if bg then 48 else 38 in
  match c with
  | OwAnsi a => [if bg then owo_ansi_bg_code a else owo_ansi_fg_code a]
  | OwCss c => match c with end
  | OwXterm x => [ext; 5; x]
  | OwRgb r g b => [ext; 2; r; g; b]
  end.

Definition owo_eff_vals (bold : bool) (fl : N) : list N :=
  (if bold then [1] else []) ++ flat_map (fun k => if N.testbit fl k then [2 + k] else []) [0; 1; 2; 3; 4; 5; 6; 7].

Definition owo_slot_vals (bg : bool) (o : option owo_dyn) : list N :=
  match o with Some c => owo_vals bg c | None => [] end.
Definition owo_all_vals (v : owo_style) : list N :=
  owo_slot_vals false (ow_fg v) ++ owo_slot_vals true (ow_bg v) ++ owo_eff_vals (ow_bold v) (ow_flags v).

Lemma owo_raw_vals bg c : owo_raw bg c = map owo_dec_u8 (owo_vals bg c).
Proof. destruct c as [a|[]|x|r g b]; destruct bg; reflexivity. Qed.

Lemma owo_effect_params_vals v : owo_effect_params v = map owo_dec_u8 (owo_eff_vals (ow_bold v) (ow_flags v)).
Proof.
  unfold owo_effect_params, owo_flag_codes, owo_eff_vals. cbn [flat_map].
  rewrite !map_app, !map_if. reflexivity.
Qed.

Lemma owo_dec_of n : n < 1000 -> dec_of (owo_dec_u8 n) n.
Proof.
  intros H. unfold owo_dec_u8.
  pose proof (N.div_mod n 10 ltac:(lia)) as E. pose proof (dec3 n) as E'.
  pose proof (N.mod_lt n 10 ltac:(lia)) as M. pose proof (N.mod_lt (n / 10) 10 ltac:(lia)) as M'.
  assert (D : forall a, a < 10 -> dec_of [48 + a] a) by (intros a; exact (dec_of_snoc [] 0 a (conj eq_refl eq_refl))).
  destruct (N.ltb_spec n 10); [now apply D|]. destruct (N.ltb_spec n 100).
  - pose proof (dec_of_snoc _ _ _ (D (n / 10) ltac:(apply N.div_lt_upper_bound; lia)) M) as X.
    replace (10 * (n / 10) + n mod 10) with n in X by lia. exact X.
  - pose proof (dec_of_snoc _ _ _ (dec_of_snoc _ _ _ (D (n / 100) ltac:(apply N.div_lt_upper_bound; lia)) M') M) as X.
    replace (10 * (10 * (n / 100) + (n / 10) mod 10) + n mod 10) with n in X by lia. exact X.
Qed.

(* the effect parameters are a selection from 1 .. 9 *)
Definition owo_codes : list N := [1; 2; 3; 4; 5; 6; 7; 8; 9].
Definition owo_code_on (bold : bool) (fl c : N) : bool := if c =? 1 then bold else N.testbit fl (c - 2).

Lemma owo_eff_vals_filter bold fl : owo_eff_vals bold fl = filter (owo_code_on bold fl) owo_codes.
Proof. rewrite filter_flat_map. reflexivity. Qed.

Lemma owo_eff_vals_codes bold fl : Forall (fun c => In c owo_codes) (owo_eff_vals bold fl).
Proof. rewrite owo_eff_vals_filter. apply Forall_forall. intros c Hc. now apply filter_In in Hc. Qed.

Lemma owo_eff_vals_nil bold fl : fl < 256 -> owo_eff_vals bold fl = [] -> bold = false /\ fl = 0.
Proof.
  intros H E. rewrite owo_eff_vals_filter in E. pose proof (filter_nil _ _ E) as Z. split; [apply (Z 1); cbn; tauto|].
  apply N.bits_inj. intros j. rewrite N.bits_0.
  destruct (N.lt_ge_cases j 8) as [Hj|Hj]; [|now apply (lt_pow2_bits fl 8)].
  specialize (Z (j + 2) ltac:(cbn; lia)). unfold owo_code_on in Z.
  destruct (N.eqb_spec (j + 2) 1); [lia|]. now rewrite N.add_sub in Z.
Qed.

Lemma owo_join_rn l : owo_join l = rn_join 59 l.
Proof.
  induction l as [|x t IH]; [reflexivity|]. destruct t as [|y t']; [reflexivity|].
  change (owo_join (x :: y :: t')) with (x ++ 59 :: owo_join (y :: t')).
  change (rn_join 59 (x :: y :: t')) with (x ++ 59 :: rn_join 59 (y :: t')). now rewrite IH.
Qed.

Definition owo_groups (v : owo_style) : list (list (list N)) := single_groups (map owo_dec_u8 (owo_all_vals v)).

(* the style is one the separator logic of fmt_prefix handles *)
Definition owo_sep_ok (v : owo_style) : Prop :=
  match ow_fg v, ow_bg v with None, Some _ => owo_eff_vals (ow_bold v) (ow_flags v) = [] | _, _ => True end.

Lemma owo_vals_cons bg c : exists x t, owo_vals bg c = x :: t.
Proof. destruct c as [a|[]|x|r g b]; cbn [owo_vals]; eauto. Qed.

Lemma owo_all_vals_nonempty v : ow_flags v < 256 -> owo_is_plain v = false -> owo_all_vals v <> [].
Proof.
  intros Hfl Hp E. destruct v as [fg bg bold fl]. unfold owo_all_vals in E. cbn [ow_fg ow_bg ow_bold ow_flags] in *.
  destruct fg as [c|]; [destruct (owo_vals_cons false c) as (x & t & X); cbn [owo_slot_vals] in E; now rewrite X in E|].
  destruct bg as [c|]; [destruct (owo_vals_cons true c) as (x & t & X); cbn [owo_slot_vals app] in E; now rewrite X in E|].
  destruct (owo_eff_vals_nil bold fl Hfl E) as [-> ->]. discriminate.
Qed.

Lemma owo_prefix_csi v : owo_is_plain v = false -> owo_sep_ok v -> owo_prefix v = rn_csi (owo_groups v) 109.
Proof.
  (* four cases (fg?, bg?), then whether an effect parameter follows: [owo_sep_ok] excludes the one combination
     (no fg, a bg, some effect) in which fmt_prefix omits the ";" *)
  intros Hp Hs. unfold owo_prefix. rewrite Hp. unfold rn_csi, owo_groups. rewrite single_groups_print.
  unfold owo_all_vals in *. rewrite !map_app, !rn_join_app, (owo_effect_params_vals v).
  destruct v as [fg bg bold fl]. unfold owo_sep_ok in Hs. cbn [ow_fg ow_bg ow_bold ow_flags] in *.
  destruct fg as [cf|]; [destruct (owo_vals_cons false cf) as (xf & tf & Xf)|];
    (destruct bg as [cb|]; [destruct (owo_vals_cons true cb) as (xb & tb & Xb)|]);
    cbn [owo_slot_vals] in *; rewrite ?owo_raw_vals, ?Xf, ?Xb in *;
    destruct (owo_eff_vals bold fl) as [|e0 E']; try discriminate Hs;
    cbn [map app rn_nonempty andb] in *; rewrite ?owo_join_rn, ?app_nil_r; repeat (rewrite <- app_assoc; cbn [app]);
    try reflexivity.
Qed.

Definition owo_val_ok (bg : bool) (c : owo_dyn) : Prop := Forall (fun n => n < 256) (owo_vals bg c).

Definition owo_meaning (c : owo_dyn) : option colour :=
  match c with
  | OwAnsi a => if a <? 8 then Some (CAnsi a) else if a =? 8 then None else Some (CAnsi (a - 1))
  | OwCss c => match c with end
  | OwXterm x => Some (CIdx x)
  | OwRgb r g b => Some (CRgb r g b)
  end.

Definition single (n : N) : list N := [n].

Lemma owo_colour_apply (bg : bool) c st rest : owo_dyn_ok c ->
  sgr_groups st (map single (owo_vals bg c) ++ rest) = sgr_groups ((if bg then set_bg else set_fg) st (owo_meaning c)) rest.
Proof.
  intros H. destruct c as [a|[]|x|r g b]; cbn [owo_dyn_ok] in H; [|now destruct bg..].
  pose proof (proj2 (range_from_In 17 0 a) ltac:(lia)) as HI. cbn in HI.
  repeat (destruct HI as [<-|HI]; [now destruct bg|]). destruct HI.
Qed.

(* the effect of each parameter 1 .. 9 (5 and 6 both blink) *)
Definition owo_code_effect (c : N) : N :=
  nth (N.to_nat (c - 1)) [BOLD; DIMMED; ITALIC; UNDERLINE; BLINK; BLINK; INVERT; HIDDEN; STRIKETHROUGH] 0.

Lemma owo_codes_apply cs : Forall (fun c => In c owo_codes) cs -> forall st,
  sgr_groups st (map single cs) = mkStyle (s_fg st) (s_bg st) (s_ul st) (fold_left eff_step (map owo_code_effect cs) (s_eff st)).
Proof.
  intros H st. rewrite <- (app_nil_r (map single cs)). apply (effect_codes_apply (fun c => c) owo_code_effect).
  eapply Forall_impl; [|exact H]. cbv beta. intros c Hc. cbn [In owo_codes] in Hc.
  repeat (destruct Hc as [<-|Hc]; [cbn; tauto|]). destruct Hc.
Qed.

Definition owo_eff_meaning (bold : bool) (fl : N) : N :=
  s_eff (sgr_groups style_default (map single (owo_eff_vals bold fl))).

Lemma owo_eff_meaning_fold bold fl :
  owo_eff_meaning bold fl = fold_left eff_step (map owo_code_effect (owo_eff_vals bold fl)) 0.
Proof. unfold owo_eff_meaning. now rewrite (owo_codes_apply _ (owo_eff_vals_codes bold fl)). Qed.

Definition owo_slot_meaning (o : option owo_dyn) : option colour :=
  match o with Some c => owo_meaning c | None => None end.

Lemma owo_vals_apply v : owo_style_ok v ->
  sgr_apply style_default (map single (owo_all_vals v))
  = mkStyle (owo_slot_meaning (ow_fg v)) (owo_slot_meaning (ow_bg v)) None (owo_eff_meaning (ow_bold v) (ow_flags v)).
Proof.
  intros (Hfg & Hbg & _). destruct v as [fg bg bold fl]. unfold sgr_apply, owo_all_vals. cbn [ow_fg ow_bg ow_bold ow_flags] in *.
  rewrite !map_app.
  destruct fg as [cf|]; destruct bg as [cb|]; cbn [owo_slot_vals owo_slot_meaning map app owo_slot_ok] in *;
    rewrite ?(owo_colour_apply false cf _ _ Hfg), ?(owo_colour_apply true cb _ _ Hbg),
            (owo_codes_apply _ (owo_eff_vals_codes bold fl)), owo_eff_meaning_fold; reflexivity.
Qed.

Lemma owo_vals_lt bg c : owo_dyn_ok c -> (match c with OwRgb r g b => r < 256 /\ g < 256 /\ b < 256 | _ => True end) ->
  Forall (fun n => n < 256) (owo_vals bg c).
Proof.
  intros H Hr. destruct c as [a|[]|x|r g b]; cbn [owo_dyn_ok owo_vals] in *.
  - constructor; [|constructor]. unfold owo_ansi_bg_code, owo_ansi_fg_code.
    destruct bg, (a <? 8), (a =? 8); lia.
  - destruct bg; repeat constructor; lia.
  - destruct Hr as (? & ? & ?). destruct bg; repeat constructor; lia.
Qed.

Lemma owo_eff_vals_lt bold fl : Forall (fun n => n < 256) (owo_eff_vals bold fl) /\ (length (owo_eff_vals bold fl) <= 9)%nat.
Proof.
  rewrite owo_eff_vals_filter. split; [|apply (filter_length_le _ owo_codes)].
  apply Forall_filter_keep. repeat constructor.
Qed.

Definition owo_rgb_u8 (o : option owo_dyn) : Prop :=
  match o with Some (OwRgb r g b) => r < 256 /\ g < 256 /\ b < 256 | _ => True end.

(* every Style without a CSS colour that the separator logic handles renders "x" as bytes whose meaning is the
   colours / effects its fields name *)
Theorem owo_render_meaning v : owo_style_ok v -> owo_rgb_u8 (ow_fg v) -> owo_rgb_u8 (ow_bg v) -> owo_sep_ok v ->
  ad_interp_x (owo_render v [120])
  = Some (mkStyle (owo_slot_meaning (ow_fg v)) (owo_slot_meaning (ow_bg v)) None (owo_eff_meaning (ow_bold v) (ow_flags v))).
Proof.
  intros Hok Hrf Hrb Hsep. pose proof Hok as (Hfg & Hbg & Hfl).
  destruct (owo_is_plain v) eqn:Hp.
  - (* plain: no escape sequence at all *)
    unfold owo_render, owo_prefix, owo_suffix. rewrite Hp. cbn [app].
    destruct v as [[?|] [?|] [|] fl]; try discriminate. unfold owo_is_plain in Hp. cbn in Hp.
    rewrite negb_involutive in Hp. apply N.eqb_eq in Hp. cbn [ow_flags] in Hp. subst fl. reflexivity.
  - unfold owo_render, owo_suffix. rewrite Hp. rewrite (owo_prefix_csi v Hp Hsep).
    assert (L : forall bg o, owo_slot_ok o -> owo_rgb_u8 o ->
                  Forall (fun n => n < 256) (owo_slot_vals bg o) /\ (length (owo_slot_vals bg o) <= 5)%nat).
    { intros bg o Ho Hr. split.
      - destruct o as [c|]; [|constructor]. apply owo_vals_lt; [exact Ho|destruct c; try exact I; exact Hr].
      - destruct o as [[a|[]|x|r g b]|]; cbn; lia. }
    destruct (L false _ Hfg Hrf) as [F1 L1], (L true _ Hbg Hrb) as [F2 L2], (owo_eff_vals_lt (ow_bold v) (ow_flags v)) as [F3 L3].
    destruct (byte_groups_ok owo_dec_u8 (owo_all_vals v)) as (Hcsi & Hvals).
    + intros c Hc. apply owo_dec_of. lia.
    + now apply owo_all_vals_nonempty.
    + unfold owo_all_vals. now rewrite !Forall_app.
    + unfold owo_all_vals. rewrite !app_length. lia.
    + fold (owo_groups v) in Hcsi, Hvals. rewrite (csi_interp_x _ Hcsi), Hvals. f_equal. exact (owo_vals_apply v Hok).
Qed.

Lemma owo_colour_ok c : ad_colour_ok (Some c) -> owo_u8_colour (Some c) -> owo_dyn_ok (owo_colour c) /\ owo_rgb_u8 (Some (owo_colour c)).
Proof.
  destruct c as [i|n|r g b]; cbn; intros H U; (split; [|try exact I; try exact U]).
  - destruct (i <? 8) eqn:E; [apply N.ltb_lt in E|apply N.ltb_ge in E]; lia.
  - exact U.
  - exact I.
Qed.

Lemma owo_colour_meaning c : ad_colour_ok (Some c) -> owo_meaning (owo_colour c) = Some c.
Proof.
  destruct c as [i|n|r g b]; cbn; intros H; try reflexivity.
  destruct (i <? 8) eqn:E.
  - now rewrite E.
  - apply N.ltb_ge in E. replace (i + 1 <? 8) with false by (symmetry; apply N.ltb_ge; lia).
    replace (i + 1 =? 8) with false by (symmetry; apply N.eqb_neq; lia). now rewrite N.add_sub.
Qed.

(* the parameter owo-colors prints for an effect it can express: effects 0-3 print 1-4, BLINK (8) prints 5,
   INVERT / HIDDEN / STRIKETHROUGH (9-11) print 7-9; 6 is blink_fast, which the adapter never sets *)
Definition owo_eff_code (k : N) : N := if k <? 4 then k + 1 else if k =? BLINK then 5 else k - 2.

Lemma members_land e m : members (N.land e m) = filter (mem e) (members m).
Proof.
  unfold members. rewrite <- filter_andb. apply filter_ext. intros i. unfold mem. rewrite N.land_spec. apply andb_comm.
Qed.

(* by the 2^7 values of the bits [owo_flags_of] reads *)
Lemma owo_flags_bits e :
  map (N.testbit (owo_flags_of e)) [0; 1; 2; 3; 4; 5; 6; 7] =
  [N.testbit e DIMMED; N.testbit e ITALIC; N.testbit e UNDERLINE; N.testbit e BLINK; false; N.testbit e INVERT;
   N.testbit e HIDDEN; N.testbit e STRIKETHROUGH].
Proof.
  unfold owo_flags_of, owo_bit.
  destruct (N.testbit e DIMMED), (N.testbit e ITALIC), (N.testbit e UNDERLINE), (N.testbit e BLINK), (N.testbit e INVERT),
    (N.testbit e HIDDEN), (N.testbit e STRIKETHROUGH); reflexivity.
Qed.

Lemma owo_vals_of_effects e :
  owo_eff_vals (N.testbit e BOLD) (owo_flags_of e) = map owo_eff_code (members (N.land e (ad_expressible AdOwo))).
Proof.
  rewrite members_land, filter_flat_map. change (members (ad_expressible AdOwo)) with [0; 1; 2; 3; 8; 9; 10; 11].
  unfold owo_eff_vals. cbn [flat_map]. pose proof (owo_flags_bits e) as B. cbn [map] in B.
  injection B as -> -> -> -> -> -> -> ->. rewrite !map_app, !map_if. reflexivity.
Qed.

Lemma owo_flags_of_u8 e : owo_flags_of e < 256.
Proof.
  assert (B : forall k v, owo_bit e k v <= v) by (intros k v; unfold owo_bit; destruct (N.testbit e k); lia).
  unfold owo_flags_of.
  pose proof (B DIMMED 1). pose proof (B ITALIC 2). pose proof (B UNDERLINE 4). pose proof (B BLINK 8).
  pose proof (B INVERT 32). pose proof (B HIDDEN 64). pose proof (B STRIKETHROUGH 128). lia.
Qed.

(* of the underline kinds owo-colors has only the first *)
Lemma owo_image_eff_meaning e :
  owo_eff_meaning (N.testbit e BOLD) (owo_flags_of e) = N.land e (ad_expressible AdOwo).
Proof.
  rewrite owo_eff_meaning_fold, owo_vals_of_effects, map_map.
  set (x := N.land e (ad_expressible AdOwo)).
  assert (Z : forall k, In k [4; 5; 6; 7] \/ 12 <= k -> mem x k = false).
  { intros k Hk. unfold mem, x. rewrite N.land_spec. destruct Hk as [Hk|Hk].
    - cbn [In] in Hk. repeat (destruct Hk as [<-|Hk]; [apply andb_false_r|]). destruct Hk.
    - rewrite (N.bits_above_log2 (ad_expressible AdOwo)) by (change (N.log2 (ad_expressible AdOwo)) with 11; lia).
      apply andb_false_r. }
  rewrite (map_ext_in _ (fun k => k)); [rewrite map_id, effects_fold by (apply valid_of_high; auto)|].
  - apply last_kind_wins_id. unfold rn_underline_kinds. cbn [filter]. rewrite (Z 4), (Z 5), (Z 6), (Z 7) by (cbn; tauto).
    destruct (mem x 3); cbn; lia.
  - intros k Hk. unfold x in Hk. rewrite members_land in Hk. apply filter_In, proj1 in Hk.
    change (members (ad_expressible AdOwo)) with [0; 1; 2; 3; 8; 9; 10; 11] in Hk. cbn [In] in Hk.
    repeat (destruct Hk as [<-|Hk]; [reflexivity|]). destruct Hk.
Qed.

Lemma owo_image_no_effect e :
  N.land e (ad_expressible AdOwo) = 0 -> owo_eff_vals (N.testbit e BOLD) (owo_flags_of e) = [].
Proof. intros Z. now rewrite owo_vals_of_effects, Z. Qed.

Lemma owo_value_ok s : owo_src_ok s ->
  owo_style_ok (owo_value s) /\ owo_rgb_u8 (ow_fg (owo_value s)) /\ owo_rgb_u8 (ow_bg (owo_value s)).
Proof.
  intros ((Hfg & Hbg & _ & He) & Ufg & Ubg). unfold owo_value, owo_style_ok. cbn [ow_fg ow_bg ow_flags].
  pose proof (owo_flags_of_u8 (s_eff s)) as Hfl.
  destruct (s_fg s) as [cf|]; destruct (s_bg s) as [cb|]; cbn [option_map owo_slot_ok owo_rgb_u8];
    try destruct (owo_colour_ok cf Hfg Ufg) as [A1 A2]; try destruct (owo_colour_ok cb Hbg Ubg) as [B1 B2]; repeat split; auto.
Qed.

(* TRUE PART: outside the defect class, the rendering of the converted style ("x" between one SGR sequence and ESC[0m)
   means exactly the projection of the source style onto what owo-colors can express.  No identification of palette
   entries is needed: owo-colors prints its 16 named colours as 30-37 / 90-97. *)
Theorem owo_render_interp s : owo_src_ok s -> owo_defect s = false ->
  ad_interp_x (owo_render (owo_value s) [120]) = Some (ad_project AdOwo s).
Proof.
  intros Hs Hd. destruct (owo_value_ok s Hs) as (Hok & Rf & Rb).
  destruct Hs as ((Hfg & Hbg & Hul & He) & Ufg & Ubg).
  rewrite (owo_render_meaning _ Hok Rf Rb).
  - f_equal. unfold owo_value, ad_project, ad_project_effects. cbn [ow_fg ow_bg ow_bold ow_flags ad_has_ul].
    rewrite owo_image_eff_meaning, N.lor_0_r.
    assert (P : forall c, ad_colour_ok c -> owo_slot_meaning (option_map owo_colour c) = ad_project_colour AdOwo c).
    { intros [c|] H; [|reflexivity]. cbn [option_map owo_slot_meaning]. rewrite (owo_colour_meaning c H).
      destruct c; reflexivity. }
    now rewrite (P _ Hfg), (P _ Hbg).
  - unfold owo_sep_ok, owo_value. cbn [ow_fg ow_bg ow_bold ow_flags]. unfold owo_defect in Hd.
    destruct (s_fg s); destruct (s_bg s); cbn [option_map]; try exact I.
    apply owo_image_no_effect. apply negb_false_iff in Hd. now apply N.eqb_eq.
Qed.

Corollary owo_render_interp_ok s : owo_src_ok s -> owo_defect s = false ->
  ad_render_ok (ad_project AdOwo s) (owo_render (owo_value s) [120]) = true.
Proof. intros Hs Hd. unfold ad_render_ok. rewrite (owo_render_interp s Hs Hd). apply sstyle_eqb_refl. Qed.

(* REFUTED PART (finding F16-1): background red + bold, no foreground.  The crate writes ESC[411m: no separator
   after the background parameter; a terminal reads the unknown parameter 411 and leaves the rendition unchanged *)
Definition owo_witness : sstyle := mkStyle None (Some (CAnsi 1)) None (bit BOLD).

Theorem owo_render_refuted :
  owo_src_ok owo_witness /\ owo_defect owo_witness = true /\
  owo_render (owo_value owo_witness) [120] = [27; 91; 52; 49; 49; 109; 120; 27; 91; 48; 109] /\
  ad_interp_x (owo_render (owo_value owo_witness) [120]) = Some style_default /\
  ad_render_ok (ad_project AdOwo owo_witness) (owo_render (owo_value owo_witness) [120]) = false.
Proof.
  split; [|split; [|split; [|split]]]; try (vm_compute; reflexivity).
  unfold owo_src_ok, ad_src_ok, owo_witness. cbn. repeat split; lia.
Qed.

Corollary owo_render_full_statement_false :
  ~ (forall s, owo_src_ok s -> ad_render_ok (ad_project AdOwo s) (owo_render (owo_value s) [120]) = true).
Proof.
  intros H. destruct owo_render_refuted as (Hs & _ & _ & _ & Hf). rewrite (H _ Hs) in Hf. discriminate.
Qed.
