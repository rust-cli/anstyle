(* C11, about the specification itself: the folded effect set
   of [denote] is "attributes as a set where a later negation wins". *)
From Coq Require Import NArith List Bool Lia.
From AV Require Import Spec.StyleRec Spec.SgrCodes Spec.GitSyntax Proofs.Text.
Import ListNotations.
Local Open Scope N_scope.

Lemma attr_bit_inj : forall a a', (attr_bit a' =? attr_bit a) = gattr_eqb a a'.
Proof. intros [] []; reflexivity. Qed.

Lemma fold_attr_bit : forall ts e a,
  N.testbit (fold_left apply_attr ts e) (attr_bit a) =
  match last_mention a ts with Some on => on | None => N.testbit e (attr_bit a) end.
Proof.
  induction ts as [|t ts IH]; intros e a; [reflexivity|].
  cbn [fold_left last_mention]. rewrite IH. destruct (last_mention a ts); [reflexivity|].
  destruct t as [c|on a']; [reflexivity|]. cbn [apply_attr].
  destruct on; [rewrite insert_bit | rewrite remove_bit]; rewrite attr_bit_inj;
    destruct (gattr_eqb a a'); cbn; now rewrite ?orb_true_r, ?orb_false_r, ?andb_true_r, ?andb_false_r.
Qed.

Theorem denote_later_wins : forall ts a,
  N.testbit (t_eff (denote ts)) (attr_bit a) = match last_mention a ts with Some on => on | None => false end.
Proof. intros ts a. unfold denote. cbn [t_eff]. rewrite fold_attr_bit. now destruct (last_mention a ts). Qed.

Theorem denote_only_attrs : forall ts i, (forall a, attr_bit a <> i) -> N.testbit (t_eff (denote ts)) i = false.
Proof.
  intros ts i Hi. unfold denote. cbn [t_eff].
  assert (G : forall e, N.testbit e i = false -> N.testbit (fold_left apply_attr ts e) i = false).
  { induction ts as [|t ts IH]; intros e He; [exact He|]. cbn [fold_left]. apply IH.
    destruct t as [c|[] a]; cbn [apply_attr]; [exact He | |].
    - rewrite insert_bit, He. cbn. apply N.eqb_neq, Hi.
    - rewrite remove_bit, He. reflexivity. }
  apply G. reflexivity.
Qed.
