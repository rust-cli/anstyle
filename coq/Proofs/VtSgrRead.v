(* The VT specification reads a printed control sequence
   "ESC [ digits (;|:) digits ... final" back as ONE CSI dispatch that carries the
   printed values ([csi_read]; for the sequences of Spec/Render, [rn_csi_roundtrip]),
   and a stream of SGR dispatches is interpreted group list by group list.
   Inside the parameter part the parser runs [param] and nothing else ([run_csi]);
   what [param] makes of a digit string is Proofs/VtLimits.v.  Spec only. *)
From Coq Require Import NArith Arith List Bool Lia.
From AV Require Import Spec.Utf8 Spec.Vt Spec.Sgr Spec.Render Proofs.VtLimits.
Import ListNotations.
Local Open Scope N_scope.

Lemma vt_run_app s a b :
  vt_run s (a ++ b) =
  let '(s1, e1) := vt_run s a in let '(s2, e2) := vt_run s1 b in (s2, e1 ++ e2).
Proof.
  revert s. induction a as [|x a IH]; intros s; cbn [app vt_run].
  - destruct (vt_run s b); reflexivity.
  - destruct (vt_step s x) as [s1 e1]. rewrite IH.
    destruct (vt_run s1 a) as [s2 e2]. destruct (vt_run s2 b) as [s3 e3].
    now rewrite app_assoc.
Qed.

Lemma param_byte_cases b : 48 <= b <= 59 ->
  b = 48 \/ b = 49 \/ b = 50 \/ b = 51 \/ b = 52 \/ b = 53 \/ b = 54 \/ b = 55 \/ b = 56 \/ b = 57 \/ b = 58 \/ b = 59.
Proof. lia. Qed.

(* [vt_trans] is a table over byte numerals: from [H : 48 <= b <= 59], one goal per byte, [b] replaced by it *)
Ltac param_cases H :=
  apply param_byte_cases in H;
  repeat (destruct H as [H|H]; [subst|]); [..|subst].

Lemma trans_entry_param b : 48 <= b <= 59 -> vt_trans VCsiEntry b = (Some VCsiParam, TParam).
Proof. intros H. param_cases H; reflexivity. Qed.

Lemma trans_param_param b : 48 <= b <= 59 -> vt_trans VCsiParam b = (None, TParam).
Proof. intros H. param_cases H; reflexivity. Qed.

Definition csi_collecting (v : vstate) : Prop := v = VCsiEntry \/ v = VCsiParam.

Definition csi_final (f : N) : Prop :=
  forall v, csi_collecting v -> vt_trans v f = (Some VGround, TCsiDispatch).

Lemma final_m : csi_final 109.
Proof. intros v [-> | ->]; reflexivity. Qed.

Lemma param_set_vs s v b : param (set_vs s v) b = set_vs (param s b) v.
Proof.
  unfold param, set_vs, count_values. cbn [vs ints ign closed cur pend osc uni].
  destruct (Nat.eqb _ _); [reflexivity|].
  destruct (b =? 59); [reflexivity|]. destruct (b =? 58); reflexivity.
Qed.

Lemma fold_param_frame bs : forall s,
  ints (fold_left param bs s) = ints s /\ uni (fold_left param bs s) = uni s.
Proof.
  induction bs as [|b bs IH]; intros s; [split; reflexivity|].
  cbn [fold_left]. rewrite (proj1 (IH _)), (proj2 (IH _)). unfold param.
  destruct (Nat.eqb _ _); [|destruct (b =? 59); [|destruct (b =? 58)]]; split; reflexivity.
Qed.

Lemma step_param s v b : uni s = None -> csi_collecting v -> 48 <= b <= 59 ->
  vt_step (set_vs s v) b = (set_vs (param s b) VCsiParam, []).
Proof.
  intros Hu Hv Hb. unfold vt_step. change (uni (set_vs s v)) with (uni s). rewrite Hu.
  change (vs (set_vs s v)) with v.
  destruct Hv as [-> | ->]; [rewrite (trans_entry_param b Hb) | rewrite (trans_param_param b Hb)];
    cbn [do_action]; rewrite param_set_vs; reflexivity.
Qed.

Lemma run_params bs : forall s v, uni s = None -> csi_collecting v ->
  Forall (fun b => 48 <= b <= 59) bs ->
  exists v', csi_collecting v' /\ vt_run (set_vs s v) bs = (set_vs (fold_left param bs s) v', []).
Proof.
  induction bs as [|b bs IH]; intros s v Hu Hv HF.
  - exists v. split; [exact Hv | reflexivity].
  - inversion HF as [|? ? Hb Hbs]; subst.
    destruct (IH (param s b) VCsiParam) as (v' & Hv' & Hrun);
      [exact (eq_trans (proj2 (fold_param_frame [b] s)) Hu) | right; reflexivity | exact Hbs |].
    exists v'. split; [exact Hv'|].
    cbn [vt_run fold_left]. rewrite (step_param s v b Hu Hv Hb), Hrun. reflexivity.
Qed.

Lemma step_dispatch s v f : uni s = None -> csi_collecting v -> csi_final f ->
  vt_step (set_vs s v) f
  = (set_vs s VGround, [ECsi (fst (final_params s)) (ints s) (snd (final_params s)) f]).
Proof.
  intros Hu Hv Hf. unfold vt_step. change (uni (set_vs s v)) with (uni s). rewrite Hu.
  change (vs (set_vs s v)) with v. rewrite (Hf v Hv). cbn [do_action].
  change (final_params (set_vs s v)) with (final_params s). destruct (final_params s) as [ps ig].
  destruct Hv as [-> | ->]; reflexivity.
Qed.

(* where a control sequence may start and where it ends *)
Definition ground_st (s : vt) : Prop := vs s = VGround /\ uni s = None.

Lemma ground_init : ground_st vt_init.
Proof. split; reflexivity. Qed.

(* ESC clears the bookkeeping; the OSC payload is not looked at before the next OSC *)
Definition csi_start (o : list N) : vt := mkVt VCsiEntry [] false [] [] 0 o None.

Lemma run_esc_bracket s : ground_st s -> vt_run s [27; 91] = (csi_start (osc s), []).
Proof. intros [Hv Hu]. destruct s as [v i g c u p o un]. cbn in Hv, Hu. subst. reflexivity. Qed.

Lemma run_csi body f s : ground_st s -> Forall (fun b => 48 <= b <= 59) body -> csi_final f ->
  let s1 := fold_left param body (csi_start (osc s)) in
  vt_run s (27 :: 91 :: body ++ [f])
  = (set_vs s1 VGround, [ECsi (fst (final_params s1)) [] (snd (final_params s1)) f]).
Proof.
  intros Hs Hb Hf s1. change (27 :: 91 :: body ++ [f]) with ([27; 91] ++ body ++ [f]).
  rewrite vt_run_app, (run_esc_bracket s Hs), vt_run_app.
  destruct (run_params body (csi_start (osc s)) VCsiEntry eq_refl (or_introl eq_refl) Hb) as (v' & Hv' & E).
  change (set_vs (csi_start (osc s)) VCsiEntry) with (csi_start (osc s)) in E. rewrite E. fold s1.
  destruct (fold_param_frame body (csi_start (osc s))) as [Hi Hu]. fold s1 in Hi, Hu.
  cbn [vt_run]. rewrite (step_dispatch s1 v' f Hu Hv' Hf), Hi. reflexivity.
Qed.

Lemma rn_join_cons2 sep x y t : rn_join sep (x :: y :: t) = x ++ [sep] ++ rn_join sep (y :: t).
Proof. reflexivity. Qed.

Lemma rn_join_Forall (P : N -> Prop) sep l : P sep -> Forall (Forall P) l -> Forall P (rn_join sep l).
Proof.
  intros Hsep HF. induction HF as [|x t Hx Ht IH]; [constructor|].
  destruct t; [exact Hx|]. rewrite rn_join_cons2.
  apply Forall_app. split; [exact Hx | constructor; [exact Hsep | exact IH]].
Qed.

Lemma print_params_bytes gs : Forall (Forall (Forall (fun d => 48 <= d <= 57))) gs ->
  Forall (fun b => 48 <= b <= 59) (rn_print_params gs).
Proof.
  intros HF. apply rn_join_Forall; [lia|].
  apply Forall_map. eapply Forall_impl; [|exact HF]. intros g Hg.
  apply rn_join_Forall; [lia|].
  eapply Forall_impl; [|exact Hg]. intros ds Hds.
  eapply Forall_impl; [|exact Hds]. cbv beta. lia.
Qed.

Definition sat_value (ds : list N) : N := N.min 65535 (rn_dec_value ds).

Lemma concat_snoc {A} (l : list (list A)) x : concat (l ++ [x]) = concat l ++ x.
Proof. rewrite concat_app. cbn. now rewrite app_nil_r. Qed.

(* What [param] leaves of a printed parameter list.  The fields it does not touch are variables. *)
Section Params.
  Variables (v : vstate) (i : list N) (gn : bool) (o : list N) (u : option (ustate * list N)).

  Lemma fold_digits ds cl cu : (length (concat cl) + length cu < 32)%nat ->
    Forall (fun d => 48 <= d <= 57) ds ->
    fold_left param ds (mkVt v i gn cl cu 0 o u) = mkVt v i gn cl cu (sat_value ds) o u.
  Proof. intros Hlt HF. rewrite param_digits_saturate; [reflexivity | exact Hlt | cbn; lia | exact HF]. Qed.

  Lemma param_sep cl cu p b : (length (concat cl) + length cu < 32)%nat ->
    param (mkVt v i gn cl cu p o u) b =
    if b =? 59 then mkVt v i gn (cl ++ [cu ++ [p]]) [] 0 o u
    else if b =? 58 then mkVt v i gn cl (cu ++ [p]) 0 o u
    else mkVt v i gn cl cu (N.min 65535 (10 * p + (b - 48))) o u.
  Proof.
    intros Hlt. unfold param, count_values, max_values. cbn [vs ints ign closed cur pend osc uni].
    destruct (Nat.eqb_spec (length (concat cl) + length cu) 32) as [E|_]; [lia | reflexivity].
  Qed.

  (* one parameter, sub-parameters separated by ':': the values end up in [cur] except the
     last, which is still pending; a ';' or the dispatch will append it *)
  Lemma fold_group g : forall cl cu, g <> [] -> Forall (Forall (fun d => 48 <= d <= 57)) g ->
    (length (concat cl) + length cu + length g <= 32)%nat ->
    exists cu' p, fold_left param (rn_join 58 g) (mkVt v i gn cl cu 0 o u) = mkVt v i gn cl cu' p o u
                  /\ cu' ++ [p] = cu ++ map sat_value g.
  Proof.
    induction g as [|d rest IH]; intros cl cu Hne HF Hlen; [congruence|].
    inversion HF as [|? ? Hd Hrest]; subst. cbn [length] in Hlen.
    destruct rest as [|d' rest].
    - exists cu, (sat_value d). cbn [rn_join]. rewrite fold_digits; [auto | lia | exact Hd].
    - rewrite rn_join_cons2, fold_left_app, fold_digits; [| cbn [length] in Hlen; lia | exact Hd].
      cbn [app fold_left]. rewrite param_sep by (cbn [length] in Hlen; lia). cbn [N.eqb Pos.eqb].
      destruct (IH cl (cu ++ [sat_value d])) as (cu' & p & E & Hcu); [discriminate | exact Hrest | |].
      { rewrite app_length. cbn [length] in *. lia. }
      exists cu', p. split; [exact E|]. rewrite Hcu, <- app_assoc. reflexivity.
  Qed.

  (* all parameters, separated by ';', then the dispatch's view of them *)
  Lemma fold_groups gs : forall cl, gs <> [] -> Forall (fun g => g <> []) gs ->
    Forall (Forall (Forall (fun d => 48 <= d <= 57))) gs ->
    (length (concat cl) + length (concat gs) <= 32)%nat ->
    final_params (fold_left param (rn_print_params gs) (mkVt v i gn cl [] 0 o u))
    = (cl ++ map (map sat_value) gs, gn).
  Proof.
    unfold rn_print_params.
    induction gs as [|g rest IH]; intros cl Hne Hnes HF Hlen; [congruence|].
    inversion Hnes as [|? ? Hg Hnes']; subst.
    inversion HF as [|? ? HFg HFrest]; subst.
    cbn [concat] in Hlen. rewrite app_length in Hlen.
    destruct (fold_group g cl [] Hg HFg) as (cu' & p & E & Hcu); [cbn [length]; lia|].
    cbn [app] in Hcu.
    assert (Hl : S (length cu') = length g).
    { rewrite <- (map_length sat_value g), <- Hcu, app_length. cbn [length]. lia. }
    destruct rest as [|g' rest].
    - cbn [map rn_join]. rewrite E.
      unfold final_params, count_values, max_values. cbn [closed cur pend ign].
      destruct (Nat.eqb_spec (length (concat cl) + length cu') 32) as [E32|_]; [lia|].
      rewrite Hcu. reflexivity.
    - cbn [map]. rewrite rn_join_cons2, fold_left_app, E. cbn [app fold_left].
      rewrite param_sep, Hcu by lia. cbn [N.eqb Pos.eqb].
      rewrite IH; [| discriminate | exact Hnes' | exact HFrest |].
      + rewrite <- app_assoc. reflexivity.
      + rewrite concat_snoc, app_length, map_length. lia.
  Qed.
End Params.

Theorem csi_read gs f s :
  gs <> [] -> Forall (fun g => g <> []) gs -> Forall (Forall (Forall (fun d => 48 <= d <= 57))) gs ->
  (length (concat gs) <= 32)%nat -> csi_final f -> ground_st s ->
  exists s', vt_run s (rn_csi gs f) = (s', [ECsi (map (map sat_value) gs) [] false f]) /\ ground_st s'.
Proof.
  intros Hne Hnes Hd Hlen Hf Hs. unfold rn_csi.
  rewrite (run_csi _ f s Hs (print_params_bytes gs Hd) Hf). cbv zeta.
  unfold csi_start at 2 3. rewrite (fold_groups VCsiEntry [] false (osc s) None gs [] Hne Hnes Hd Hlen).
  eexists. split; [reflexivity|]. split; [reflexivity | apply fold_param_frame].
Qed.

Lemma digit_bounds d : rn_is_digit d = true -> 48 <= d <= 57.
Proof. unfold rn_is_digit. intros H. apply andb_true_iff in H. destruct H as [A B]. apply N.leb_le in A, B. lia. Qed.

Lemma digits_ok_elim ds : rn_digits_ok ds = true ->
  Forall (fun d => 48 <= d <= 57) ds /\ rn_dec_value ds < 65536.
Proof.
  unfold rn_digits_ok. rewrite andb_true_iff, N.ltb_lt, forallb_forall, Forall_forall.
  intros [A B]. split; [|exact B]. intros d Hd. apply digit_bounds, A, Hd.
Qed.

Lemma nonempty_neq {A} (l : list A) : rn_nonempty l = true <-> l <> [].
Proof. destruct l; cbn [rn_nonempty]; split; congruence. Qed.

Lemma csi_ok_iff gs : rn_csi_ok gs = true <->
  rn_nonempty gs = true /\
  Forall (fun g => rn_nonempty g = true /\ Forall (fun ds => rn_digits_ok ds = true) g) gs /\
  (length (concat gs) <= 32)%nat.
Proof.
  assert (G : forall g, rn_nonempty g && forallb rn_digits_ok g = true <->
                        rn_nonempty g = true /\ Forall (fun ds => rn_digits_ok ds = true) g).
  { intros g. rewrite andb_true_iff, forallb_forall, Forall_forall. reflexivity. }
  unfold rn_csi_ok. rewrite !andb_true_iff, Nat.leb_le, forallb_forall, Forall_forall. split.
  - intros [[A B] C]. split; [exact A | split; [|exact C]]. intros g Hg. apply G, B, Hg.
  - intros (A & B & C). split; [split; [exact A|] | exact C]. intros g Hg. apply G, B, Hg.
Qed.

Lemma csi_ok_digits gs : rn_csi_ok gs = true -> Forall (Forall (Forall (fun d => 48 <= d <= 57))) gs.
Proof.
  intros H. apply csi_ok_iff in H. eapply Forall_impl; [|exact (proj1 (proj2 H))]. intros g [_ Hg].
  eapply Forall_impl; [|exact Hg]. intros ds Hds. apply (digits_ok_elim ds Hds).
Qed.

(* the same for the sequences Spec/Render admits: final byte 'm', no value saturates *)
Lemma rn_csi_roundtrip gs s :
  rn_csi_ok gs = true -> ground_st s ->
  exists s', vt_run s (rn_csi gs 109) = (s', [rn_sgr (rn_param_values gs)]) /\ ground_st s'.
Proof.
  intros Hok Hs. pose proof (csi_ok_digits gs Hok) as Hd.
  apply csi_ok_iff in Hok. destruct Hok as (Hne & Hg & Hlen).
  assert (Hv : map (map sat_value) gs = rn_param_values gs).
  { apply map_ext_Forall. eapply Forall_impl; [|exact Hg]. intros g [_ Hds]. apply map_ext_Forall.
    eapply Forall_impl; [|exact Hds]. intros ds Hok. apply N.min_r.
    destruct (digits_ok_elim ds Hok) as [_ Hlt]. lia. }
  unfold rn_sgr. rewrite <- Hv. apply csi_read; [now apply nonempty_neq | | exact Hd | exact Hlen | exact final_m | exact Hs].
  eapply Forall_impl; [|exact Hg]. intros g [H _]. now apply nonempty_neq.
Qed.

Definition rn_is_sgr (p : list N) (g : list (list N)) : Prop :=
  exists pr, rn_csi_ok pr = true /\ p = rn_csi pr 109 /\ rn_param_values pr = g.

Lemma spec_events_pieces_from ps : forall gs s,
  Forall2 rn_is_sgr ps gs -> ground_st s ->
  exists s', vt_run s (concat ps) = (s', map rn_sgr gs) /\ ground_st s'.
Proof.
  induction ps as [|p t IH]; intros gs s H Hs; inversion H; subst; clear H.
  - exists s. split; [reflexivity|exact Hs].
  - destruct H2 as (pr & Hok & -> & <-).
    destruct (rn_csi_roundtrip pr s Hok Hs) as (s1 & E1 & Hs1).
    destruct (IH _ s1 H4 Hs1) as (s2 & E2 & Hs2).
    exists s2. split; [|exact Hs2]. cbn [concat map]. rewrite vt_run_app, E1, E2. reflexivity.
Qed.

Lemma rn_interp_snd es : forall s, snd (interp s es) = rn_interp_style es s.
Proof.
  unfold rn_interp_style.
  induction es as [|e t IH]; intros s; cbn [interp fold_left]; [reflexivity|].
  rewrite <- IH. destruct (interp (event_style s e) t) as [out s2].
  destruct e; cbn [snd]; try reflexivity. destruct (is_ws_exec b); reflexivity.
Qed.

Lemma interp_sgr_groups gs : forall s,
  rn_interp_style (map rn_sgr gs) s = fold_left sgr_apply gs s.
Proof.
  unfold rn_interp_style. induction gs as [|g t IH]; intros s; cbn [map fold_left]; [reflexivity|].
  rewrite IH. reflexivity.
Qed.
