(* The rendering of a yansi::Style by the third-party crate yansi 1.0.1, translated from the registry source at the
   version of Cargo.lock (tools/gen_fn_yansi.py -> Generated/YansiFn.v).  The translated functions are the hand
   rendering [ya_render_bytes] (defined here; Model/YansiRender.v holds the vocabulary types) and do not panic; the
   terminal model of C05 / C07 (Spec/Vt + Spec/Sgr, from the default rendition) reads the rendering back as
   [ya_meaning], the meaning Spec/Targets.v assigns to the value.  The composition with the translated adapter is
   Proofs/YansiFnAdapter.v. *)
From Coq Require Import NArith Arith List Bool Lia.
From AV Require Import Model.Base Model.Imp Model.YansiRender Generated.YansiFn.
From AV Require Import Spec.Vt Spec.Sgr Spec.Render Spec.Targets Proofs.FilterFacts Proofs.Style
  Proofs.SgrRender Proofs.SgrEffects.
Import ListNotations.
Local Open Scope N_scope.

Definition ya_all_attrs : list ya_attr :=
  [YaBold; YaDim; YaItalic; YaUnderline; YaBlink; YaRapidBlink; YaInvert; YaConceal; YaStrike].
Definition ya_attr_list (bits : N) : list ya_attr :=
  filter (fun a => N.testbit bits (ya_attr_disc a)) ya_all_attrs.
Definition ya_attr_code (a : ya_attr) : N := ya_attr_disc a + 1.
Definition ya_has (qs : N) (q : ya_quirk) : bool := N.testbit qs (ya_quirk_disc q).

Definition ya_base (c : ya_color) : N :=
  match c with
  | YaBlack => 30 | YaRed => 31 | YaGreen => 32 | YaYellow => 33 | YaBlue => 34 | YaMagenta => 35 | YaCyan => 36
  | YaWhite => 37 | YaFixed _ | YaRgb _ _ _ => 38 | YaPrimary => 39
  | YaBrightBlack => 90 | YaBrightRed => 91 | YaBrightGreen => 92 | YaBrightYellow => 93 | YaBrightBlue => 94
  | YaBrightMagenta => 95 | YaBrightCyan => 96 | YaBrightWhite => 97
  end.
Definition ya_vbase (v : ya_variant) (c : ya_color) : N := match v with YaFg => ya_base c | YaBg => ya_base c + 10 end.
Definition ya_color_codes (v : ya_variant) (c : ya_color) : list N :=
  match c with
  | YaFixed n => [ya_vbase v c; 5; n]
  | YaRgb r g b => [ya_vbase v c; 2; r; g; b]
  | _ => [ya_vbase v c]
  end.
Definition ya_bright (c : ya_color) : ya_color :=
  match c with
  | YaBlack => YaBrightBlack | YaRed => YaBrightRed | YaGreen => YaBrightGreen | YaYellow => YaBrightYellow
  | YaBlue => YaBrightBlue | YaMagenta => YaBrightMagenta | YaCyan => YaBrightCyan | YaWhite => YaBrightWhite
  | other => other
  end.
Definition ya_brighten (c : option ya_color) (b : bool) : option ya_color :=
  match c, b with Some c, true => Some (ya_bright c) | _, _ => c end.

(* one list of SGR parameters per attribute / colour, in the order yansi writes them *)
Definition ya_items (st : ya_style) : list (list N) :=
  map (fun a => [ya_attr_code a]) (ya_attr_list (ya_attrs st))
  ++ match ya_brighten (ya_bg st) (ya_has (ya_quirks st) YaOnBright) with Some c => [ya_color_codes YaBg c] | None => [] end
  ++ match ya_brighten (ya_fg st) (ya_has (ya_quirks st) YaBright) with Some c => [ya_color_codes YaFg c] | None => [] end.

Definition ya_item_bytes (codes : list N) : list N := rn_join 59 (map ya_dec codes).
(* what the AnsiSplicer produces: every item but the first is preceded by ';' *)
Fixpoint ya_spliced (flag : bool) (items : list (list N)) : list N :=
  match items with
  | [] => []
  | it :: rest => (if flag then [59] else []) ++ ya_item_bytes it ++ ya_spliced true rest
  end.

Definition ya_is_default (st : ya_style) : bool :=
  opt_eqb ya_color_eqb (ya_fg st) None && opt_eqb ya_color_eqb (ya_bg st) None && (ya_attrs st =? 0).

Definition ya_prefix (st : ya_style) : list N :=
  if ya_is_default st then [] else [27; 91] ++ ya_spliced false (ya_items st) ++ [109].
Definition ya_suffix (st : ya_style) : list N :=
  if negb (ya_has (ya_quirks st) YaResetting) && negb (ya_has (ya_quirks st) YaClear)
     && (ya_has (ya_quirks st) YaLinger || ya_is_default st)
  then [] else [27; 91; 48; 109].

(* the values the Rust types can hold and the API can build *)
Definition ya_color_ok (c : option ya_color) : Prop :=
  match c with
  | Some (YaFixed n) => n < 256
  | Some (YaRgb r g b) => r < 256 /\ g < 256 /\ b < 256
  | _ => True
  end.
Definition ya_style_ok (st : ya_style) : Prop :=
  ya_color_ok (ya_fg st) /\ ya_color_ok (ya_bg st) /\ ya_attrs st < 512.

Lemma g_ya_fg_base_eq c : g_ya_fg_base c = ya_base c.
Proof. destruct c; reflexivity. Qed.

Lemma g_ya_to_bright_eq c : g_ya_to_bright c = ya_bright c.
Proof. destruct c; reflexivity. Qed.

Lemma land_pow2_testbit k bits : (N.land (2 ^ k) bits =? 2 ^ k) = N.testbit bits k.
Proof. rewrite <- N.shiftl_1_l. apply land_bit_eq'. Qed.

Lemma g_ya_seta_contains_eq bits a : g_ya_seta_contains bits a = Some (N.testbit bits (ya_attr_disc a)).
Proof.
  assert (M : g_ya_attr_sm_bit_mask a = Some (2 ^ ya_attr_disc a)) by (destruct a; reflexivity).
  unfold g_ya_seta_contains, ya_set_f1. rewrite M. cbv beta iota. now rewrite land_pow2_testbit.
Qed.

Lemma g_ya_setq_contains_eq qs q : g_ya_setq_contains qs q = Some (ya_has qs q).
Proof.
  assert (M : g_ya_quirk_sm_bit_mask q = Some (2 ^ ya_quirk_disc q)) by (destruct q; reflexivity).
  unfold g_ya_setq_contains, ya_set_f1, ya_has. rewrite M. cbv beta iota. now rewrite land_pow2_testbit.
Qed.

(* The attribute iterator, drained, yields the set's members in declaration order.  `Iter::next` counts the index up
   to the first member of the set; [ya_next bits l] is its answer when [l] holds the attributes from the iterator's
   index on ([ya_run]).  One step of the loop is computed per attribute, the rest is induction on [l]: no bound on
   [bits]. *)
Fixpoint ya_run (i : N) (l : list ya_attr) : Prop :=
  match l with [] => i = 9 | a :: t => ya_attr_disc a = i /\ ya_run (i + 1) t end.

Fixpoint ya_next (bits : N) (l : list ya_attr) : ya_iter * option ya_attr :=
  match l with
  | [] => (mkYaIter 9 bits, None)
  | a :: t => if N.testbit bits (ya_attr_disc a) then (mkYaIter (ya_attr_disc a + 1) bits, Some a) else ya_next bits t
  end.

(* 10 = the fuel `S (S MAX_VALUE)` of the translated loop (MAX_VALUE = 8) *)
Lemma g_ya_iter_next_eq bits l i : ya_run i l -> (length l < 10)%nat ->
  g_ya_iter_next (mkYaIter i bits) = Some (ya_next bits l).
Proof.
  unfold g_ya_iter_next.
  match goal with |- context [while_fuel _ ?B _] => set (body := B) end.
  assert (HB : forall a, body (mkYaIter (ya_attr_disc a) bits) =
                         Some (if N.testbit bits (ya_attr_disc a)
                               then LRet (mkYaIter (ya_attr_disc a + 1) bits, Some a)
                               else LNext (mkYaIter (ya_attr_disc a + 1) bits))).
  { intros a. subst body. cbv beta. cbn [yi_index yi_set set_yi_index].
    destruct a; cbn [ya_attr_disc]; vm_compute (_ <=? _); vm_compute (ya_cshl _ _ _); vm_compute (cadd _ _ _);
      cbv beta iota; vm_compute (g_ya_attr_sm_from_bit_mask _); cbv beta iota;
      rewrite g_ya_seta_contains_eq; cbn [ya_attr_disc]; destruct (N.testbit bits _); reflexivity. }
  assert (W : forall l i fuel, ya_run i l -> (length l < fuel)%nat ->
     while_fuel fuel body (mkYaIter i bits) =
     Some (match ya_next bits l with (it, Some a) => inr (it, Some a) | (it, None) => inl it end)).
  { clear l i. induction l as [|a t IH]; intros i [|fuel] R L; try (inversion L; fail);
      cbn [while_fuel ya_run ya_next length] in *.
    - subst i. reflexivity.
    - destruct R as [<- R]. rewrite HB. destruct (N.testbit bits _); [reflexivity|]. apply IH; [exact R|lia]. }
  intros R L. rewrite (W l i _ R) by (cbn; lia).
  destruct (ya_next bits l) as [it [a|]]; reflexivity.
Qed.

Lemma ya_drain_eq bits l : forall i fuel, ya_run i l -> (length l < fuel)%nat -> (length l < 10)%nat ->
  iter_drain g_ya_iter_next fuel (mkYaIter i bits) = Some (filter (fun a => N.testbit bits (ya_attr_disc a)) l).
Proof.
  induction l as [|a t IH]; intros i [|fuel] R L L'; try (inversion L; fail); cbn [iter_drain length] in *.
  - now rewrite (g_ya_iter_next_eq bits [] i R).
  - rewrite (g_ya_iter_next_eq bits (a :: t) i R L'). destruct R as [<- R]. cbn [ya_next filter].
    destruct (N.testbit bits (ya_attr_disc a)); cbv iota.
    + rewrite (IH _ fuel R) by lia. reflexivity.
    + pose proof (IH _ (S fuel) R ltac:(lia) ltac:(lia)) as E. cbn [iter_drain] in E.
      now rewrite (g_ya_iter_next_eq bits t _ R) in E by lia.
Qed.

Lemma ya_drain_attrs_eq bits :
  iter_drain g_ya_iter_next (S (S (N.to_nat g_ya_attr_MAX_VALUE))) (g_ya_seta_iter bits) = Some (ya_attr_list bits).
Proof. apply ya_drain_eq; [repeat split | cbn; lia..]. Qed.

Lemma g_ya_splicer_write_str_eq buf fl s :
  g_ya_splicer_write_str (mkYaSplicer buf fl) s = (mkYaSplicer (buf ++ s) fl, inl tt).
Proof. reflexivity. Qed.

Lemma g_ya_splice_eq buf fl :
  g_ya_splice (mkYaSplicer buf fl) = (mkYaSplicer (buf ++ (if fl then [59] else [])) true, inl tt).
Proof. destruct fl; cbn; [reflexivity|]. now rewrite app_nil_r. Qed.

Lemma g_ya_attr_fmt_eq a buf fl :
  g_ya_attr_fmt a (mkYaSplicer buf fl) = (mkYaSplicer (buf ++ ya_item_bytes [ya_attr_code a]) fl, inl tt).
Proof. destruct a; reflexivity. Qed.

Lemma ya_base_bound c : ya_base c <= 97.
Proof. destruct c; cbn; lia. Qed.

Lemma g_ya_color_fmt_eq c v buf fl :
  g_ya_color_fmt c (mkYaSplicer buf fl) v = Some (mkYaSplicer (buf ++ ya_item_bytes (ya_color_codes v c)) fl, inl tt).
Proof.
  unfold g_ya_color_fmt. rewrite g_ya_fg_base_eq.
  assert (Hc : cadd 8 (ya_base c) 10 = Some (ya_base c + 10)).
  { unfold cadd. pose proof (ya_base_bound c). change (2 ^ 8) with 256.
    destruct (N.ltb_spec (ya_base c + 10) 256); [reflexivity|lia]. }
  destruct v; cbn [ya_vbase]; rewrite ?Hc; cbv beta iota;
    destruct c; cbn [ya_color_codes ya_vbase ya_item_bytes map rn_join
                     g_ya_splicer_write_str ya_w_write_str asp_f asp_splice set_asp_f];
    rewrite <- ?app_assoc; reflexivity.
Qed.

Lemma ya_spliced_app fl a b :
  ya_spliced fl (a ++ b) = ya_spliced fl a ++ ya_spliced (fl || rn_nonempty a) b.
Proof.
  revert fl. induction a as [|x t IH]; intros fl; cbn [app ya_spliced].
  - now rewrite orb_false_r.
  - rewrite IH, orb_true_r. destruct t; cbn [orb]; rewrite <- !app_assoc; reflexivity.
Qed.

Lemma ya_attr_loop (F : ya_attr -> ya_splicer -> option (lctl ya_splicer (ya_splicer * (unit + unit)))) :
  (forall a buf fl, F a (mkYaSplicer buf fl) =
      Some (LNext (mkYaSplicer (buf ++ (if fl then [59] else []) ++ ya_item_bytes [ya_attr_code a]) true))) ->
  forall l buf fl,
  for_list F l (mkYaSplicer buf fl) =
  Some (inl (mkYaSplicer (buf ++ ya_spliced fl (map (fun a => [ya_attr_code a]) l)) (fl || rn_nonempty l))).
Proof.
  intros HF. induction l as [|a t IH]; intros buf fl; cbn [for_list map ya_spliced rn_nonempty].
  - now rewrite app_nil_r, orb_false_r.
  - rewrite HF, IH, orb_true_r. cbn [orb]. rewrite <- !app_assoc. reflexivity.
Qed.

Lemma g_ya_style_eq_default st : g_ya_style_eq st g_ya_style_DEFAULT = ya_is_default st.
Proof. reflexivity. Qed.

(* one optional colour: `if let Some(color) = .. { f.splice()?; color.fmt(&mut f, variant)?; }` *)
Definition ya_ocolor_item (v : ya_variant) (c : option ya_color) : list (list N) :=
  match c with Some c => [ya_color_codes v c] | None => [] end.

Lemma g_ya_fmt_prefix_eq st f : g_ya_fmt_prefix st f = Some (f ++ ya_prefix st, inl tt).
Proof.
  unfold g_ya_fmt_prefix, ya_prefix. rewrite g_ya_style_eq_default.
  destruct (ya_is_default st); [now rewrite app_nil_r|].
  cbv zeta. rewrite g_ya_splicer_write_str_eq. cbv beta iota.
  rewrite ya_drain_attrs_eq.
  match goal with |- context [for_list ?F _ _] => rewrite (ya_attr_loop F) end.
  2:{ intros a buf fl. rewrite g_ya_splice_eq. cbv beta iota. rewrite g_ya_attr_fmt_eq. cbv beta iota.
      now rewrite <- app_assoc. }
  cbv beta iota. rewrite !g_ya_setq_contains_eq.
  unfold ya_items.
  set (A := map (fun a => [ya_attr_code a]) (ya_attr_list (ya_attrs st))).
  set (nb := ya_has (ya_quirks st) YaOnBright). set (nf := ya_has (ya_quirks st) YaBright).
  cbn [orb].
  assert (Hbr : forall c b, (match c, b with Some color1, true => Some (g_ya_to_bright color1) | _, _ => c end) = ya_brighten c b).
  { intros [c|] [|]; cbn [ya_brighten]; rewrite ?g_ya_to_bright_eq; reflexivity. }
  rewrite !Hbr.
  rewrite !ya_spliced_app.
  (* four cases (bg?, fg?); per colour present: splice, then Color::fmt -- hence the pair of rewrites twice, background
     first *)
  destruct (ya_brighten (ya_bg st) nb) as [cb|], (ya_brighten (ya_fg st) nf) as [cf|];
    cbn [ya_spliced rn_nonempty orb app];
    rewrite ?g_ya_splice_eq; cbv beta iota; rewrite ?g_ya_color_fmt_eq; cbv beta iota;
    rewrite ?g_ya_splice_eq; cbv beta iota; rewrite ?g_ya_color_fmt_eq; cbv beta iota;
    rewrite ?g_ya_splicer_write_str_eq; cbn [asp_f];
    rewrite ?orb_true_r, ?app_nil_r; repeat (rewrite <- app_assoc; cbn [app]); try reflexivity.
  all: unfold A; destruct (ya_attr_list (ya_attrs st)); reflexivity.
Qed.

Lemma g_ya_fmt_suffix_eq st f : g_ya_fmt_suffix st f = Some (f ++ ya_suffix st, inl tt).
Proof.
  unfold g_ya_fmt_suffix, ya_suffix. rewrite !g_ya_setq_contains_eq, g_ya_style_eq_default.
  destruct (ya_has (ya_quirks st) YaResetting), (ya_has (ya_quirks st) YaClear); cbn [negb andb]; cbv beta iota zeta;
    try reflexivity.
  destruct (ya_has (ya_quirks st) YaLinger), (ya_is_default st); cbn [orb]; rewrite ?app_nil_r; reflexivity.
Qed.

(* is styling emitted?  the global switch and the style's own condition (a Condition = its answer) *)
Definition ya_enabled (ENABLED : bool) (st : ya_style) : bool :=
  ENABLED && match ya_cond st with Some c => c | None => true end.

(* the hand rendering of `format!("{}", text.paint(st))` while neither Wrap path is taken *)
Definition ya_painted_bytes (ENABLED : bool) (text : list N) (st : ya_style) : list N :=
  if ya_enabled ENABLED st then ya_prefix st ++ text ++ ya_suffix st
  else if ya_has (ya_quirks st) YaMask then [] else text.

Lemma g_ya_color_fmt_value_eq o text st f :
  g_ya_color_fmt_value o (mkYaPainted text st) ya_str_display f = Some (f ++ ya_prefix st ++ text ++ ya_suffix st, inl tt).
Proof.
  unfold g_ya_color_fmt_value. cbn [yp_style yp_value].
  rewrite g_ya_fmt_prefix_eq. cbv beta iota zeta.
  unfold ya_str_display, ya_w_write_str. cbv beta iota zeta.
  rewrite g_ya_fmt_suffix_eq. now rewrite <- !app_assoc.
Qed.

Lemma g_ya_painted_fmt_eq o en text st f : ya_has (ya_quirks st) YaWrap = false ->
  g_ya_painted_fmt o (mkYaPainted text st) en f = Some (f ++ ya_painted_bytes en text st, inl tt).
Proof.
  intros Hw. unfold g_ya_painted_fmt, g_ya_fmt_args, g_ya_painted_enabled, ya_painted_bytes. cbn [yp_style yp_value].
  rewrite !g_ya_setq_contains_eq, Hw. cbv zeta.
  change (g_ya_is_enabled en && match ya_cond st with Some cd1 => ya_cond_call cd1 | None => true end) with (ya_enabled en st).
  destruct (ya_enabled en st).
  - destruct (ya_has (ya_quirks st) YaMask); rewrite g_ya_color_fmt_value_eq; reflexivity.
  - destruct (ya_has (ya_quirks st) YaMask); cbv beta iota; [now rewrite app_nil_r|reflexivity].
Qed.

(* the entry point: `yansi::enable(); text.paint(st).to_string()`, whatever the global switch held before
   and whatever the oracle of the two Wrap paths answers *)
Definition ya_render_bytes (text : list N) (st : ya_style) : list N :=
  ya_painted_bytes true text st.

(* the bound on the attribute set is that of the Rust type; the equation holds without it *)
Lemma g_yansi_render_text_eq o en0 text st : ya_attrs st < 512 -> ya_has (ya_quirks st) YaWrap = false ->
  g_yansi_render_text o en0 text st = Some (ya_render_bytes text st).
Proof.
  intros _ Hw. unfold g_yansi_render_text, g_yansi_to_string, g_ya_paint. cbv zeta.
  change (g_ya_enable en0) with true.
  rewrite (g_ya_painted_fmt_eq _ _ _ _ _ Hw). reflexivity.
Qed.

Definition ya_colour_meaning (c : ya_color) : option colour :=
  match c with
  | YaPrimary => None
  | YaFixed n => Some (CIdx n)
  | YaRgb r g b => Some (CRgb r g b)
  | YaBlack => Some (CAnsi 0) | YaRed => Some (CAnsi 1) | YaGreen => Some (CAnsi 2) | YaYellow => Some (CAnsi 3)
  | YaBlue => Some (CAnsi 4) | YaMagenta => Some (CAnsi 5) | YaCyan => Some (CAnsi 6) | YaWhite => Some (CAnsi 7)
  | YaBrightBlack => Some (CAnsi 8) | YaBrightRed => Some (CAnsi 9) | YaBrightGreen => Some (CAnsi 10)
  | YaBrightYellow => Some (CAnsi 11) | YaBrightBlue => Some (CAnsi 12) | YaBrightMagenta => Some (CAnsi 13)
  | YaBrightCyan => Some (CAnsi 14) | YaBrightWhite => Some (CAnsi 15)
  end.
Definition ya_slot_meaning (c : option ya_color) : option colour :=
  match c with Some c => ya_colour_meaning c | None => None end.
(* the effect (Spec/Sgr numbering) an attribute switches on *)
Definition ya_attr_effect (a : ya_attr) : N :=
  match a with
  | YaBold => BOLD | YaDim => DIMMED | YaItalic => ITALIC | YaUnderline => UNDERLINE | YaBlink => BLINK
  | YaRapidBlink => BLINK | YaInvert => INVERT | YaConceal => HIDDEN | YaStrike => STRIKETHROUGH
  end.
Definition ya_effects (bits : N) : N :=
  fold_right (fun a acc => if N.testbit bits (ya_attr_disc a) then N.lor (bit (ya_attr_effect a)) acc else acc) 0 ya_all_attrs.
Definition ya_meaning (st : ya_style) : sstyle :=
  mkStyle (ya_slot_meaning (ya_fg st)) (ya_slot_meaning (ya_bg st)) None (ya_effects (ya_attrs st)).

(* what every builder chain that does not call a quirk / `whenever` method yields; the adapter's image lies inside *)
Definition ya_plain (st : ya_style) : Prop := ya_quirks st = 0 /\ ya_cond st = None.

Definition ya_codes (st : ya_style) : list N := concat (ya_items st).

Lemma ya_spliced_join items : forall fl, Forall (fun it => rn_nonempty it = true) items ->
  ya_spliced fl items = (if fl && rn_nonempty items then [59] else []) ++ rn_join 59 (map ya_dec (concat items)).
Proof.
  induction items as [|it rest IH]; intros fl H; cbn [ya_spliced concat rn_nonempty].
  - now rewrite andb_false_r.
  - inversion H as [|? ? Hit Hrest]; subst. rewrite (IH true Hrest). rewrite andb_true_r. cbn [andb].
    rewrite map_app, rn_join_app. unfold ya_item_bytes.
    assert (E1 : rn_nonempty (map ya_dec it) = true) by (destruct it; [discriminate|reflexivity]).
    assert (E2 : rn_nonempty (map ya_dec (concat rest)) = rn_nonempty rest).
    { destruct rest as [|r0 rr]; [reflexivity|]. inversion Hrest; subst. destruct r0; [discriminate|reflexivity]. }
    rewrite E1, E2. cbn [andb]. rewrite <- ?app_assoc. reflexivity.
Qed.

Lemma ya_items_nonempty st : Forall (fun it => rn_nonempty it = true) (ya_items st).
Proof.
  assert (C : forall v o, Forall (fun it => rn_nonempty it = true) (ya_ocolor_item v o)).
  { intros v [c|]; repeat constructor. destruct c; reflexivity. }
  unfold ya_items. rewrite !Forall_app. repeat split; [|apply C..].
  apply Forall_forall. intros x Hx. apply in_map_iff in Hx. destruct Hx as (a & <- & _). reflexivity.
Qed.

Lemma ya_dec_of n : n < 256 -> dec_of (ya_dec n) n.
Proof. intros H. apply (dec_go_of 20). now apply (N.lt_trans _ 256). Qed.

(* every parameter yansi prints is a byte, and there are at most 9 + 5 + 5 of them *)
Lemma ya_ocolor_codes_ok v o : ya_color_ok o ->
  Forall (fun x => x < 256) (concat (ya_ocolor_item v o)) /\ (length (concat (ya_ocolor_item v o)) <= 5)%nat.
Proof.
  destruct o as [c|]; cbn [ya_ocolor_item concat]; [|split; [constructor|cbn; lia]].
  rewrite app_nil_r. intros H. pose proof (ya_base_bound c).
  destruct c, v; cbn [ya_color_codes ya_vbase ya_color_ok length] in *; split; repeat constructor; try lia; cbn; lia.
Qed.

Lemma ya_prefix_csi st : ya_is_default st = false ->
  ya_prefix st = rn_csi (single_groups (map ya_dec (ya_codes st))) 109.
Proof.
  intros Hd. unfold ya_prefix, rn_csi. rewrite Hd, single_groups_print.
  now rewrite (ya_spliced_join _ false (ya_items_nonempty st)).
Qed.

Definition ya_set_slot (v : ya_variant) (s : sstyle) (c : option colour) : sstyle :=
  match v with YaFg => set_fg s c | YaBg => set_bg s c end.

Lemma sgr_ocolor_codes v o s rest :
  sgr_groups s (map (fun c => [c]) (concat (ya_ocolor_item v o)) ++ rest) =
  sgr_groups (match o with Some c => ya_set_slot v s (ya_colour_meaning c) | None => s end) rest.
Proof. destruct o as [c|]; [|reflexivity]. cbn [ya_ocolor_item concat]. rewrite app_nil_r. destruct c, v; reflexivity. Qed.

Lemma ya_has_zero q : ya_has 0 q = false.
Proof. apply N.bits_0. Qed.

Lemma ya_codes_plain st : ya_quirks st = 0 ->
  ya_codes st = map ya_attr_code (ya_attr_list (ya_attrs st))
                ++ concat (ya_ocolor_item YaBg (ya_bg st)) ++ concat (ya_ocolor_item YaFg (ya_fg st)).
Proof.
  intros Hq. unfold ya_codes, ya_items. rewrite Hq, !ya_has_zero, !concat_app, concat_singletons.
  now destruct (ya_bg st), (ya_fg st).
Qed.

Lemma ya_codes_ok st : ya_style_ok st -> ya_quirks st = 0 ->
  Forall (fun x => x < 256) (ya_codes st) /\ (length (ya_codes st) <= 19)%nat.
Proof.
  intros (Hf & Hb & _) Hq. rewrite (ya_codes_plain _ Hq), !Forall_app, !app_length, map_length.
  destruct (ya_ocolor_codes_ok YaBg _ Hb) as [B1 B2], (ya_ocolor_codes_ok YaFg _ Hf) as [F1 F2].
  pose proof (filter_length_le (fun a => N.testbit (ya_attrs st) (ya_attr_disc a)) ya_all_attrs) as L9.
  repeat split; try assumption; [|unfold ya_attr_list; cbn [length ya_all_attrs] in L9; lia].
  apply Forall_forall. intros x Hx. apply in_map_iff in Hx. destruct Hx as (a & <- & _). destruct a; reflexivity.
Qed.

(* the attribute codes are effect codes, and UNDERLINE is the only underline kind among their effects: from the default
   rendition they set the bits [ya_effects] collects, for every attribute set *)
Lemma ya_sgr_meaning st : ya_quirks st = 0 ->
  sgr_groups style_default (map (fun c => [c]) (ya_codes st)) = ya_meaning st.
Proof.
  intros Hq. rewrite (ya_codes_plain _ Hq), !map_app, map_map.
  rewrite (effect_codes_apply ya_attr_code ya_attr_effect)
    by (apply Forall_forall; intros a _; destruct a; cbn; tauto).
  unfold ya_attr_list. rewrite plain_effects_fold; [|apply Forall_forall; intros [] _; now cbn|reflexivity].
  rewrite N.lor_0_l. fold (ya_effects (ya_attrs st)). rewrite sgr_ocolor_codes.
  rewrite <- (app_nil_r (map _ _)), sgr_ocolor_codes.
  unfold ya_meaning. destruct (ya_bg st), (ya_fg st); reflexivity.
Qed.

Lemma ya_default_codes st : ya_style_ok st -> ya_quirks st = 0 -> ya_is_default st = false -> ya_codes st <> [].
Proof.
  intros (_ & _ & Hb) Hq Hd H. rewrite (ya_codes_plain _ Hq) in H.
  apply app_eq_nil in H. destruct H as [HA H]. apply app_eq_nil in H. destruct H as [HB HF].
  unfold ya_is_default in Hd.
  destruct (ya_fg st) as [cf|]; [destruct cf; discriminate|].
  destruct (ya_bg st) as [cb|]; [destruct cb; discriminate|].
  cbn [opt_eqb andb] in Hd. apply N.eqb_neq in Hd. apply Hd.
  apply map_eq_nil in HA. apply N.bits_inj. intros j. rewrite N.bits_0.
  destruct (N.lt_ge_cases j 9) as [Hj|Hj]; [|now apply (lt_pow2_bits (ya_attrs st) 9)].
  assert (I : In j (map ya_attr_disc ya_all_attrs)) by (cbn; lia).
  apply in_map_iff in I. destruct I as (a & <- & Ia). exact (filter_nil _ _ HA a Ia).
Qed.

Lemma ya_render_plain st : ya_plain st ->
  ya_render_bytes [120] st = ya_prefix st ++ [120] ++ (if ya_is_default st then [] else [27; 91; 48; 109]).
Proof.
  intros [Hq Hc]. unfold ya_render_bytes, ya_painted_bytes, ya_enabled, ya_suffix. rewrite Hc, Hq, !ya_has_zero.
  cbn [andb negb orb]. reflexivity.
Qed.

(* the rendering theorem at the level of yansi's own type: for every Style the Rust type can hold that has no quirk
   and no condition, `yansi::enable(); "x".paint(st).to_string()` does not panic and a terminal shows the "x" in exactly
   the rendition [ya_meaning st] *)
Lemma ya_render_interp st : ya_style_ok st -> ya_plain st ->
  ad_interp_x (ya_render_bytes [120] st) = Some (ya_meaning st).
Proof.
  intros Hok Hp. rewrite (ya_render_plain _ Hp). destruct Hp as [Hq _].
  destruct (ya_is_default st) eqn:Hd.
  - unfold ya_prefix. rewrite Hd. unfold ya_meaning. unfold ya_is_default in Hd.
    destruct (ya_fg st); [discriminate|]. destruct (ya_bg st); [discriminate|]. cbn [opt_eqb andb] in Hd. apply N.eqb_eq in Hd.
    rewrite Hd. reflexivity.
  - destruct (ya_codes_ok _ Hok Hq) as [Hu8 Hlen].
    destruct (byte_groups_ok ya_dec (ya_codes st) ya_dec_of (ya_default_codes _ Hok Hq Hd) Hu8 ltac:(lia)) as [Hcsi Hval].
    rewrite (ya_prefix_csi _ Hd), (csi_interp_x _ Hcsi), Hval. f_equal. exact (ya_sgr_meaning _ Hq).
Qed.

Theorem yansi_render_is_meaning : forall o en st, ya_style_ok st -> ya_plain st ->
  exists bytes, g_yansi_render o en st = Some bytes /\ ad_interp_x bytes = Some (ya_meaning st).
Proof.
  intros o en st Hok Hp. exists (ya_render_bytes [120] st). split.
  - apply g_yansi_render_text_eq; [apply Hok|]. rewrite (proj1 Hp). apply ya_has_zero.
  - now apply ya_render_interp.
Qed.

(* the restriction to quirk-free styles is needed: with `Quirk::Bright` (builder `.bright()`, which the adapter never
   calls) the same fields render a DIFFERENT colour than the value's plain meaning -- witness: red + Bright shows
   bright red *)
Definition ya_no_oracle : ya_oracle := mkYaOracle (fun _ _ => None) (fun _ _ => None).
Lemma yansi_render_quirk_refuted :
  exists st, ya_style_ok st /\ ya_cond st = None /\ ya_quirks st <> 0 /\
    (bs <- g_yansi_render ya_no_oracle false st ;; ad_interp_x bs) = Some (mkStyle (Some (CAnsi 9)) None None 0) /\
    ya_meaning st = mkStyle (Some (CAnsi 1)) None None 0.
Proof.
  exists (mkYaStyle (Some YaRed) None 0 (2 ^ ya_quirk_disc YaBright) None).
  repeat split; try (cbn; lia); try discriminate; vm_compute; reflexivity.
Qed.
