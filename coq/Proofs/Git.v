(* Proofs/Git.v -- C11: the model of anstyle_git::parse against Spec/GitSyntax. *)
From Coq Require Import NArith PeanoNat List Bool Lia.
From AV Require Import Generated.Git Spec.StyleRec Spec.SgrCodes Spec.GitSyntax Model.Base Model.Text Model.Git
  Proofs.Text Proofs.LsParse Proofs.GitWords Proofs.GitColor.
Import ListNotations.
Local Open Scope N_scope.

Lemma colors_of_app : forall a b, colors_of (a ++ b) = colors_of a ++ colors_of b.
Proof. induction a as [|[c|on x] a IH]; intros b; cbn; [reflexivity | now rewrite IH | apply IH]. Qed.

(* the state of the loop after the tokens [ts] *)
Definition state_of (ts : list gtoken) (ncol : nat) (fg bg : option tcolor) (eff : N) : Prop :=
  denote ts = mkTStyle fg bg None eff /\ length (colors_of ts) = ncol.

Lemma state_attr : forall ts ncol fg bg eff on a,
  state_of ts ncol fg bg eff ->
  state_of (ts ++ [GAttr on a]) ncol fg bg (if on then eff_insert eff (attr_bit a) else eff_remove eff (attr_bit a)).
Proof.
  intros ts ncol fg bg eff on a [Hd Hn]. unfold state_of, denote in *.
  rewrite colors_of_app, fold_left_app. cbn [colors_of]. rewrite app_nil_r. split; [|exact Hn].
  injection Hd as -> -> ->. cbn [fold_left apply_attr]. destruct on; reflexivity.
Qed.

Lemma state_color0 : forall ts fg bg eff c,
  state_of ts 0 fg bg eff -> state_of (ts ++ [GColor c]) 1 c bg eff.
Proof.
  intros ts fg bg eff c [Hd Hn]. unfold state_of, denote in *.
  rewrite colors_of_app, fold_left_app. cbn [colors_of fold_left apply_attr].
  destruct (colors_of ts) as [|x l]; [|discriminate Hn]. cbn [app nth length].
  cbn [nth] in Hd. injection Hd as <- <- ->. split; reflexivity.
Qed.

Lemma state_color1 : forall ts fg bg eff c,
  state_of ts 1 fg bg eff -> state_of (ts ++ [GColor c]) 2 fg c eff.
Proof.
  intros ts fg bg eff c [Hd Hn]. unfold state_of, denote in *.
  rewrite colors_of_app, fold_left_app. cbn [colors_of fold_left apply_attr].
  destruct (colors_of ts) as [|x [|y l]]; try discriminate Hn. cbn [app nth length].
  cbn [nth] in Hd. injection Hd as <- _ ->. split; reflexivity.
Qed.

Lemma loop_scan : forall ws ncol acc fg bg eff,
  state_of (rev acc) ncol fg bg eff ->
  match scan ws ncol acc with
  | GitOpen => True
  | GitDecided r => git_loop ws fg bg (N.of_nat ncol) eff = Some r
  end.
Proof.
  induction ws as [|w ws IH]; intros ncol acc fg bg eff St.
  - cbn [scan git_loop]. destruct St as [Hd _]. now rewrite Hd.
  - cbn [scan git_loop]. destruct (open_word w) eqn:Ho; [exact I|].
    unfold open_word in Ho. apply orb_false_iff in Ho as [Ho _]. pose proof (word_agree (map ascii_lower w) Ho) as W.
    unfold classify. change (to_lowercase w) with (map ascii_lower w).
    destruct (classify_lower (map ascii_lower w)) as [[c|on a]|].
    + destruct W as [W1 W2]. rewrite W1, W2.
      destruct ncol as [|[|n]].
      * cbn [Nat.leb]. change (N.of_nat 0 =? 0) with true. cbn iota.
        apply (IH 1%nat (GColor c :: acc)). cbn [rev]. now apply state_color0 with fg.
      * cbn [Nat.leb]. change (N.of_nat 1 =? 0) with false. change (N.of_nat 1 =? 1) with true. cbn iota.
        apply (IH 2%nat (GColor c :: acc)). cbn [rev]. now apply state_color1 with bg.
      * cbn [Nat.leb].
        assert ((N.of_nat (S (S n)) =? 0) = false) as -> by (apply N.eqb_neq; lia).
        assert ((N.of_nat (S (S n)) =? 1) = false) as -> by (apply N.eqb_neq; lia).
        reflexivity.
    + rewrite W. destruct on; apply (IH ncol (GAttr _ a :: acc)); cbn [rev]; exact (state_attr _ _ _ _ _ _ a St).
    + destruct W as [W1 W2]. rewrite W1, W2. reflexivity.
Qed.

Theorem git_model_is_spec : forall s,
  match spec_git s with
  | GitOpen => True
  | GitDecided r => git_parse s = Some r
  end.
Proof.
  intros s. unfold spec_git, spec_git_words, git_parse. rewrite words_split_whitespace.
  apply (loop_scan (split_whitespace s) 0 [] None None 0). split; reflexivity.
Qed.

Lemma git_loop_total : forall ws fg bg ncol eff, git_loop ws fg bg ncol eff <> None.
Proof.
  induction ws as [|w ws IH]; intros fg bg ncol eff; cbn [git_loop]; [discriminate|].
  destruct (assoc (to_lowercase w) git_keywords) as [[[] bit]|]; try apply IH.
  pose proof (parse_color_total (to_lowercase w)) as T.
  destruct (parse_color (to_lowercase w)) as [[c|]|]; [| discriminate | contradiction].
  destruct (ncol =? 0); [apply IH|]. destruct (ncol =? 1); [apply IH | discriminate].
Qed.

Theorem git_no_panic : forall s, git_parse s <> None.
Proof. intros s. apply git_loop_total. Qed.

Definition ascii_only (w : list N) : bool := forallb (fun c => c <? 128) w.

Lemma lookup_some_in : forall w T t, lookup w T = Some t -> In w (map fst T).
Proof.
  intros w. induction T as [|[k v] T IH]; intros t H; [discriminate H|].
  cbn [lookup] in H. destruct (bytes_eqb w k) eqn:E.
  - left. cbn [fst]. rewrite bytes_list_eqb in E. apply list_eqb_eq in E. now subst.
  - right. now apply (IH t).
Qed.

Lemma table_word_ascii : forall w T t,
  forallb ascii_only (map fst T) = true -> lookup w T = Some t -> Forall (fun c => c < 128) w.
Proof.
  intros w T t HT L. apply lookup_some_in in L. rewrite forallb_forall in HT.
  apply (forallb_Forall (fun c => c <? 128)); [intros c; apply N.ltb_lt | now apply HT].
Qed.

Lemma classify_lower_ascii : forall lw t, classify_lower lw = Some t -> Forall (fun c => c < 128) lw.
Proof.
  intros lw t H. unfold classify_lower in H.
  destruct (lookup lw attr_words) eqn:L1; [refine (table_word_ascii _ _ _ _ L1); reflexivity|].
  destruct (lookup lw color_words) eqn:L2; [refine (table_word_ascii _ _ _ _ L2); reflexivity|].
  destruct lw as [|c ds]; [discriminate H|].
  destruct (N.eqb_spec c HASH) as [->|_].
  - unfold hex_color in H. destruct (forallb is_hex ds) eqn:F; [|discriminate H].
    constructor; [reflexivity | now apply all_hex_ascii].
  - unfold strict_u8 in H. destruct (forallb is_digit (c :: ds)) eqn:F; [|discriminate H].
    exact (forallb_Forall _ _ is_digit_ascii _ F).
Qed.

Lemma ascii_lower_ascii : forall c, ascii_lower c < 128 -> c < 128.
Proof.
  intros c. unfold ascii_lower, between. destruct ((65 <=? c) && (c <=? 90)) eqn:E; [|trivial].
  apply andb_true_iff in E as [_ E]. apply N.leb_le in E. lia.
Qed.

Lemma classify_not_open : forall w t, classify w = Some t -> open_word w = false.
Proof.
  intros w t H. unfold open_word. apply orb_false_iff. split.
  - unfold classify in *. set (lw := map ascii_lower w) in *.
    destruct lw as [|c ds]; [reflexivity|]. cbn [open_field].
    destruct (N.eqb_spec c 43) as [->|_]; [|reflexivity]. exfalso.
    rewrite classify_lower_other in H by reflexivity. cbn [N.eqb Pos.eqb HASH] in H.
    now rewrite strict_u8_first in H.
  - apply classify_lower_ascii in H. rewrite Forall_forall in H.
    destruct (existsb odd_case w) eqn:X; [|reflexivity]. exfalso.
    apply existsb_exists in X as (c & Hc & Ho).
    specialize (H (ascii_lower c) (in_map _ _ _ Hc)). apply ascii_lower_ascii in H.
    unfold odd_case in Ho. apply orb_true_iff in Ho as [Ho|Ho]; apply N.eqb_eq in Ho; lia.
Qed.

Lemma scan_prefix : forall pre toks rest ncol acc,
  Forall2 (fun w t => classify w = Some t) pre toks ->
  (ncol + length (colors_of toks) <= 2)%nat ->
  scan (pre ++ rest) ncol acc = scan rest (ncol + length (colors_of toks)) (rev toks ++ acc).
Proof.
  intros pre toks rest ncol acc H. revert ncol acc.
  induction H as [|w t pre toks Hw H IH]; intros ncol acc Hn.
  - cbn. now rewrite Nat.add_0_r.
  - cbn [app scan]. rewrite (classify_not_open w t Hw), Hw.
    destruct t as [c|on a].
    + cbn [colors_of length] in *. destruct (Nat.leb 2 ncol) eqn:E; [apply Nat.leb_le in E; lia|].
      rewrite IH by lia. cbn [rev]. rewrite <- app_assoc. cbn [app]. f_equal. lia.
    + cbn [colors_of] in *. rewrite IH by lia. cbn [rev]. rewrite <- app_assoc. reflexivity.
Qed.

Lemma decided (s : list N) (r : git_result) : spec_git s = GitDecided r -> git_parse s = Some r.
Proof. intros H. pose proof (git_model_is_spec s) as M. now rewrite H in M. Qed.

(* every description of the grammar is accepted and denotes [denote toks] *)
Theorem git_accepts_words : forall s toks,
  Forall2 (fun w t => classify w = Some t) (words s) toks ->
  (length (colors_of toks) <= 2)%nat ->
  git_parse s = Some (GOk (denote toks)).
Proof.
  intros s toks H Hn. apply decided. unfold spec_git, spec_git_words.
  rewrite <- (app_nil_r (words s)). rewrite (scan_prefix _ toks [] 0 []) by (auto; lia).
  cbn [scan]. rewrite app_nil_r, rev_involutive. reflexivity.
Qed.

Theorem git_accepts_grammar : forall lead wss toks,
  ws_only lead = true -> Forall is_word (map fst wss) -> good_seps wss ->
  Forall2 (fun w t => classify w = Some t) (map fst wss) toks ->
  (length (colors_of toks) <= 2)%nat ->
  git_parse (layout lead wss) = Some (GOk (denote toks)).
Proof.
  intros lead wss toks Hl Hw Hs H Hn. apply git_accepts_words; [|exact Hn].
  now rewrite words_layout.
Qed.

(* the first word outside the vocabulary is reported as the unknown word *)
Theorem git_rejects_unknown : forall lead wss pre toks w post,
  ws_only lead = true -> Forall is_word (map fst wss) -> good_seps wss ->
  map fst wss = pre ++ w :: post ->
  Forall2 (fun w t => classify w = Some t) pre toks ->
  (length (colors_of toks) <= 2)%nat ->
  classify w = None -> open_word w = false ->
  git_parse (layout lead wss) = Some (GUnknownWord w).
Proof.
  intros lead wss pre toks w post Hl Hw Hs E H Hn Hc Ho. apply decided.
  unfold spec_git, spec_git_words. rewrite words_layout by assumption. rewrite E.
  rewrite (scan_prefix pre toks _ 0 []) by (auto; lia). cbn [scan]. now rewrite Ho, Hc.
Qed.

(* a third colour is reported as the extra colour *)
Theorem git_rejects_extra : forall lead wss pre toks w c post,
  ws_only lead = true -> Forall is_word (map fst wss) -> good_seps wss ->
  map fst wss = pre ++ w :: post ->
  Forall2 (fun w t => classify w = Some t) pre toks ->
  length (colors_of toks) = 2%nat ->
  classify w = Some (GColor c) ->
  git_parse (layout lead wss) = Some (GExtraColor w).
Proof.
  intros lead wss pre toks w c post Hl Hw Hs E H Hn Hc. apply decided.
  unfold spec_git, spec_git_words. rewrite words_layout by assumption. rewrite E.
  rewrite (scan_prefix pre toks _ 0 []) by (auto; lia). cbn [scan].
  rewrite (classify_not_open w _ Hc), Hc, Hn. reflexivity.
Qed.

(* '#' words: a digit that is not hexadecimal, or a length other than 3 / 6 *)
Lemma is_hex_lower : forall c, is_hex (ascii_lower c) = is_hex c.
Proof.
  intros c. unfold ascii_lower. destruct (between 65 c 90) eqn:U; [|reflexivity].
  unfold between in U. apply andb_true_iff in U as [L H]. apply N.leb_le in L, H.
  apply eq_true_iff_eq. unfold is_hex, between. rewrite !orb_true_iff, !andb_true_iff, !N.leb_le. lia.
Qed.

Lemma hash_word_rejected : forall digits,
  (length digits <> 3%nat /\ length digits <> 6%nat) \/ (exists c, In c digits /\ is_hex c = false) ->
  classify (HASH :: digits) = None.
Proof.
  intros digits Hbad.
  unfold classify. cbn [map]. change (ascii_lower HASH) with HASH. rewrite classify_lower_other, N.eqb_refl by reflexivity.
  unfold hex_color.
  destruct (forallb is_hex (map ascii_lower digits)) eqn:F; [|reflexivity].
  destruct Hbad as [[H3 H6] | (c & Hin & Hc)].
  - rewrite <- (map_length ascii_lower) in H3, H6.
    destruct (map ascii_lower digits) as [|? [|? [|? [|? [|? [|? [|? ?]]]]]]]; try reflexivity; cbn in H3, H6; contradiction.
  - exfalso. rewrite forallb_forall in F. specialize (F (ascii_lower c) (in_map _ _ _ Hin)).
    rewrite is_hex_lower in F. congruence.
Qed.

Theorem git_rejects_hash : forall lead wss pre toks digits post,
  ws_only lead = true -> Forall is_word (map fst wss) -> good_seps wss ->
  map fst wss = pre ++ (HASH :: digits) :: post ->
  Forall2 (fun w t => classify w = Some t) pre toks ->
  (length (colors_of toks) <= 2)%nat ->
  (length digits <> 3%nat /\ length digits <> 6%nat) \/ (exists c, In c digits /\ is_hex c = false) ->
  existsb odd_case digits = false ->
  git_parse (layout lead wss) = Some (GUnknownWord (HASH :: digits)).
Proof.
  intros lead wss pre toks digits post Hl Hw Hs E H Hn Hbad Hodd.
  assert (Ho : open_word (HASH :: digits) = false).
  { unfold open_word. cbn [existsb map]. change (odd_case HASH) with false. cbn [orb].
    rewrite Hodd, orb_false_r. reflexivity. }
  exact (git_rejects_unknown lead wss pre toks (HASH :: digits) post Hl Hw Hs E H Hn (hash_word_rejected digits Hbad) Ho).
Qed.
