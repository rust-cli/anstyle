(* The inner writers of Spec/Io in the form C17 uses, on top of Proofs/StreamIo.v: where
   in the buffer std's `write_all` loop stood when it failed, and which call failed. *)
From Coq Require Import NArith List Bool Lia.
From AV Require Import Spec.Io.
From AV Require Export Proofs.StreamIo.
Import ListNotations.
Local Open Scope N_scope.

Lemma w_write_spec : forall w buf w' r,
  w_write w buf = (w', r) ->
  w_calls w' = w_calls w ++ [CWrite buf r] /\
  w_script w' = tl (w_script w) /\
  match r with
  | inl k => k <= N.of_nat (length buf) /\ w_received w' = w_received w ++ firstn (N.to_nat k) buf
  | inr _ => w_received w' = w_received w
  end.
Proof.
  intros w buf w' r H. unfold w_write in H.
  destruct (w_script w) as [|[n|e] rest] eqn:Es; inversion H; subst; clear H; cbn [w_calls w_script w_received tl].
  - split; [reflexivity|]. split; [reflexivity|]. split; [lia|]. now rewrite Nat2N.id, firstn_all.
  - split; [reflexivity|]. split; [reflexivity|]. split; [lia|reflexivity].
  - split; [reflexivity|]. split; reflexivity.
Qed.

(* [w_write_all_outcome] without the script length and the benign calls: on failure a proper prefix was
   received and the LAST inner call is the one that failed *)
Definition last_call_post (w : writer) (buf : list N) (w' : writer) (r : unit + ekind) : Prop :=
  exists calls, w_calls w' = w_calls w ++ calls /\
  match r with
  | inl _ => w_received w' = w_received w ++ buf
  | inr e =>
      exists j pre res,
        (j < length buf)%nat /\
        w_received w' = w_received w ++ firstn j buf /\
        calls = pre ++ [CWrite (skipn j buf) res] /\
        e <> Interrupted /\
        (res = inr e \/ (res = inl 0 /\ e = WriteZero))
  end.

Lemma w_write_all_last_call : forall w buf w' r,
  w_write_all w buf = (w', r) -> last_call_post w buf w' r.
Proof.
  intros w buf w' r H. destruct (w_write_all_outcome_spec _ _ _ _ H) as (_ & cs & Hc & Hr).
  exists cs. split; [exact Hc|]. destruct r as [u|e]; [exact (proj1 Hr)|].
  destruct Hr as (j & h & res & Hj & Hrec & Hcs & _ & Hres). exists j, h, res. auto.
Qed.

Lemma w_write_all_accept_all_calls : forall w buf,
  w_script w = [] ->
  exists calls, w_write_all w buf = (mkW [] (w_received w ++ buf) (w_calls w ++ calls), inl tt).
Proof.
  intros w buf Hs. destruct (w_write_all_accept_all w buf Hs) as (w1 & H & Hs1 & Hrec).
  destruct (w_write_all_outcome_spec _ _ _ _ H) as (_ & cs & Hc & _).
  exists cs. rewrite H. destruct w1. cbn in *. subst. reflexivity.
Qed.
