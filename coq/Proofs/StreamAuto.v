(* C08: AutoStream forwards every Write method to the arm
   chosen at construction.  Never = StripStream (same results, same inner-writer
   history); AlwaysAnsi / Always = the inner writer itself; with an accept-all
   inner writer the delivered bytes are the stripped resp. unchanged data. *)
From Coq Require Import NArith Arith List Bool Lia.
From AV Require Import Generated.Table Spec.Io Spec.Strip Model.Base Model.Utf8parse Model.Parser Model.Strip
  Model.Stream Proofs.TableFacts Proofs.StripMachine Proofs.StripSim Proofs.StreamIo Proofs.Stream.
Import ListNotations.
Local Open Scope N_scope.

Fixpoint ss_run (s : sbytes) (w : writer) (ops : list sop) : option (sbytes * writer * list sres) :=
  match ops with
  | [] => Some (s, w, [])
  | o :: rest =>
      '(s1, w1, r) <- ss_op s w o ;;
      '(s2, w2, rs) <- ss_run s1 w1 rest ;;
      Some (s2, w2, r :: rs)
  end.

Fixpoint pass_run (wv_all : bool) (w : writer) (ops : list sop) : writer * list sres :=
  match ops with
  | [] => (w, [])
  | o :: rest =>
      let '(w1, r) := pass_op wv_all w o in
      let '(w2, rs) := pass_run wv_all w1 rest in
      (w2, r :: rs)
  end.

Definition pass_data (wv_all : bool) (o : sop) : list N :=
  match o with
  | OWrite buf => buf
  | OWriteAll buf => buf
  | OWriteVectored bufs => if wv_all then concat bufs else first_nonempty bufs
  | OWriteFmt frags => concat frags
  | OFlush => []
  end.

Definition pass_res (wv_all : bool) (o : sop) : sres :=
  match o with
  | OWrite _ | OWriteVectored _ => ROkN (N.of_nat (length (pass_data wv_all o)))
  | _ => ROk
  end.

Definition strip_data (o : sop) : list N := pass_data false o.
Definition strip_res (o : sop) : sres := pass_res false o.

Lemma run_ops_strip b s w ops : run_ops b MStrip s w ops = ss_run s w ops.
Proof.
  revert s w. induction ops as [|o rest IH]; intros s w; cbn [run_ops ss_run auto_op]; [reflexivity|].
  destruct (ss_op s w o) as [[[s1 w1] r]|]; [|reflexivity]. rewrite IH. reflexivity.
Qed.

Lemma run_ops_pass b s w ops :
  run_ops b MPass s w ops = Some (s, fst (pass_run b w ops), snd (pass_run b w ops)).
Proof.
  revert w. induction ops as [|o rest IH]; intros w; cbn [run_ops pass_run auto_op]; [reflexivity|].
  destruct (pass_op b w o) as [w1 r]. rewrite IH. destruct (pass_run b w1 rest) as [w2 rs]. reflexivity.
Qed.

Theorem never_is_strip : forall b d s w ops,
  run_ops b (auto_mode CNever d) s w ops = ss_run s w ops.
Proof. intros. apply run_ops_strip. Qed.

Definition accepted (w w' : writer) (x : list N) : Prop :=
  w_script w' = [] /\ w_received w' = w_received w ++ x.

Lemma accepted_nil w : w_script w = [] -> accepted w w [].
Proof. intros Hs. split; [exact Hs|]. rewrite app_nil_r. reflexivity. Qed.

Lemma accepted_app {w w1 w2 x y} : accepted w w1 x -> accepted w1 w2 y -> accepted w w2 (x ++ y).
Proof. intros [_ H1] [Hs H2]. split; [exact Hs|]. rewrite H2, H1, app_assoc. reflexivity. Qed.

Lemma w_write_fmt_accept_all : forall frags w,
  w_script w = [] ->
  exists w1, w_write_fmt w frags = (w1, ROk) /\ accepted w w1 (concat frags).
Proof.
  induction frags as [|fr rest IH]; intros w Hs; cbn [w_write_fmt concat].
  - exists w. split; [reflexivity|]. apply accepted_nil, Hs.
  - destruct (w_write_all_accept_all w fr Hs) as (w1 & Hw & Ha1). rewrite Hw.
    destruct (IH w1 (proj1 Ha1)) as (w2 & Hf & Ha2). exists w2. split; [exact Hf|].
    exact (accepted_app Ha1 Ha2).
Qed.

Lemma pass_op_accept_all b w o :
  w_script w = [] ->
  exists w1, pass_op b w o = (w1, pass_res b o) /\ accepted w w1 (pass_data b o).
Proof.
  intros Hs. destruct o as [buf|buf|bufs|frags|]; cbn [pass_op pass_res pass_data].
  - rewrite (w_write_accept_all w buf Hs). eexists. split; [reflexivity|]. split; reflexivity.
  - destruct (w_write_all_accept_all w buf Hs) as (w1 & Hw & Ha1). rewrite Hw. eauto.
  - rewrite (w_write_accept_all w _ Hs). eexists. split; [reflexivity|]. split; reflexivity.
  - apply w_write_fmt_accept_all, Hs.
  - exists (w_flush w). split; [reflexivity|]. exact (accepted_nil w Hs).
Qed.

Lemma pass_run_accept_all b : forall ops w,
  w_script w = [] ->
  exists w', pass_run b w ops = (w', map (pass_res b) ops) /\ accepted w w' (concat (map (pass_data b) ops)).
Proof.
  induction ops as [|o rest IH]; intros w Hs; cbn [pass_run map concat].
  - exists w. split; [reflexivity|]. apply accepted_nil, Hs.
  - destruct (pass_op_accept_all b w o Hs) as (w1 & Hp & Ha1). rewrite Hp.
    destruct (IH w1 (proj1 Ha1)) as (w2 & Hr & Ha2). rewrite Hr. exists w2.
    split; [reflexivity|]. exact (accepted_app Ha1 Ha2).
Qed.

Theorem always_ansi_is_identity : forall b d c s w ops,
  c = CAlwaysAnsi \/ c = CAlways ->
  run_ops b (auto_mode c d) s w ops = Some (s, fst (pass_run b w ops), snd (pass_run b w ops)) /\
  (w_script w = [] ->
   snd (pass_run b w ops) = map (pass_res b) ops /\
   w_received (fst (pass_run b w ops)) = w_received w ++ concat (map (pass_data b) ops)).
Proof.
  intros b d c s w ops Hc.
  assert (Hm : auto_mode c d = MPass) by (destruct Hc as [-> | ->]; reflexivity).
  rewrite Hm. split; [apply run_ops_pass|].
  intros Hs. destruct (pass_run_accept_all b ops w Hs) as (w' & Hr & _ & Hrec). rewrite Hr. cbn. auto.
Qed.

Theorem always_eq_always_ansi : forall b d s w ops,
  run_ops b (auto_mode CAlways d) s w ops = run_ops b (auto_mode CAlwaysAnsi d) s w ops.
Proof. reflexivity. Qed.

Theorem current_choice_spec : forall d,
  current_choice (auto_mode CNever d) = CNever /\
  current_choice (auto_mode CAlwaysAnsi d) = CAlwaysAnsi /\
  current_choice (auto_mode CAlways d) = CAlwaysAnsi /\
  current_choice (auto_mode CAuto d) = match d with CNever => CNever | _ => CAlwaysAnsi end.
Proof. intros d. repeat split. (* the first three hold by conversion *) destruct d; reflexivity. Qed.

Theorem reported_mode_in_force : forall b m s w ops,
  (current_choice m = CNever -> run_ops b m s w ops = ss_run s w ops) /\
  (current_choice m = CAlwaysAnsi ->
   run_ops b m s w ops = Some (s, fst (pass_run b w ops), snd (pass_run b w ops))).
Proof.
  intros b m s w ops. destruct m; cbn [current_choice]; split; intros H; try discriminate.
  - apply run_ops_pass.
  - apply run_ops_strip.
Qed.

(* Over an accept-all writer only the success branch of each loop is reachable.  The three lemmas
   below extract just that: the answer is Ok(len) / Ok(()) and the script stays empty.  WHAT was
   delivered comes from ss_write_spec / ss_write_all_spec / ss_write_fmt_spec of Proofs/Stream.v;
   the two are joined in ss_op_accept_all. *)
Lemma ss_write_loop_accept_all : forall fuel buf bs off s0 st u d w s' w' r,
  w_script w = [] ->
  ss_write_loop fuel buf bs off s0 st u d w = Some (s', w', r) ->
  r = ROkN (N.of_nat (length buf)) /\ w_script w' = [].
Proof.
  induction fuel as [|fuel IH]; intros buf bs off s0 st u d w s' w' r Hs H; [discriminate|].
  cbn [ss_write_loop] in H.
  destruct (next_bytes bs off st u) as [[[[[p bs'] off'] st'] u']|]; [|discriminate].
  destruct p as [pc|].
  - rewrite (w_write_accept_all w _ Hs) in H. cbv beta iota in H.
    (* possible = written: the writer took the whole piece *)
    rewrite N.eqb_refl in H. cbn [negb] in H.
    eapply IH; [|exact H]. reflexivity.
  - inversion H; subst. auto.
Qed.
Arguments ss_write_loop_accept_all {fuel buf bs off s0 st u d w s' w' r}.

Lemma ss_write_all_loop_accept_all : forall fuel bs off st u w s' w' r,
  w_script w = [] ->
  ss_write_all_loop fuel bs off st u w = Some (s', w', r) ->
  r = ROk /\ w_script w' = [].
Proof.
  induction fuel as [|fuel IH]; intros bs off st u w s' w' r Hs H; [discriminate|].
  cbn [ss_write_all_loop] in H.
  destruct (next_bytes bs off st u) as [[[[[p bs'] off'] st'] u']|]; [|discriminate].
  destruct p as [pc|].
  - destruct (w_write_all_accept_all w (p_bytes pc) Hs) as (w1 & Hw & Hs1 & _).
    rewrite Hw in H. eapply IH; [exact Hs1|exact H].
  - inversion H; subst. auto.
Qed.
Arguments ss_write_all_loop_accept_all {fuel bs off st u w s' w' r}.

Lemma ss_write_fmt_accept_all : forall frags s w s' w' r,
  w_script w = [] ->
  ss_write_fmt s frags w = Some (s', w', r) ->
  r = ROk /\ w_script w' = [].
Proof.
  induction frags as [|fr rest IH]; intros s w s' w' r Hs H; cbn [ss_write_fmt] in H.
  - inversion H; subst. auto.
  - destruct (ss_write_all s fr w) as [[[s1 w1] r1]|] eqn:Hwa; [|discriminate].
    destruct (ss_write_all_loop_accept_all Hs Hwa) as [-> Hs1].
    eapply IH; [exact Hs1|exact H].
Qed.
Arguments ss_write_fmt_accept_all {frags s w s' w' r}.

Lemma ss_op_accept_all s w o :
  w_script w = [] -> bytes_ok (strip_data o) -> SInv s ->
  exists w', ss_op s w o = Some (after s (strip_data o), w', strip_res o) /\ accepted w w' (kept s (strip_data o)).
Proof.
  intros Hs Hok HI.
  assert (Hwrite : forall buf, bytes_ok buf ->
    exists w', ss_write s buf w = Some (after s buf, w', ROkN (N.of_nat (length buf))) /\ accepted w w' (kept s buf)).
  { intros buf Hb. destruct (ss_write_spec s buf w Hb HI) as (s1 & w1 & r1 & Hwr & Hpost).
    destruct (ss_write_loop_accept_all Hs Hwr) as [-> Hs1].
    destruct Hpost as (_ & Hrec & Hs' & _). rewrite Nat2N.id, firstn_all in Hrec, Hs'.
    exists w1. rewrite Hwr, Hs'. split; [reflexivity|]. split; assumption. }
  destruct o as [buf|buf|bufs|frags|]; cbn [ss_op]; unfold strip_res, strip_data in *;
    cbn [pass_res pass_data] in *.
  - apply Hwrite, Hok.
  - destruct (ss_write_all_spec s buf w Hok HI) as (s1 & w1 & r1 & Hwr & _ & _ & cs & _ & Hr).
    destruct (ss_write_all_loop_accept_all Hs Hwr) as [-> Hs1].
    destruct Hr as (Hrec & Hs' & _). exists w1. rewrite Hwr, Hs'. split; [reflexivity|]. split; assumption.
  - apply Hwrite, Hok.
  - destruct (ss_write_fmt_spec frags s w Hok HI) as (s1 & w1 & r1 & Hwr & _ & _ & cs & _ & Hr).
    destruct (ss_write_fmt_accept_all Hs Hwr) as [-> Hs1].
    destruct Hr as (Hrec & Hs' & _). exists w1. rewrite Hwr, Hs'. split; [reflexivity|]. split; assumption.
  - exists (w_flush w). rewrite after_nil, kept_nil. split; [reflexivity|]. exact (accepted_nil w Hs).
Qed.

Lemma ss_run_accept_all : forall ops s w,
  w_script w = [] -> bytes_ok (concat (map strip_data ops)) -> SInv s ->
  exists w', ss_run s w ops = Some (after s (concat (map strip_data ops)), w', map strip_res ops) /\
             accepted w w' (kept s (concat (map strip_data ops))).
Proof.
  induction ops as [|o rest IH]; intros s w Hs Hok HI; cbn [ss_run map concat] in *.
  - exists w. rewrite after_nil, kept_nil. split; [reflexivity|]. apply accepted_nil, Hs.
  - pose proof Hok as Hok2. apply bytes_ok_app in Hok2 as [Ho Hrest].
    destruct (ss_op_accept_all s w o Hs Ho HI) as (w1 & Hop & Ha1). rewrite Hop.
    assert (HI1 : SInv (after s (strip_data o))) by (apply after_inv; assumption).
    destruct (IH _ w1 (proj1 Ha1) Hrest HI1) as (w2 & Hr & Ha2). rewrite Hr.
    exists w2. rewrite (after_app s _ _ Hok), (kept_app s _ _ Hok).
    split; [reflexivity|]. exact (accepted_app Ha1 Ha2).
Qed.

(* Never over an accept-all inner writer, from a fresh stream, any interleaving of
   the five operations: every call succeeds and the inner writer has received
   exactly the specification's stripping of all the data *)
Theorem never_delivers_spec_strip : forall b d w ops,
  w_script w = [] -> bytes_ok (concat (map strip_data ops)) ->
  exists s' w',
    run_ops b (auto_mode CNever d) sb_new w ops = Some (s', w', map strip_res ops) /\
    w_received w' = w_received w ++ spec_strip (concat (map strip_data ops)).
Proof.
  intros b d w ops Hs Hok. rewrite never_is_strip.
  destruct (ss_run_accept_all ops sb_new w Hs Hok SInv_new) as (w' & Hr & _ & Hrec).
  do 2 eexists. split; [exact Hr|]. rewrite Hrec, (kept_new_is_spec _ Hok). reflexivity.
Qed.
