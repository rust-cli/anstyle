(* `write_colored` translated from crates/anstyle-wincon/src/ansi.rs
   (Generated/WinconAnsiFn.v, written by tools/gen_fn_wincon_ansi.py on every run) is extensionally
   equal to the hand model Model/WinconAnsi.wa_write_colored that the theorems of C17 are about:
   same inner writer afterwards (script, received bytes, call history), same io::Result.  A change
   to the Rust function changes the translation; if it changes its meaning, this proof fails. *)
From Coq Require Import NArith List Bool.
From AV Require Import Generated.Style Generated.WinconAnsi Spec.Io Spec.AnsiFrame Model.Base Model.Imp Model.WinconAnsi
  Generated.WinconAnsiFn Proofs.WinconAnsi.
Import ListNotations.
Local Open Scope N_scope.

(* one inner operation at a time, in evaluation order: the call both sides share is destructed once *)
Ltac wa_step :=
  match goal with
  | |- context [w_write_all ?w ?s] => destruct (w_write_all w s) as [? [[]|?]]
  | |- context [w_write ?w ?s] => destruct (w_write w s) as [? [?|?]]
  end; cbv beta iota zeta.

Lemma g_write_colored_eq w fg bg data :
  g_write_colored w fg bg data = wa_write_colored fg bg data w.
Proof.
  unfold g_write_colored, wa_write_colored, wa_write_opt, wa_raw_write, wa_raw_write_fmt1, wa_render_fg, wa_render_bg,
         wa_reset_render.
  destruct fg as [f|], bg as [b|]; cbn [opt_is_some wa_is_some orb]; cbv beta iota zeta.
  all: repeat wa_step; reflexivity.
Qed.

Theorem translated_write_colored_is_model : forall w fg bg data,
  g_write_colored w fg bg data = wa_write_colored fg bg data w.
Proof. exact g_write_colored_eq. Qed.

Theorem translated_write_colored_is_spec : forall w fg bg data,
  g_write_colored w fg bg data = sa_write_colored (wa_idx fg) (wa_idx bg) data w.
Proof. intros. rewrite g_write_colored_eq. apply model_is_spec. Qed.

(* crates/anstyle-wincon/src/stream.rs: the per-type `impl WinconStream for <T>` (non-Windows)
   Every impl is TRANSLATED (Generated/WinconAnsiFn.v, the g_wc_ definitions).  Each one hands `self` and the three
   arguments, in order, to `ansi::write_colored` exactly once and returns its answer: no buffering wrapper,
   no second write, no swapped colours.  Stdout / Stderr go through `self.lock()` (a view of the same
   stream) and then through the TRANSLATED impl of their lock type. *)
Ltac wc_forward f := intros; unfold f;
  match goal with |- context [let '(_, _) := ?c in _] => destruct c; reflexivity end.

Lemma g_wc_dyn_eq w fg bg data : g_wc_dyn w fg bg data = g_write_colored w fg bg data.
Proof. wc_forward g_wc_dyn. Qed.
Lemma g_wc_dyn_send_eq w fg bg data : g_wc_dyn_send w fg bg data = g_write_colored w fg bg data.
Proof. wc_forward g_wc_dyn_send. Qed.
Lemma g_wc_dyn_send_sync_eq w fg bg data : g_wc_dyn_send_sync w fg bg data = g_write_colored w fg bg data.
Proof. wc_forward g_wc_dyn_send_sync. Qed.
Lemma g_wc_file_eq w fg bg data : g_wc_file w fg bg data = g_write_colored w fg bg data.
Proof. wc_forward g_wc_file. Qed.
Lemma g_wc_vec_eq w fg bg data : g_wc_vec w fg bg data = g_write_colored w fg bg data.
Proof. wc_forward g_wc_vec. Qed.
Lemma g_wc_stdoutlock_eq w fg bg data : g_wc_stdoutlock w fg bg data = g_write_colored w fg bg data.
Proof. wc_forward g_wc_stdoutlock. Qed.
Lemma g_wc_stderrlock_eq w fg bg data : g_wc_stderrlock w fg bg data = g_write_colored w fg bg data.
Proof. wc_forward g_wc_stderrlock. Qed.
Lemma g_wc_stdout_eq w fg bg data : g_wc_stdout w fg bg data = g_write_colored w fg bg data.
Proof. rewrite <- g_wc_stdoutlock_eq. wc_forward g_wc_stdout. Qed.
Lemma g_wc_stderr_eq w fg bg data : g_wc_stderr w fg bg data = g_write_colored w fg bg data.
Proof. rewrite <- g_wc_stderrlock_eq. wc_forward g_wc_stderr. Qed.
(* the two generic impls forward to the pointee's impl [twc], whatever it is *)
Lemma g_wc_refmut_eq twc w fg bg data : g_wc_refmut twc w fg bg data = twc w fg bg data.
Proof. wc_forward g_wc_refmut. Qed.
Lemma g_wc_box_eq twc w fg bg data : g_wc_box twc w fg bg data = twc w fg bg data.
Proof. wc_forward g_wc_box. Qed.

Definition g_wc_impls : list (writer -> option ansi_color -> option ansi_color -> list N -> writer * (N + ekind)) :=
  [g_wc_dyn; g_wc_dyn_send; g_wc_dyn_send_sync; g_wc_file; g_wc_vec; g_wc_stdoutlock; g_wc_stderrlock; g_wc_stdout; g_wc_stderr].

Theorem translated_impls_are_write_colored : forall f, In f g_wc_impls ->
  forall w fg bg data, f w fg bg data = wa_write_colored fg bg data w.
Proof.
  intros f H w fg bg data. rewrite <- g_write_colored_eq. revert f H w fg bg data.
  apply (proj1 (Forall_forall (fun f => forall w fg bg data, f w fg bg data = g_write_colored w fg bg data) _)).
  (* one lemma per element of the list, in its order *)
  repeat apply Forall_cons;
    [exact g_wc_dyn_eq | exact g_wc_dyn_send_eq | exact g_wc_dyn_send_sync_eq | exact g_wc_file_eq | exact g_wc_vec_eq
    | exact g_wc_stdoutlock_eq | exact g_wc_stderrlock_eq | exact g_wc_stdout_eq | exact g_wc_stderr_eq | apply Forall_nil].
Qed.

(* hence through any number of `&mut` / `Box` layers *)
Theorem translated_generic_impls_forward : forall twc w fg bg data,
  g_wc_refmut twc w fg bg data = twc w fg bg data /\ g_wc_box twc w fg bg data = twc w fg bg data.
Proof. intros. exact (conj (g_wc_refmut_eq _ _ _ _ _) (g_wc_box_eq _ _ _ _ _)). Qed.

Theorem translated_impls_are_spec : forall f, In f g_wc_impls ->
  forall w fg bg data, f w fg bg data = sa_write_colored (wa_idx fg) (wa_idx bg) data w.
Proof. intros f H w fg bg data. rewrite (translated_impls_are_write_colored f H). apply model_is_spec. Qed.
