(* "bit i of e is set" over N, in the spellings Rust code uses for it: `e & (1 << i)` compared
   with 0 or with `1 << i`, on either side of `&`, and `(e >> i) & 1`.  Each is [N.testbit e i]. *)
From Coq Require Import NArith Bool Lia.
Local Open Scope N_scope.

Lemma lt_pow2_bits a n : a < 2 ^ n <-> (forall i, n <= i -> N.testbit a i = false).
Proof.
  split.
  - intros H i Hi. destruct (N.eq_dec a 0) as [->|Ha]; [apply N.bits_0|].
    apply N.bits_above_log2. apply N.log2_lt_pow2 in H; lia.
  - intros H. assert (E : a mod 2 ^ n = a).
    { apply N.bits_inj; intro i. destruct (N.lt_ge_cases i n) as [Hi|Hi].
      - now rewrite N.mod_pow2_bits_low.
      - rewrite N.mod_pow2_bits_high by assumption. symmetry; now apply H. }
    rewrite <- E. apply N.mod_lt. apply N.pow_nonzero. discriminate.
Qed.

Lemma shl1_testbit i n : N.testbit (N.shiftl 1 i) n = (i =? n).
Proof. rewrite N.shiftl_1_l. apply N.pow2_bits_eqb. Qed.

Lemma shl1_nonzero i : N.shiftl 1 i <> 0.
Proof. rewrite N.shiftl_1_l. apply N.pow_nonzero. discriminate. Qed.

Lemma land_shl1 e i : N.land e (N.shiftl 1 i) = if N.testbit e i then N.shiftl 1 i else 0.
Proof.
  apply N.bits_inj. intros n. rewrite N.land_spec, shl1_testbit.
  destruct (N.eqb_spec i n) as [<-|Hn].
  - rewrite andb_true_r. destruct (N.testbit e i); [rewrite shl1_testbit, N.eqb_refl|]; reflexivity.
  - rewrite andb_false_r. destruct (N.testbit e i); [rewrite shl1_testbit|]; symmetry; [now apply N.eqb_neq|apply N.bits_0].
Qed.

Lemma land_bit_ne0 e i : negb (N.land e (N.shiftl 1 i) =? 0) = N.testbit e i.
Proof.
  rewrite land_shl1. destruct (N.testbit e i); [|reflexivity].
  apply negb_true_iff, N.eqb_neq, shl1_nonzero.
Qed.

Lemma land_bit_ne0' e i : negb (N.land (N.shiftl 1 i) e =? 0) = N.testbit e i.
Proof. rewrite N.land_comm. apply land_bit_ne0. Qed.

Lemma land_bit_eq e i : (N.land e (N.shiftl 1 i) =? N.shiftl 1 i) = N.testbit e i.
Proof.
  rewrite land_shl1. destruct (N.testbit e i); [apply N.eqb_refl|].
  apply N.eqb_neq, N.neq_sym, shl1_nonzero.
Qed.

Lemma land_bit_eq' e i : (N.land (N.shiftl 1 i) e =? N.shiftl 1 i) = N.testbit e i.
Proof. rewrite N.land_comm. apply land_bit_eq. Qed.

Lemma land_bit_eq0 e i : (N.land e (N.shiftl 1 i) =? 0) = negb (N.testbit e i).
Proof. rewrite <- land_bit_ne0, negb_involutive. reflexivity. Qed.

Lemma land_bit_eq0' e i : (N.land (N.shiftl 1 i) e =? 0) = negb (N.testbit e i).
Proof. rewrite N.land_comm. apply land_bit_eq0. Qed.

Lemma shr_bit_ne0 e i : negb (N.land (N.shiftr e i) 1 =? 0) = N.testbit e i.
Proof.
  rewrite <- (N.shiftl_0_r 1) at 1. rewrite land_bit_ne0, N.shiftr_spec', N.add_0_l. reflexivity.
Qed.

Lemma shr_bit_eq1 e i : (N.land (N.shiftr e i) 1 =? 1) = N.testbit e i.
Proof.
  change 1 with (N.shiftl 1 0). rewrite land_bit_eq, N.shiftr_spec', N.add_0_l. reflexivity.
Qed.
