(* The translated unicode-width (Generated/UnicodeWidthFn.v, tools/gen_fn_unicodewidth.py): every table
   index is in bounds for every code point below 2^21 (so for every `char`), hence no function of the
   width computation panics (`*_total`); the lists searched by `binary_search_by` are sorted, so the
   bisection finds a range iff a linear scan does; and the width facts Model/SvgWidth.v and Props/C14.v use.
   There is no hand model of unicode-width: the translated function IS the model the svg theorems
   are instantiated with (Proofs/SvgWidthGen.v). *)
From Coq Require Import NArith ZArith List Bool Lia.
From AV Require Import Model.Base Model.Imp Model.UnicodeWidth Generated.UnicodeWidthFn.
Import ListNotations.
Local Open Scope N_scope.

Definition uw_ok {A : Type} (o : option A) : Prop := exists x, o = Some x.

Lemma uw_ok_some {A} (x : A) : uw_ok (Some x).
Proof. now exists x. Qed.

Lemma uw_ok_bind {A B} (e : option A) (f : A -> option B) :
  uw_ok e -> (forall x, uw_ok (f x)) -> uw_ok (match e with Some x => f x | None => None end).
Proof. intros [x ->] H. apply H. Qed.

Lemma uw_ok_if {A} (b : bool) (x y : option A) : uw_ok x -> uw_ok y -> uw_ok (if b then x else y).
Proof. now destruct b. Qed.

Lemma uw_ok_aget {A B} (l : list A) (i : N) (f : A -> option B) :
  i < N.of_nat (length l) -> (forall x, In x l -> uw_ok (f x)) ->
  uw_ok (match aget l i with Some x => f x | None => None end).
Proof.
  intros Hi H. unfold aget. destruct (nth_error l (N.to_nat i)) eqn:E.
  - eapply H, nth_error_In, E.
  - apply nth_error_None in E. lia.
Qed.

(* a local continuation (`let k := fun .. => .. in ..`) is proved total once; what follows is proved for an
   arbitrary total [k], so a continuation called from several places is entered once *)
Lemma uw_ok_let {K B} (P : K -> Prop) (f : K) (body : K -> option B) :
  P f -> (forall k, P k -> uw_ok (body k)) -> uw_ok (let k := f in body k).
Proof. intros Hf H. exact (H f Hf). Qed.

Definition uw_rows_ok (n : nat) (bound : N) (t : list (list N)) : bool :=
  forallb (fun row => Nat.eqb (length row) n && forallb (fun x => x <? bound) row) t.

Lemma uw_root_shape :
  length g_uw_WIDTH_ROOT = 256%nat /\
  forallb (fun x => x <? N.of_nat (length g_uw_WIDTH_MIDDLE)) g_uw_WIDTH_ROOT = true.
Proof. split; vm_compute; reflexivity. Qed.

Lemma uw_middle_shape : uw_rows_ok 64 (N.of_nat (length g_uw_WIDTH_LEAVES)) g_uw_WIDTH_MIDDLE = true.
Proof. vm_compute. reflexivity. Qed.

Lemma uw_leaves_shape : uw_rows_ok 32 256 g_uw_WIDTH_LEAVES = true.
Proof. vm_compute. reflexivity. Qed.

Lemma uw_emoji_leaves_shape :
  length g_uw_EMOJI_PRESENTATION_LEAVES = 7%nat /\ uw_rows_ok 128 256 g_uw_EMOJI_PRESENTATION_LEAVES = true.
Proof. split; vm_compute; reflexivity. Qed.

Lemma uw_ok_aget2 {B} n bound t (i j : N) (f : N -> option B) :
  uw_rows_ok n bound t = true -> i < N.of_nat (length t) -> j < N.of_nat n ->
  (forall x, x < bound -> uw_ok (f x)) ->
  uw_ok (row <- aget t i ;; x <- aget row j ;; f x).
Proof.
  unfold uw_rows_ok. rewrite forallb_forall. intros Ht Hi Hj H.
  apply uw_ok_aget; [exact Hi|]. intros row Hrow.
  apply Ht, andb_true_iff in Hrow as [Hlen Hrow]. apply Nat.eqb_eq in Hlen. rewrite forallb_forall in Hrow.
  apply uw_ok_aget; [now rewrite Hlen|]. intros x Hx. apply H, N.ltb_lt, Hrow, Hx.
Qed.

Lemma uw_land_lt a m k : m = N.ones k -> N.land a m < 2 ^ k.
Proof.
  intros ->. rewrite N.land_ones. apply N.mod_lt. apply N.pow_nonzero. lia.
Qed.

Definition uw_cp (c : N) : Prop := c < 2097152.      (* 2^21: every index of WIDTH_ROOT; a char is below 0x110000 *)

Lemma uw_is_char_cp c : uw_is_char c = true -> uw_cp c.
Proof.
  unfold uw_is_char, uw_cp. rewrite orb_true_iff, andb_true_iff, !N.ltb_lt. lia.
Qed.

Lemma uw_shiftr_lt a n k : a < 2 ^ (n + k) -> N.shiftr a n < 2 ^ k.
Proof.
  intros H. rewrite N.shiftr_div_pow2. apply N.div_lt_upper_bound.
  - apply N.pow_nonzero. lia.
  - now rewrite <- N.pow_add_r.
Qed.

(* proving `uw_ok <translated body>` structurally: binds, conditionals (the HEAD one: the chains are walked
   linearly), local continuations; [known] closes the calls of functions already proved total.  Unfold the
   function with `cbv beta delta [..]`: `unfold` would inline the continuations at every call. *)
Ltac uw_tot_with known :=
  let rec go :=
    cbv beta;
    lazymatch goal with
    | |- uw_ok (Some _) => apply uw_ok_some
    | |- uw_ok (let k := ?f in @?body k) =>
        lazymatch type of f with
        | _ -> _ -> option _ =>
            refine (uw_ok_let (fun k => forall a b, uw_ok (k a b)) f body _ _); [intros; go | intros ? ?; go]
        | _ -> option _ =>
            refine (uw_ok_let (fun k => forall a, uw_ok (k a)) f body _ _); [intros; go | intros ? ?; go]
        | _ => change (uw_ok (body f)); go
        end
    | |- uw_ok (if _ then _ else _) => apply uw_ok_if; go
    | |- uw_ok (match ?e with Some _ => _ | None => None end) =>
        apply uw_ok_bind; [first [known | go] | intros; go]
    | |- uw_ok (let '(_, _) := ?r in _) => destruct r; go
    | |- uw_ok _ => first [known | match goal with H : forall a b, uw_ok (_ a b) |- _ => apply H | H : forall a, uw_ok (_ a) |- _ => apply H end]
    end
  in go.

(* c >> 13 < 256 = len ROOT; a ROOT entry indexes MIDDLE, whose rows have 64 entries indexing LEAVES, whose rows have 32 *)
Lemma g_uw_lookup_width_total c : uw_cp c -> uw_ok (g_uw_lookup_width c).
Proof.
  intros Hc. unfold g_uw_lookup_width, uw_align_f0.
  destruct uw_root_shape as [Hlen Hroot]. rewrite forallb_forall in Hroot.
  apply uw_ok_aget; [rewrite Hlen; exact (uw_shiftr_lt c 13 8 Hc)|]. intros r Hr. apply Hroot, N.ltb_lt in Hr.
  apply (uw_ok_aget2 _ _ _ _ _ _ uw_middle_shape Hr); [now apply (uw_land_lt _ _ 6)|]. intros m Hm.
  apply (uw_ok_aget2 _ _ _ _ _ _ uw_leaves_shape Hm); [now apply (uw_land_lt _ _ 5)|]. intros p _.
  uw_tot_with fail.
Qed.

Lemma g_uw_single_char_width_total c : uw_cp c -> uw_ok (g_uw_single_char_width c).
Proof.
  intros Hc. unfold g_uw_single_char_width.
  uw_tot_with ltac:(apply g_uw_lookup_width_total; assumption).
Qed.

Lemma g_uw_is_transparent_zero_width_total c : uw_cp c -> uw_ok (g_uw_is_transparent_zero_width c).
Proof.
  intros Hc. unfold g_uw_is_transparent_zero_width.
  uw_tot_with ltac:(apply g_uw_lookup_width_total; assumption).
Qed.

(* the leaf index is one of seven literals, the rows have 128 entries *)
Lemma g_uw_starts_emoji_presentation_seq_total c : uw_ok (g_uw_starts_emoji_presentation_seq c).
Proof.
  unfold g_uw_starts_emoji_presentation_seq, uw_align_f0. cbv beta iota.
  destruct uw_emoji_leaves_shape as [Hlen Hrows].
  repeat (apply uw_ok_if;
          [apply (uw_ok_aget2 _ _ _ _ _ _ Hrows);
           [rewrite Hlen; reflexivity | now apply (uw_land_lt _ _ 7) | intros; apply uw_ok_some]|]).
  apply uw_ok_some.
Qed.

Lemma g_uw_width_in_str_total c info : uw_cp c -> uw_ok (g_uw_width_in_str c info).
Proof.
  intros Hc. cbv beta delta [g_uw_width_in_str].
  uw_tot_with ltac:(first [ apply g_uw_lookup_width_total; assumption
                          | apply g_uw_is_transparent_zero_width_total; assumption
                          | apply g_uw_starts_emoji_presentation_seq_total ]).
Qed.

Lemma uw_fold_m_total {A} (f : A -> N -> option A) (l : list N) :
  (forall a c, In c l -> uw_ok (f a c)) -> forall a, uw_ok (uw_fold_m f a l).
Proof.
  induction l as [|c l IH]; intros H a; cbn [uw_fold_m].
  - apply uw_ok_some.
  - destruct (H a c (or_introl eq_refl)) as [a' ->]. apply IH. intros; apply H; now right.
Qed.

Theorem g_uw_str_width_total s : Forall uw_cp s -> uw_ok (g_uw_str_width s).
Proof.
  intros Hs. unfold g_uw_str_width, uw_rfold_m, uw_str_chars.
  apply uw_ok_bind; [|intros; apply uw_ok_some].
  apply uw_fold_m_total. intros [sum info] c Hin.
  apply in_rev in Hin. rewrite Forall_forall in Hs. specialize (Hs _ Hin).
  apply uw_ok_bind; [now apply g_uw_width_in_str_total|].
  intros [add info']. apply uw_ok_some.
Qed.

Theorem g_uw_str_trait_width_total s : Forall uw_cp s -> uw_ok (g_uw_str_trait_width s).
Proof.
  intros Hs. unfold g_uw_str_trait_width. apply uw_ok_bind; [now apply g_uw_str_width_total|intros; apply uw_ok_some].
Qed.

Lemma g_uw_str_trait_width_eq s : g_uw_str_trait_width s = g_uw_str_width s.
Proof. unfold g_uw_str_trait_width. now destruct (g_uw_str_width s). Qed.

Fixpoint uw_sorted_ranges (prev : option N) (l : list (N * N)) : bool :=
  match l with
  | [] => true
  | (lo, hi) :: r =>
      (lo <=? hi) && (match prev with None => true | Some p => p <? lo end) && uw_sorted_ranges (Some hi) r
  end.

Definition uw_leaves8 : list (list (N * N)) :=
  [g_uw_TEXT_PRESENTATION_LEAF_0; g_uw_TEXT_PRESENTATION_LEAF_1; g_uw_TEXT_PRESENTATION_LEAF_2; g_uw_TEXT_PRESENTATION_LEAF_3;
   g_uw_TEXT_PRESENTATION_LEAF_4; g_uw_TEXT_PRESENTATION_LEAF_5; g_uw_TEXT_PRESENTATION_LEAF_6; g_uw_TEXT_PRESENTATION_LEAF_7;
   g_uw_TEXT_PRESENTATION_LEAF_8; g_uw_TEXT_PRESENTATION_LEAF_9;
   g_uw_EMOJI_MODIFIER_LEAF_0; g_uw_EMOJI_MODIFIER_LEAF_1; g_uw_EMOJI_MODIFIER_LEAF_2; g_uw_EMOJI_MODIFIER_LEAF_3;
   g_uw_EMOJI_MODIFIER_LEAF_4; g_uw_EMOJI_MODIFIER_LEAF_5; g_uw_EMOJI_MODIFIER_LEAF_6; g_uw_EMOJI_MODIFIER_LEAF_7].

Definition uw_ranges24 : list (N * N) :=
  map (fun '(lo, hi) => (uw_u32_from_le_bytes (lo ++ [0]), uw_u32_from_le_bytes (hi ++ [0]))) g_uw_NON_TRANSPARENT_ZERO_WIDTHS.

Theorem uw_tables_sorted :
  forallb (uw_sorted_ranges None) uw_leaves8 = true /\ uw_sorted_ranges None uw_ranges24 = true.
Proof. split; vm_compute; reflexivity. Qed.

Definition uw_cmp_range (b : N) : N * N -> comparison :=
  fun '(lo, hi) => if b <? lo then Gt else if hi <? b then Lt else Eq.

Definition uw_in_ranges (b : N) (l : list (N * N)) : bool :=
  existsb (fun '(lo, hi) => (lo <=? b) && (b <=? hi)) l.

(* `binary_search_by` against any comparator.  What it asks of the slice: left of an element that compares Less
   everything compares Less, right of one that compares Greater everything compares Greater.  Then it finds an
   element that compares Equal iff there is one. *)
Section Bisection.
Context {A : Type} (f : A -> comparison).

Definition uw_hit (x : A) : bool := match f x with Eq => true | _ => false end.

Definition uw_bisectable (l : list A) : Prop :=
  forall l1 x l2, l = l1 ++ x :: l2 ->
    (f x = Lt -> Forall (fun y => f y = Lt) l1) /\ (f x = Gt -> Forall (fun y => f y = Gt) l2).

Lemma uw_bisectable_app l1 l2 : uw_bisectable (l1 ++ l2) -> uw_bisectable l1 /\ uw_bisectable l2.
Proof.
  intros H. split; intros a x b ->.
  - destruct (H a x (b ++ l2)) as [HL HG]; [now rewrite <- app_assoc|].
    split; [exact HL|]. intros G. apply HG in G. now apply Forall_app in G.
  - destruct (H (l1 ++ a) x b) as [HL HG]; [now rewrite <- app_assoc|].
    split; [|exact HG]. intros L. apply HL in L. now apply Forall_app in L.
Qed.

Lemma uw_no_hit (c : comparison) l : c <> Eq -> Forall (fun y => f y = c) l -> existsb uw_hit l = false.
Proof.
  intros Hc. induction 1 as [|y l Hy _ IH]; [reflexivity|]. cbn [existsb]. rewrite IH. unfold uw_hit. rewrite Hy.
  destruct c; [contradiction|reflexivity|reflexivity].
Qed.

(* the search between [pre] and [post]: the element looked at splits [mid] into m1 ++ x :: m2, and the search
   goes on in m2 (with pre ++ m1 ++ [x] before it) or in m1 (with x :: m2 ++ post behind it) *)
Lemma uw_bsearch_go_spec fuel : forall pre mid post,
  (length mid < fuel)%nat -> uw_bisectable mid ->
  uw_res_is_ok (uw_bsearch_go f (pre ++ mid ++ post) fuel (len pre) (len pre + len mid)) = existsb uw_hit mid.
Proof.
  induction fuel as [|fuel IH]; intros pre mid post Hf Hm; [lia|]. cbn [uw_bsearch_go].
  destruct (N.ltb_spec (len pre) (len pre + len mid)) as [Hlt|Hge].
  2:{ destruct mid; [reflexivity|]. unfold len in Hge. cbn [length] in Hge. lia. }
  replace (len pre + len mid - len pre) with (len mid) by lia. cbv zeta.
  assert (Hhalf : len mid / 2 < len mid) by (apply N.div_lt; lia).
  destruct (nth_error mid (N.to_nat (len mid / 2))) as [x|] eqn:Ex.
  2:{ apply nth_error_None in Ex. unfold len in *. lia. }
  apply nth_error_split in Ex as (m1 & m2 & Em & Lm1).
  assert (Emid : len pre + len mid / 2 = len (pre ++ m1))
    by (unfold len at 3; rewrite app_length, Nat2N.inj_add, Lm1, N2Nat.id; reflexivity).
  rewrite Emid. clear Emid Hhalf Lm1 Hlt. subst mid.
  replace (nth_error (pre ++ (m1 ++ x :: m2) ++ post) (N.to_nat (len (pre ++ m1)))) with (Some x)
    by (rewrite <- !app_assoc, app_assoc; unfold len; rewrite Nat2N.id, nth_error_app2, Nat.sub_diag by lia; reflexivity).
  destruct (Hm m1 x m2 eq_refl) as [HL HG].
  apply uw_bisectable_app in Hm as [Hm1 Hm2]. apply (uw_bisectable_app [x]) in Hm2 as [_ Hm2].
  rewrite app_length in Hf. cbn [length] in Hf.
  rewrite existsb_app. cbn [existsb]. unfold uw_hit at 2. destruct (f x).
  - now rewrite orb_true_r.
  - rewrite (uw_no_hit Lt m1) by (auto; discriminate). cbn [orb]. rewrite <- (IH (pre ++ m1 ++ [x]) m2 post) by (auto; lia).
    rewrite <- !app_assoc. cbn [app]. do 2 f_equal; unfold len; rewrite !app_length, !Nat2N.inj_add; cbn [length]; lia.
  - rewrite (uw_no_hit Gt m2) by (auto; discriminate). rewrite orb_false_r, <- (IH pre m1 (x :: m2 ++ post)) by (auto; lia).
    rewrite <- !app_assoc. do 2 f_equal. unfold len. rewrite app_length, Nat2N.inj_add. reflexivity.
Qed.

Theorem uw_binary_search_by_spec l :
  uw_bisectable l -> uw_res_is_ok (uw_binary_search_by f l) = existsb uw_hit l.
Proof.
  intros H. unfold uw_binary_search_by.
  pose proof (uw_bsearch_go_spec (S (length l)) [] l [] (Nat.lt_succ_diag_r _) H) as E.
  rewrite app_nil_r in E. exact E.
Qed.
End Bisection.

(* sorted disjoint ranges are such a slice for the comparator "where is b": what the sortedness is for *)
Lemma uw_sorted_above p l : uw_sorted_ranges (Some p) l = true -> Forall (fun r => p < fst r /\ fst r <= snd r) l.
Proof.
  revert p. induction l as [|[lo hi] l IH]; intros p H; constructor; cbn [uw_sorted_ranges] in H;
    apply andb_true_iff in H as [H H3]; apply andb_true_iff in H as [H1 H2]; apply N.leb_le in H1; apply N.ltb_lt in H2.
  - cbn. lia.
  - eapply Forall_impl; [|exact (IH hi H3)]. cbn. lia.
Qed.

Lemma uw_sorted_bisectable b l : forall prev, uw_sorted_ranges prev l = true -> uw_bisectable (uw_cmp_range b) l.
Proof.
  induction l as [|[lo hi] l IH]; intros prev H l1 x l2 E; [now destruct l1|].
  cbn [uw_sorted_ranges] in H. apply andb_true_iff in H as [H H3]. apply andb_true_iff in H as [H1 _]. apply N.leb_le in H1.
  pose proof (uw_sorted_above hi l H3) as Hab.
  destruct l1 as [|y l1]; injection E as <- ->.
  - (* b below the first range is below all *)
    split; [constructor|]. cbn [uw_cmp_range]. destruct (b <? lo) eqn:B; [|destruct (hi <? b); discriminate]. intros _.
    apply N.ltb_lt in B. eapply Forall_impl; [|exact Hab]. intros [lo' hi'] [P _]. cbn in P. cbn [uw_cmp_range].
    replace (b <? lo') with true by (symmetry; apply N.ltb_lt; lia). reflexivity.
  - (* b above a later range is above the first *)
    destruct (IH _ H3 l1 x l2 eq_refl) as [HL HG]. split; [|exact HG]. intros L. constructor; [|exact (HL L)].
    apply Forall_app in Hab as [_ Hx]. apply Forall_inv in Hx. destruct x as [lo' hi']. cbn in Hx. cbn [uw_cmp_range] in *.
    destruct (b <? lo') eqn:B1; [discriminate|]. destruct (hi' <? b) eqn:B2; [|discriminate].
    apply N.ltb_ge in B1. apply N.ltb_lt in B2.
    replace (b <? lo) with false by (symmetry; apply N.ltb_ge; lia).
    replace (hi <? b) with true by (symmetry; apply N.ltb_lt; lia). reflexivity.
Qed.

Lemma uw_hit_range b l : existsb (uw_hit (uw_cmp_range b)) l = uw_in_ranges b l.
Proof.
  unfold uw_in_ranges. induction l as [|[lo hi] l IH]; [reflexivity|]. cbn [existsb]. rewrite IH. f_equal.
  unfold uw_hit, uw_cmp_range. rewrite !N.leb_antisym.
  destruct (b <? lo); [reflexivity|]. destruct (hi <? b); reflexivity.
Qed.

Theorem uw_bsearch_is_scan b t :
  uw_sorted_ranges None t = true -> uw_res_is_ok (uw_binary_search_by (uw_cmp_range b) t) = uw_in_ranges b t.
Proof.
  intros H. rewrite uw_binary_search_by_spec by exact (uw_sorted_bisectable b t None H). apply uw_hit_range.
Qed.

Theorem uw_bsearch8_is_scan :
  forall t b, In t uw_leaves8 -> b < 256 ->
    uw_res_is_ok (uw_binary_search_by (uw_cmp_range b) t) = uw_in_ranges b t.
Proof.
  intros t b Ht _. apply uw_bsearch_is_scan.
  destruct uw_tables_sorted as [H _]. rewrite forallb_forall in H. exact (H t Ht).
Qed.

(* what one step answers when nothing follows that matters (next_info = DEFAULT) *)
Definition uw_plain (c : N) : Prop := g_uw_width_in_str c g_uw_WI_DEFAULT = Some (1%Z, g_uw_WI_DEFAULT).

Lemma uw_plain_low c : c <= 160 -> c <> 10 -> uw_plain c.
Proof.
  intros H1 H2. unfold uw_plain, g_uw_width_in_str.
  change (g_uw_wi_is_emoji_presentation g_uw_WI_DEFAULT) with false.
  cbv beta zeta iota.
  apply N.leb_le in H1. apply N.eqb_neq in H2. rewrite H1, H2.
  change (N.eqb g_uw_WI_DEFAULT g_uw_WI_LINE_FEED) with false. rewrite andb_false_r. reflexivity.
Qed.

Lemma uw_plain_fill : uw_plain 9608.      (* U+2588 FULL BLOCK, the background fill of anstyle-svg *)
Proof. vm_compute. reflexivity. Qed.

Lemma uw_add_one sum : sum + 1 < 18446744073709551616 -> uw_wrapping_add_signed sum 1 = sum + 1.
Proof.
  intros H. unfold uw_wrapping_add_signed.
  replace (Z.of_N sum + 1)%Z with (Z.of_N (sum + 1)) by (rewrite N2Z.inj_add; reflexivity).
  rewrite Z.mod_small; [apply N2Z.id|].
  split; [apply N2Z.is_nonneg|].
  change 18446744073709551616%Z with (Z.of_N 18446744073709551616). apply N2Z.inj_lt. exact H.
Qed.

Lemma uw_fold_plain l : Forall uw_plain l -> forall sum,
  sum + N.of_nat (length l) < 18446744073709551616 ->
  uw_fold_m (fun '(sum, next_info) c =>
      r <- g_uw_width_in_str c next_info ;;
      let '(add, info) := r in Some (uw_wrapping_add_signed sum add, info)) (sum, g_uw_WI_DEFAULT) l
  = Some (sum + N.of_nat (length l), g_uw_WI_DEFAULT).
Proof.
  induction 1 as [|c l Hc Hl IH]; intros sum Hlt; cbn [uw_fold_m length].
  - now rewrite N.add_0_r.
  - cbn [length] in Hlt. rewrite Nat2N.inj_succ in *. unfold uw_plain in Hc. rewrite Hc. rewrite uw_add_one by lia.
    rewrite IH by lia. f_equal. f_equal. lia.
Qed.

(* the hypothesis on the length: it fits a usize, so the running sum does not wrap *)
Theorem g_uw_str_width_plain s :
  Forall uw_plain s -> N.of_nat (length s) < 18446744073709551616 ->
  g_uw_str_width s = Some (N.of_nat (length s)).
Proof.
  intros Hs Hlen. unfold g_uw_str_width, uw_rfold_m, uw_str_chars.
  rewrite uw_fold_plain.
  - cbn [fst]. now rewrite rev_length.
  - apply Forall_rev. exact Hs.
  - rewrite rev_length. exact Hlen.
Qed.

Definition uw_printable_ascii (c : N) : Prop := 32 <= c /\ c < 127.

Theorem g_uw_str_width_ascii s :
  Forall uw_printable_ascii s -> N.of_nat (length s) < 18446744073709551616 ->
  g_uw_str_width s = Some (N.of_nat (length s)).
Proof.
  intros Hs. apply g_uw_str_width_plain. eapply Forall_impl; [|exact Hs].
  intros c [H1 H2]. apply uw_plain_low; lia.
Qed.

Theorem g_uw_str_width_fill n :
  N.of_nat n < 18446744073709551616 -> g_uw_str_width (repeat 9608 n) = Some (N.of_nat n).
Proof.
  intros Hn. rewrite g_uw_str_width_plain; rewrite ?repeat_length; [reflexivity| |exact Hn].
  clear Hn. induction n; cbn [repeat]; constructor; [exact uw_plain_fill|assumption].
Qed.

Theorem g_uw_str_width_empty : g_uw_str_width [] = Some 0.
Proof. reflexivity. Qed.

Theorem g_uw_str_width_crlf :
  g_uw_str_width [13; 10] = Some 1 /\ g_uw_str_width [10] = Some 1 /\ g_uw_str_width [13] = Some 1.
Proof. repeat split; vm_compute; reflexivity. Qed.

Theorem g_uw_char_width_printable_ascii c :
  uw_printable_ascii c -> g_uw_single_char_width c = Some (Some 1).
Proof.
  intros [H1 H2]. unfold g_uw_single_char_width.
  apply N.ltb_lt in H2. apply N.leb_le in H1. now rewrite H2, H1.
Qed.

(* worked examples: the rules the crate documents (lib.rs, "Rules for determining width"), one per arm of the
   look-ahead machine; the expected values are the documentation's (and the real crate's, correspondence kind uwidth).
   A changed table entry or a changed arm of width_in_str / lookup_width that one of them exercises fails here. *)
Theorem g_uw_documented_examples :
  (* CR LF is one column *)
  g_uw_str_width [13; 10] = Some 1 /\
  (* ASCII *)
  g_uw_str_width [97; 98; 99] = Some 3 /\
  (* East_Asian_Width=Wide *)
  g_uw_str_width [20013] = Some 2 /\
  (* Emoji_Presentation *)
  g_uw_str_width [128512] = Some 2 /\
  (* emoji ZWJ sequence: 2 *)
  g_uw_str_width [128104; 8205; 128105; 8205; 128103; 8205; 128102] = Some 2 /\
  (* emoji modifier sequence: 2 *)
  g_uw_str_width [128077; 127995] = Some 2 /\
  (* emoji presentation sequence (VS16): 2 *)
  g_uw_str_width [10084; 65039] = Some 2 /\
  (* VS15 on a text-default character *)
  g_uw_str_width [10084; 65038] = Some 1 /\
  (* U+231A alone *)
  g_uw_str_width [8986] = Some 2 /\
  (* text presentation sequence (VS15): 1 *)
  g_uw_str_width [8986; 65038] = Some 1 /\
  (* U+1F004 VS15 *)
  g_uw_str_width [126980; 65038] = Some 1 /\
  (* VS15 in Enclosed Ideographic Supplement: still 2 *)
  g_uw_str_width [127514; 65038] = Some 2 /\
  (* Arabic lam-alef ligature: 1 *)
  g_uw_str_width [1604; 1575] = Some 1 /\
  (* lam, transparent mark, alef: 1 *)
  g_uw_str_width [1604; 1611; 1575] = Some 1 /\
  (* lam alone *)
  g_uw_str_width [1604] = Some 1 /\
  (* Buginese <a, -i> ya: 1 *)
  g_uw_str_width [6677; 6679; 8205; 6672] = Some 1 /\
  (* Hebrew alef ZWJ lamed: 1 *)
  g_uw_str_width [1488; 8205; 1500] = Some 1 /\
  (* Khmer coeng sign: 0 *)
  g_uw_str_width [6098; 6016] = Some 0 /\
  (* letter + coeng sign *)
  g_uw_str_width [6016; 6098; 6016] = Some 1 /\
  (* Lisu tone letters: 1 *)
  g_uw_str_width [42232; 42236] = Some 1 /\
  (* Old Turkic ligature: 1 *)
  g_uw_str_width [68658; 8205; 68611] = Some 1 /\
  (* Tifinagh bi-consonant (joiner): 1 *)
  g_uw_str_width [11569; 11647; 11569] = Some 1 /\
  (* Tifinagh bi-consonant (ZWJ): 1 *)
  g_uw_str_width [11569; 8205; 11569] = Some 1 /\
  (* U+2D7F alone: 1 *)
  g_uw_str_width [11647] = Some 1 /\
  (* U+115F: 2 *)
  g_uw_str_width [4447] = Some 2 /\
  (* U+17A4: 2 *)
  g_uw_str_width [6052] = Some 2 /\
  (* U+17D8: 3 *)
  g_uw_str_width [6104] = Some 3 /\
  (* U+0CC0: 0 *)
  g_uw_str_width [3264] = Some 0 /\
  (* Hangul vowel jamo: 0 *)
  g_uw_str_width [4448] = Some 0 /\
  (* prepended concatenation mark U+0605: 0 *)
  g_uw_str_width [1541] = Some 0 /\
  (* U+A8FA: 0 *)
  g_uw_str_width [43258] = Some 0 /\
  (* a base letter and a Grapheme_Extend mark (width 0): 1 *)
  g_uw_str_width [233] = Some 1 /\
  (* Default_Ignorable U+00AD: 0 *)
  g_uw_str_width [173] = Some 0 /\
  (* U+200B: 0 *)
  g_uw_str_width [8203] = Some 0 /\
  (* regional indicator pair *)
  g_uw_str_width [127482; 127480] = Some 2 /\
  (* three regional indicators *)
  g_uw_str_width [127482; 127480; 127462] = Some 3 /\
  (* keycap sequence *)
  g_uw_str_width [35; 65039; 8419] = Some 2 /\
  (* tag sequence (flag of England) *)
  g_uw_str_width [127988; 917607; 917602; 917605; 917614; 917607; 917631] = Some 2 /\
  (* emoji ZWJ flags *)
  g_uw_str_width [128512; 8205; 127482; 127480; 127482; 127480] = Some 4 /\
  (* control characters count 1 each inside a string *)
  g_uw_str_width [0; 7; 127; 159] = Some 4 /\
  (* U+10FFFF *)
  g_uw_str_width [1114111] = Some 1 /\
  (* Ambiguous: narrow *)
  g_uw_str_width [161; 9608] = Some 2.
Proof. repeat split; vm_compute; reflexivity. Qed.
