(* C10 (lossy colour conversion): [distance] never overflows and is the red-mean metric; find_best is the lowest
   argmin (by the invariant of its scan); the shipped tables (arms 0-15, xterm 16-255 = cube + greys, injective);
   the conversions are total, hit exact entries, and agree with the executable specification of Spec/Lossy.v;
   last, the recorded green-weight deviation. *)
From Coq Require Import ZArith NArith List Bool Lia.
From AV Require Import Generated.Palette Spec.Lossy Model.Base Model.Lossy Proofs.BaseFacts.
Import ListNotations.
Local Open Scope N_scope.

Lemma sq_bound (z : Z) : (-255 <= z <= 255 -> 0 <= z * z <= 65025)%Z.
Proof. nia. Qed.

Lemma i32_in (z : Z) : (-2147483648 <= z < 2147483648)%Z -> i32 z = Some z.
Proof.
  intros [H1 H2]. unfold i32.
  apply Z.leb_le in H1. apply Z.ltb_lt in H2. now rewrite H1, H2.
Qed.

Lemma wsq_bound (w d W : Z) :
  (0 <= w <= W -> -255 <= d <= 255 ->
   -(W * 255) <= w * d <= W * 255 /\ 0 <= w * d * d <= W * 65025)%Z.
Proof. intros Hw Hd. pose proof (sq_bound d Hd). rewrite <- Z.mul_assoc. nia. Qed.

Lemma channels_range (r1 g1 b1 r2 g2 b2 : N) :
  rgb_ok (r1, g1, b1) -> rgb_ok (r2, g2, b2) ->
  (0 <= Z.of_N r1 + Z.of_N r2 <= 510 /\ -255 <= Z.of_N r1 - Z.of_N r2 <= 255 /\
   -255 <= Z.of_N g1 - Z.of_N g2 <= 255 /\ -255 <= Z.of_N b1 - Z.of_N b2 <= 255)%Z.
Proof. cbn [rgb_ok]. lia. Qed.

(* [Some]: no i32 intermediate of [distance] overflows *)
Lemma distance_range (a b : rgb) :
  rgb_ok a -> rgb_ok b ->
  distance a b = Some (Z.to_N (redmean_distance a b)) /\
  (0 <= redmean_distance a b < 2147483648)%Z.
Proof.
  destruct a as [[r1 g1] b1], b as [[r2 g2] b2]. intros Ha Hb.
  pose proof (channels_range _ _ _ _ _ _ Ha Hb) as H. revert H.
  unfold distance, redmean_distance. cbv zeta.
  generalize (Z.of_N r1 + Z.of_N r2)%Z (Z.of_N r1 - Z.of_N r2)%Z
    (Z.of_N g1 - Z.of_N g2)%Z (Z.of_N b1 - Z.of_N b2)%Z.
  intros s dr dg db (Hs & Hr & Hg & Hb').
  pose proof (wsq_bound (1024 + s) dr 1534 ltac:(lia) Hr).
  pose proof (wsq_bound 4 dg 4 ltac:(lia) Hg).
  pose proof (wsq_bound (1534 - s) db 1534 ltac:(lia) Hb').
  split; [|lia].
  (* each of the fifteen checked values is linear in the six products just bounded *)
  rewrite !i32_in by lia.
  unfold i32_as_u32. rewrite (proj2 (Z.leb_le 0 _)) by lia. do 2 f_equal. ring.
Qed.

Lemma distance_model (a b : rgb) :
  rgb_ok a -> rgb_ok b -> distance a b = Some (Z.to_N (redmean_distance a b)).
Proof. intros Ha Hb. apply (distance_range a b Ha Hb). Qed.

Lemma redmean_range (a b : rgb) :
  rgb_ok a -> rgb_ok b -> (0 <= redmean_distance a b < 2147483648)%Z.
Proof. intros Ha Hb. apply (distance_range a b Ha Hb). Qed.

Lemma weighted_squares_zero (w1 w2 w3 x y z : Z) :
  (0 < w1 -> 0 < w2 -> 0 < w3 -> w1 * (x * x) + w2 * (y * y) + w3 * (z * z) = 0 ->
   x = 0 /\ y = 0 /\ z = 0)%Z.
Proof. nia. Qed.

(* the weights 1024 + s, 1024, 1534 - s are positive because the channels are below 256 *)
Lemma redmean_zero (a b : rgb) :
  rgb_ok a -> rgb_ok b -> (redmean_distance a b = 0%Z <-> a = b).
Proof.
  destruct a as [[r1 g1] b1], b as [[r2 g2] b2]. cbn [rgb_ok]. intros Ha Hb.
  unfold redmean_distance. split.
  - intros H. apply weighted_squares_zero in H; [|lia ..]. f_equal; [f_equal|]; lia.
  - intros [= -> -> ->]. rewrite !Z.sub_diag. lia.
Qed.

Lemma distance_zero (a b : rgb) :
  rgb_ok a -> rgb_ok b -> (distance a b = Some 0 <-> a = b).
Proof.
  intros Ha Hb. rewrite (distance_model a b Ha Hb).
  pose proof (redmean_range a b Ha Hb) as Hr.
  rewrite <- (redmean_zero a b Ha Hb). split.
  - intros [= H]. lia.
  - intros ->. reflexivity.
Qed.

Lemma argmin_ext {A} (d d' : A -> Z) (l : list A) (i : N) :
  (forall x, In x l -> d x = d' x) -> is_argmin_lowest d l i -> is_argmin_lowest d' l i.
Proof.
  intros E (x & Hx & Hmin & Hlow). exists x. split; [exact Hx|].
  pose proof (nth_error_In _ _ Hx) as Ix.
  split.
  - intros j y Hy. rewrite <- (E x Ix), <- (E y (nth_error_In _ _ Hy)). eauto.
  - intros j y Hj Hy. rewrite <- (E x Ix), <- (E y (nth_error_In _ _ Hy)). eauto.
Qed.

Lemma argmin_unique {A} (d : A -> Z) (l : list A) (i j : N) :
  is_argmin_lowest d l i -> is_argmin_lowest d l j -> i = j.
Proof.
  (* were [j] below [i], its entry would be strictly farther than the one at [i], which is no nearer than it *)
  assert (forall i j, is_argmin_lowest d l i -> is_argmin_lowest d l j -> i <= j) as Hle.
  { intros i' j' (x & Hx & _ & Hlow) (y & Hy & Hmin & _). apply N.le_ngt. intros H.
    pose proof (Hlow (N.to_nat j') y ltac:(lia) Hy). pose proof (Hmin _ _ Hx). lia. }
  intros Hi Hj. apply N.le_antisymm; auto.
Qed.

Lemma argmin_index_lt {A} (d : A -> Z) (l : list A) (i : N) :
  is_argmin_lowest d l i -> i < N.of_nat (length l).
Proof.
  intros (x & Hx & _). assert (nth_error l (N.to_nat i) <> None) as H by congruence.
  apply nth_error_Some in H. lia.
Qed.

Lemma argmin_singleton {A} (d : A -> Z) (x : A) : is_argmin_lowest d [x] 0.
Proof.
  exists x. split; [reflexivity|]. split.
  - intros [|[|j]] y [= <-]. lia.
  - intros j y Hj. inversion Hj.
Qed.

Lemma nth_error_snoc {A} (p : list A) (y z : A) (j : nat) :
  nth_error (p ++ [y]) j = Some z -> nth_error p j = Some z \/ j = length p /\ z = y.
Proof.
  destruct (Nat.lt_ge_cases j (length p)) as [H | H].
  - rewrite nth_error_app1 by exact H. auto.
  - rewrite nth_error_app2 by exact H. destruct (j - length p)%nat as [|[|k]] eqn:E; intros [= <-].
    right. split; [lia | reflexivity].
Qed.

Lemma argmin_snoc {A} (d : A -> Z) (p : list A) (i : N) (x y : A) :
  is_argmin_lowest d p i -> nth_error p (N.to_nat i) = Some x ->
  ((d y < d x)%Z -> is_argmin_lowest d (p ++ [y]) (N.of_nat (length p))) /\
  ((d x <= d y)%Z -> is_argmin_lowest d (p ++ [y]) i).
Proof.
  intros (x' & Hx' & Hmin & Hlow) Hx. rewrite Hx in Hx'. injection Hx' as <-.
  assert (N.to_nat i < length p)%nat as Hi by (apply nth_error_Some; congruence).
  split; intros Hy.
  - exists y. rewrite Nat2N.id, nth_error_app2, Nat.sub_diag by lia. split; [reflexivity|]. split.
    + intros j z Hz. destruct (nth_error_snoc _ _ _ _ Hz) as [Hz' | [_ ->]]; [|lia].
      specialize (Hmin _ _ Hz'). lia.
    + intros j z Hj Hz. destruct (nth_error_snoc _ _ _ _ Hz) as [Hz' | [-> _]]; [|lia].
      specialize (Hmin _ _ Hz'). lia.
  - exists x. rewrite nth_error_app1 by exact Hi. split; [exact Hx|]. split.
    + intros j z Hz. destruct (nth_error_snoc _ _ _ _ Hz) as [Hz' | [_ ->]]; [eauto | exact Hy].
    + intros j z Hj Hz. destruct (nth_error_snoc _ _ _ _ Hz) as [Hz' | [-> _]]; [eauto | lia].
Qed.

(* the loop, by its invariant: [p] holds the entries already seen, counted from [start], the
   state is (index, best_index, best_distance) = (start + |p|, start + i, dN p[i]) with [i] the
   first position of the minimum of [p]; [dN] is the (total) distance to the colour sought.
   Scanning the remaining entries [l] ends in the state that belongs to [p ++ l]. *)
Lemma scan_spec (c : rgb) (dN : rgb -> N) (start : N) :
  forall l p i x,
    (forall e, In e l -> distance c e = Some (dN e)) ->
    is_argmin_lowest (fun e => Z.of_N (dN e)) p i -> nth_error p (N.to_nat i) = Some x ->
    exists i' bd, scan c l (start + N.of_nat (length p)) (start + i) (dN x) = Some (start + i', bd) /\
                  is_argmin_lowest (fun e => Z.of_N (dN e)) (p ++ l) i'.
Proof.
  induction l as [|e t IH]; intros p i x Hd Hi Hx.
  - exists i, (dN x). rewrite app_nil_r. auto.
  - cbn [scan]. rewrite (Hd e (or_introl eq_refl)).
    assert (forall e0, In e0 t -> distance c e0 = Some (dN e0)) as Hd' by (intros; apply Hd; now right).
    destruct (argmin_snoc _ p i x e Hi Hx) as [Hlt Hge].
    replace (p ++ e :: t) with ((p ++ [e]) ++ t) by (rewrite <- app_assoc; reflexivity).
    replace (start + N.of_nat (length p) + 1) with (start + N.of_nat (length (p ++ [e])))
      by (rewrite app_length; cbn [length]; lia).
    destruct (N.ltb_spec (dN e) (dN x)) as [H | H].
    + apply (IH (p ++ [e]) _ e Hd' (Hlt ltac:(lia))).
      rewrite Nat2N.id, nth_error_app2, Nat.sub_diag by lia. reflexivity.
    + apply (IH (p ++ [e]) _ x Hd' (Hge ltac:(lia))).
      rewrite nth_error_app1 by (apply nth_error_Some; congruence). exact Hx.
Qed.

Lemma skipn_cons_nth {A} (l : list A) (n : nat) (e : A) :
  nth_error l n = Some e -> skipn n l = e :: skipn (S n) l.
Proof.
  revert l. induction n as [|n IH]; intros [|h t] H; try discriminate.
  - injection H as ->. reflexivity.
  - cbn [nth_error] in H. cbn [skipn]. rewrite (IH t H). reflexivity.
Qed.

Lemma find_best_argmin (c : rgb) (table : list rgb) (start : N) :
  rgb_ok c ->
  Forall rgb_ok (skipn (N.to_nat start) table) ->
  start < N.of_nat (length table) ->
  exists i, find_best c table start = Some (start + i) /\
            is_argmin_lowest (redmean_distance c) (skipn (N.to_nat start) table) i.
Proof.
  intros Hc Hall Hstart. rewrite Forall_forall in Hall.
  destruct (nth_error table (N.to_nat start)) as [e0|] eqn:He0;
    [| apply nth_error_None in He0; lia].
  rewrite (skipn_cons_nth _ _ _ He0) in Hall |- *.
  set (dN := fun e => Z.to_N (redmean_distance c e)).
  assert (forall e, In e (e0 :: skipn (S (N.to_nat start)) table) -> distance c e = Some (dN e)) as Hd
    by (intros e Ie; apply distance_model; auto).
  unfold find_best, aget. rewrite He0, (Hd e0 (or_introl eq_refl)).
  replace (N.to_nat (start + 1)) with (S (N.to_nat start)) by lia.
  (* the invariant holds of the one-entry prefix [e0] *)
  destruct (scan_spec c dN start _ [e0] 0 e0 (fun e Ie => Hd e (or_intror Ie)) (argmin_singleton _ e0) eq_refl)
    as (i & bd & Hs & Harg).
  change (N.of_nat (length [e0])) with 1 in Hs. rewrite N.add_0_r in Hs. rewrite Hs.
  exists i. split; [reflexivity|].
  apply (argmin_ext (fun e => Z.of_N (dN e))); [|exact Harg].
  intros e Ie. pose proof (redmean_range c e Hc (Hall e Ie)). unfold dN. lia.
Qed.

Lemma argmin_exact (l : list rgb) (e : rgb) (k : nat) (i : N) :
  Forall rgb_ok l -> nth_error l k = Some e ->
  is_argmin_lowest (redmean_distance e) l i ->
  (N.to_nat i <= k)%nat /\ nth_error l (N.to_nat i) = Some e /\
  forall j, (j < N.to_nat i)%nat -> nth_error l j <> Some e.
Proof.
  intros Hall Hk (x & Hx & Hmin & Hlow). rewrite Forall_forall in Hall.
  assert (rgb_ok e) as He by (eapply Hall, nth_error_In, Hk).
  assert (rgb_ok x) as Hxok by (eapply Hall, nth_error_In, Hx).
  assert (redmean_distance e e = 0%Z) as H0 by (apply redmean_zero; auto).
  pose proof (Hmin _ _ Hk) as Hle. pose proof (redmean_range e x He Hxok) as Hr.
  assert (x = e) as -> by (symmetry; apply redmean_zero; auto; lia).
  split; [|split].
  - destruct (Nat.le_gt_cases (N.to_nat i) k) as [H | H]; [exact H|].
    pose proof (Hlow _ _ H Hk). lia.
  - exact Hx.
  - intros j Hj Hje. pose proof (Hlow _ _ Hj Hje). lia.
Qed.

Lemma fold_min_le (t : list Z) (h : Z) :
  In (fold_left Z.min t h) (h :: t) /\ forall y, In y (h :: t) -> (fold_left Z.min t h <= y)%Z.
Proof.
  revert h. induction t as [|x t IH]; intros h; cbn [fold_left].
  - split; [now left | intros y [<- | []]; lia].
  - destruct (IH (Z.min h x)) as (Hin & Hle). pose proof (Hle _ (or_introl eq_refl)). split.
    + destruct Hin as [<- | Hin]; [|now do 2 right].
      destruct (Z.min_spec h x) as [[_ ->] | [_ ->]]; cbn; auto.
    + intros y [<- | [<- | Hy]]; [lia | lia | apply Hle; now right].
Qed.

Lemma first_index_spec (m : Z) (l : list Z) (i0 i : N) :
  first_index m l i0 = Some i ->
  exists k, i = i0 + N.of_nat k /\ nth_error l k = Some m /\
            forall j y, (j < k)%nat -> nth_error l j = Some y -> y <> m.
Proof.
  revert i0. induction l as [|h t IH]; intros i0 H; cbn [first_index] in H; [discriminate|].
  destruct (h =? m)%Z eqn:E.
  - injection H as <-. apply Z.eqb_eq in E. subst h. exists 0%nat. repeat split; [lia|].
    intros j y Hj. lia.
  - apply Z.eqb_neq in E. destruct (IH _ H) as (k & -> & Hk & Hlow).
    exists (S k). repeat split; [lia | exact Hk |].
    intros [|j] y Hj Hy; cbn [nth_error] in Hy.
    + injection Hy as <-. exact E.
    + apply (Hlow j); [lia | assumption].
Qed.

Lemma first_index_total (m : Z) (l : list Z) (i0 : N) :
  In m l -> exists i, first_index m l i0 = Some i.
Proof.
  revert i0. induction l as [|h t IH]; intros i0 H; [destruct H|].
  cbn [first_index]. destruct (h =? m)%Z eqn:E; [eauto|].
  apply Z.eqb_neq in E. destruct H as [H | H]; [contradiction|]. auto.
Qed.

Lemma argmin_lowest_sound {A} (d : A -> Z) (l : list A) (i : N) :
  argmin_lowest d l = Some i -> is_argmin_lowest d l i.
Proof.
  unfold argmin_lowest, list_min.
  destruct (map d l) as [|h t] eqn:Em; [discriminate|].
  intros H. destruct (first_index_spec _ _ _ _ H) as (k & -> & Hk & Hlow).
  destruct (fold_min_le t h) as [_ Hmin]. rewrite <- Em in Hk, Hlow, Hmin.
  rewrite nth_error_map in Hk. destruct (nth_error l k) as [x|] eqn:Hx; [|discriminate].
  injection Hk as Hk. rewrite <- Hk in Hlow, Hmin.
  assert (forall j y, nth_error l j = Some y -> d x <= d y)%Z as Hle
    by (intros j y Hy; apply Hmin, in_map, (nth_error_In _ _ Hy)).
  exists x. rewrite N.add_0_l, Nat2N.id. repeat split; [exact Hx | exact Hle |].
  intros j y Hj Hy. specialize (Hle j y Hy).
  assert (d y <> d x) by (apply (Hlow j _ Hj); rewrite nth_error_map, Hy; reflexivity). lia.
Qed.

Lemma argmin_lowest_total {A} (d : A -> Z) (l : list A) :
  l <> [] -> exists i, argmin_lowest d l = Some i.
Proof.
  intros Hne. unfold argmin_lowest, list_min.
  destruct (map d l) as [|h t] eqn:Em.
  - destruct l; [contradiction | discriminate].
  - apply first_index_total, fold_min_le.
Qed.

Lemma argmin_lowest_complete {A} (d : A -> Z) (l : list A) (i : N) :
  is_argmin_lowest d l i -> argmin_lowest d l = Some i.
Proof.
  intros H. assert (l <> []) as Hne.
  { destruct H as (x & Hx & _). intros ->. destruct (N.to_nat i); discriminate. }
  destruct (argmin_lowest_total d l Hne) as (j & Hj). rewrite Hj. f_equal.
  apply (argmin_unique d l); [now apply argmin_lowest_sound | exact H].
Qed.

(* Spec/Lossy.v has its own enumeration [n_range], with the body of Model/Base.v [range_from] *)
Lemma n_range_In : forall n a x, In x (n_range a n) <-> a <= x < a + N.of_nat n.
Proof. exact range_from_In. Qed.

Lemma n_range_nth : forall n a k, (k < n)%nat -> nth_error (n_range a n) k = Some (a + N.of_nat k).
Proof.
  induction n as [|n IH]; intros a [|k] Hk; cbn [n_range nth_error]; try lia.
  - f_equal. lia.
  - rewrite IH by lia. f_equal. lia.
Qed.

Lemma nth_error_skipn {A} (n : nat) : forall (l : list A) k, nth_error (skipn n l) k = nth_error l (n + k).
Proof. induction n as [|n IH]; intros [|h t] k; cbn [skipn Nat.add nth_error]; auto. now destruct k. Qed.

Lemma forall_n_range (P : N -> bool) (a : N) (n : nat) :
  forallb P (n_range a n) = true -> forall i, a <= i < a + N.of_nat n -> P i = true.
Proof. intros H i Hi. rewrite forallb_forall in H. apply H, n_range_In, Hi. Qed.

Definition on_eqb (x y : option N) : bool :=
  match x, y with Some a, Some b => a =? b | None, None => true | _, _ => false end.

Lemma on_eqb_eq x y : on_eqb x y = true <-> x = y.
Proof.
  destruct x, y; cbn [on_eqb]; try rewrite N.eqb_eq; split; intros H; try congruence; try discriminate.
Qed.

Lemma assoc_keys_below (l : list (N * N)) (b i : N) :
  forallb (fun kv => fst kv <? b) l = true -> b <= i -> assoc i l = None.
Proof.
  intros H Hi. induction l as [|[k v] t IH]; [reflexivity|].
  cbn [forallb fst] in H. apply andb_true_iff in H as [Hk Ht]. apply N.ltb_lt in Hk.
  cbn [assoc]. rewrite (proj2 (N.eqb_neq i k)) by lia. auto.
Qed.

(* the literal arms of xterm_to_ansi and into_ansi, in whatever order the source lists them: each
   of 0..15 goes to itself, and no other index has an arm *)
Lemma x2a_low : forall i, i < 16 -> assoc i xterm_to_ansi_arms = Some i.
Proof.
  intros i Hi. apply on_eqb_eq.
  apply (forall_n_range (fun i => on_eqb (assoc i xterm_to_ansi_arms) (Some i)) 0 16); [reflexivity | lia].
Qed.

Lemma x2a_high : forall i, 16 <= i < 256 -> assoc i xterm_to_ansi_arms = None.
Proof. intros i Hi. apply (assoc_keys_below _ 16); [reflexivity | lia]. Qed.

Lemma into_ansi_low : forall i, i < 16 -> into_ansi i = Some i.
Proof.
  intros i Hi. apply on_eqb_eq.
  apply (forall_n_range (fun i => on_eqb (into_ansi i) (Some i)) 0 16); [reflexivity | lia].
Qed.

(* from_ansi_tbl is indexed by ANSI number, whatever the order of the arms in the source *)
Lemma from_ansi_low : forall a, a < 16 -> from_ansi a = Some a.
Proof.
  intros a Ha. unfold from_ansi, aget. change from_ansi_tbl with (n_range 0 16).
  rewrite n_range_nth by lia. f_equal. lia.
Qed.

Definition rgb_okb (c : rgb) : bool := let '(r, g, b) := c in (r <? 256) && (g <? 256) && (b <? 256).

Lemma rgb_okb_ok c : rgb_okb c = true <-> rgb_ok c.
Proof.
  destruct c as [[r g] b]. cbn [rgb_okb rgb_ok]. rewrite !andb_true_iff, !N.ltb_lt. tauto.
Qed.

Lemma all_okb (l : list rgb) : forallb rgb_okb l = true -> Forall rgb_ok l.
Proof. intros H. rewrite forallb_forall in H. apply Forall_forall. intros x Hx. now apply rgb_okb_ok, H. Qed.

Lemma shipped_palettes_ok : palette_ok vga /\ palette_ok win10_console.
Proof.
  split; (split; [reflexivity | apply all_okb; vm_compute; reflexivity]).
Qed.

Lemma xterm_len : @length rgb xterm_colors = 256%nat.
Proof. reflexivity. Qed.

Lemma xterm_all_ok : Forall rgb_ok xterm_colors.
Proof. apply all_okb. vm_compute. reflexivity. Qed.

Lemma xterm_tail_standard : skipn 16 xterm_colors = xterm240.
Proof. vm_compute. reflexivity. Qed.

Lemma xterm_cands_nth : forall i, 16 <= i < 256 ->
  nth_error (@skipn rgb 16 xterm_colors) (N.to_nat (i - 16)) = Some (xterm_fixed i).
Proof.
  intros i Hi. change (@skipn rgb 16 xterm_colors) with (skipn 16 xterm_colors).
  rewrite xterm_tail_standard. unfold xterm240.
  rewrite nth_error_map, n_range_nth by lia. cbn [option_map]. do 2 f_equal. lia.
Qed.

Lemma xterm_cands_ok : Forall rgb_ok (@skipn rgb 16 xterm_colors).
Proof.
  pose proof xterm_all_ok as H. rewrite <- (firstn_skipn 16 xterm_colors) in H.
  apply Forall_app in H. apply H.
Qed.

Lemma xterm_nth : forall i, 16 <= i < 256 ->
  nth_error xterm_colors (N.to_nat i) = Some (xterm_fixed i).
Proof.
  intros i Hi. rewrite <- (xterm_cands_nth i Hi), nth_error_skipn. f_equal. lia.
Qed.

Lemma xterm_fixed_ok : forall i, 16 <= i < 256 -> rgb_ok (xterm_fixed i).
Proof.
  intros i Hi. pose proof xterm_all_ok as H. rewrite Forall_forall in H.
  apply H. eapply nth_error_In. apply (xterm_nth i Hi).
Qed.

Lemma cube_level_inj (a b : N) : cube_level a = cube_level b -> a = b.
Proof. unfold cube_level. destruct (N.eqb_spec a 0), (N.eqb_spec b 0); lia. Qed.

(* cube levels end in 0 or 5, greys in 8 *)
Lemma cube_level_not_grey (a m : N) : cube_level a <> 8 + 10 * m.
Proof. unfold cube_level. destruct (a =? 0); lia. Qed.

(* the cube index from its three digits in base 6, as [xterm_fixed] takes them *)
Lemma base6_digits (k : N) : k = 36 * (k / 36) + 6 * ((k / 6) mod 6) + k mod 6.
Proof.
  rewrite (N.div_mod k 6) at 1 by discriminate.
  rewrite (N.div_mod (k / 6) 6) at 1 by discriminate.
  rewrite N.div_div by discriminate. change (6 * 6) with 36. lia.
Qed.

Lemma rgb_eq (r g b r' g' b' : N) : (r, g, b) = (r', g', b') -> r = r' /\ g = g' /\ b = b'.
Proof. now intros [= -> -> ->]. Qed.

Lemma xterm_fixed_inj (i j : N) : 16 <= i -> 16 <= j -> xterm_fixed i = xterm_fixed j -> i = j.
Proof.
  intros Hi Hj. unfold xterm_fixed.
  (* [rgb_eq] and not [injection], which would evaluate the arithmetic *)
  destruct (N.ltb_spec i 232), (N.ltb_spec j 232); intros E; apply rgb_eq in E as (E1 & E2 & E3).
  - apply cube_level_inj in E1, E2, E3.
    pose proof (base6_digits (i - 16)). pose proof (base6_digits (j - 16)). lia.
  - now apply cube_level_not_grey in E3.
  - symmetry in E3. now apply cube_level_not_grey in E3.
  - lia.
Qed.

Lemma palette_entry_ok (p : list rgb) (k : nat) (e : rgb) :
  palette_ok p -> nth_error p k = Some e -> rgb_ok e.
Proof. intros [_ Hall] Hk. rewrite Forall_forall in Hall. eapply Hall, nth_error_In, Hk. Qed.

Lemma palette_nth (p : list rgb) (a : N) :
  palette_ok p -> a < 16 -> exists e, nth_error p (N.to_nat a) = Some e /\ rgb_ok e.
Proof.
  intros Hp Ha.
  destruct (nth_error p (N.to_nat a)) as [e|] eqn:E.
  - exists e. split; [reflexivity|]. exact (palette_entry_ok p _ e Hp E).
  - apply nth_error_None in E. destruct Hp as [Hl _]. lia.
Qed.

Lemma find_match_argmin (p : list rgb) (c : rgb) :
  palette_ok p -> rgb_ok c ->
  exists i, find_match p c = Some i /\ i < 16 /\ is_argmin_lowest (redmean_distance c) p i.
Proof.
  intros [Hl Hall] Hc.
  destruct (find_best_argmin c p 0 Hc) as (i & Hf & Harg).
  - exact Hall.
  - rewrite Hl. reflexivity.
  - cbn [N.to_nat skipn] in Harg. pose proof (argmin_index_lt _ _ _ Harg) as Hi. rewrite Hl in Hi.
    exists i. unfold find_match. rewrite Hf. rewrite N.add_0_l.
    rewrite N.mod_small by lia. rewrite (into_ansi_low i) by lia.
    repeat split; [lia | exact Harg].
Qed.

Lemma rgb_to_xterm_argmin (c : rgb) :
  rgb_ok c ->
  exists i, rgb_to_xterm c = Some i /\ 16 <= i < 256 /\
            is_argmin_lowest (redmean_distance c) (skipn 16 xterm_colors) (i - 16).
Proof.
  intros Hc.
  destruct (find_best_argmin c xterm_colors 16 Hc) as (i & Hf & Harg).
  - exact xterm_cands_ok.
  - rewrite xterm_len. reflexivity.
  - change (N.to_nat 16) with 16%nat in Harg.
    pose proof (argmin_index_lt _ _ _ Harg) as Hi.
    rewrite skipn_length, xterm_len in Hi. change (N.of_nat (256 - 16)) with 240 in Hi.
    exists (16 + i). unfold rgb_to_xterm, find_xterm_match. rewrite Hf.
    rewrite N.mod_small by lia. split; [reflexivity|]. split; [lia|].
    replace (16 + i - 16) with i by lia. exact Harg.
Qed.

Lemma exact_hit_ansi (p : list rgb) (k : nat) (e : rgb) :
  palette_ok p -> nth_error p k = Some e ->
  exists i, rgb_to_ansi e p = Some i /\ (N.to_nat i <= k)%nat /\
            nth_error p (N.to_nat i) = Some e /\
            forall j, (j < N.to_nat i)%nat -> nth_error p j <> Some e.
Proof.
  intros Hp Hk.
  destruct (find_match_argmin p e Hp (palette_entry_ok p k e Hp Hk)) as (i & Hf & _ & Harg).
  exists i. split; [exact Hf|]. exact (argmin_exact p e k i (proj2 Hp) Hk Harg).
Qed.

(* the search ends at an index that holds the same colour, and no two indices do *)
Lemma xterm_fixed_roundtrip : forall k, 16 <= k < 256 -> rgb_to_xterm (xterm_fixed k) = Some k.
Proof.
  intros k Hk.
  destruct (rgb_to_xterm_argmin _ (xterm_fixed_ok k Hk)) as (i & Hf & Hi & Harg).
  rewrite Hf. f_equal. apply xterm_fixed_inj; [lia | lia |].
  destruct (argmin_exact _ _ _ _ xterm_cands_ok (xterm_cands_nth k Hk) Harg) as (_ & Hn & _).
  rewrite (xterm_cands_nth i Hi) in Hn. congruence.
Qed.

Lemma exact_hit_xterm (k : N) (e : rgb) :
  16 <= k < 256 -> nth_error xterm_colors (N.to_nat k) = Some e -> rgb_to_xterm e = Some k.
Proof.
  intros Hk He. rewrite (xterm_nth k Hk) in He. injection He as <-. now apply xterm_fixed_roundtrip.
Qed.

Lemma xterm_to_ansi_high (p : list rgb) (i : N) :
  16 <= i < 256 -> xterm_to_ansi i p = find_match p (xterm_fixed i).
Proof. intros Hi. unfold xterm_to_ansi, aget. rewrite (x2a_high i Hi), (xterm_nth i Hi). reflexivity. Qed.

Lemma xterm_to_ansi_argmin (p : list rgb) (i : N) :
  palette_ok p -> 16 <= i < 256 ->
  exists a, xterm_to_ansi i p = Some a /\ a < 16 /\
            is_argmin_lowest (redmean_distance (xterm_fixed i)) p a.
Proof.
  intros Hp Hi. rewrite (xterm_to_ansi_high p i Hi).
  apply find_match_argmin; [exact Hp | now apply xterm_fixed_ok].
Qed.

Lemma same_kind_identity :
  (forall c p, color_to_rgb (Rgb c) p = Some c) /\
  (forall i, color_to_xterm (Ansi256 i) = Some i) /\
  (forall a p, color_to_ansi (Ansi a) p = Some a).
Proof. repeat split. Qed.

(* indices 0-15 of the 256-colour palette are the 16-colour palette *)
Lemma low_indices (p : list rgb) (a : N) :
  palette_ok p -> a < 16 ->
  color_to_xterm (Ansi a) = Some a /\
  xterm_to_ansi a p = Some a /\
  color_to_ansi (Ansi256 a) p = Some a /\
  exists e, nth_error p (N.to_nat a) = Some e /\
            ansi_to_rgb a p = Some e /\ xterm_to_rgb a p = Some e /\
            palette_get p a = Some e /\ palette_index p a = Some e /\
            color_to_rgb (Ansi a) p = Some e /\ color_to_rgb (Ansi256 a) p = Some e.
Proof.
  intros Hp Ha. destruct (palette_nth p a Hp Ha) as (e & He & _). destruct Hp as [Hl _].
  cbn [color_to_xterm color_to_ansi color_to_rgb].
  unfold xterm_to_ansi, ansi_to_rgb, rgb_from_ansi, palette_get, palette_index, get_ansi256_ref,
    xterm_to_rgb, rgb_from_index, aget.
  rewrite (from_ansi_low a Ha), (x2a_low a Ha), Hl.
  rewrite (proj2 (N.ltb_lt a (N.of_nat 16)) Ha).
  rewrite He. repeat split. exists e. repeat split.
Qed.

Lemma high_indices_rgb (p : list rgb) (i : N) :
  palette_ok p -> 16 <= i < 256 ->
  xterm_to_rgb i p = Some (xterm_fixed i) /\ color_to_rgb (Ansi256 i) p = Some (xterm_fixed i).
Proof.
  intros [Hl _] Hi. cbn [color_to_rgb]. unfold xterm_to_rgb, rgb_from_index, aget. rewrite Hl.
  rewrite (proj2 (N.ltb_ge i (N.of_nat 16)) (proj1 Hi)).
  rewrite (xterm_nth i Hi). auto.
Qed.

Lemma conversions_total (col : color) (p : list rgb) :
  color_ok col -> palette_ok p ->
  (exists r, color_to_rgb col p = Some r /\ rgb_ok r) /\
  (exists i, color_to_xterm col = Some i /\ i < 256) /\
  (exists a, color_to_ansi col p = Some a /\ a < 16).
Proof.
  intros Hc Hp. destruct col as [a | i | c]; cbn [color_ok] in Hc.
  - destruct (low_indices p a Hp Hc) as (H1 & _ & _ & e & He & _ & _ & _ & _ & H2 & _).
    pose proof (palette_entry_ok p _ e Hp He).
    repeat split; [exists e | exists a | exists a]; repeat split; auto; lia.
  - destruct (N.lt_ge_cases i 16) as [Hlo | Hhi].
    + destruct (low_indices p i Hp Hlo) as (_ & _ & H1 & e & He & _ & _ & _ & _ & _ & H2).
      pose proof (palette_entry_ok p _ e Hp He).
      repeat split; [exists e | exists i | exists i]; repeat split; auto.
    + destruct (high_indices_rgb p i Hp (conj Hhi Hc)) as (_ & H1).
      destruct (xterm_to_ansi_argmin p i Hp (conj Hhi Hc)) as (a & H2 & Ha & _).
      repeat split; [exists (xterm_fixed i) | exists i | exists a]; repeat split; auto.
      now apply xterm_fixed_ok.
  - destruct (rgb_to_xterm_argmin c Hc) as (i & H1 & Hi & _).
    destruct (find_match_argmin p c Hp Hc) as (a & H2 & Ha & _).
    repeat split; [exists c | exists i | exists a]; repeat split; auto; lia.
Qed.

(* the model agrees with the executable specification (the oracle of the
   correspondence runs) on every valid input *)
Lemma spec_rgb_to_ansi_eq (p : list rgb) (c : rgb) :
  palette_ok p -> rgb_ok c -> rgb_to_ansi c p = spec_rgb_to_ansi p c.
Proof.
  intros Hp Hc. destruct (find_match_argmin p c Hp Hc) as (i & Hf & _ & Harg).
  unfold rgb_to_ansi, spec_rgb_to_ansi. rewrite Hf. symmetry. now apply argmin_lowest_complete.
Qed.

Lemma spec_rgb_to_xterm_eq (c : rgb) : rgb_ok c -> rgb_to_xterm c = spec_rgb_to_xterm c.
Proof.
  intros Hc. destruct (rgb_to_xterm_argmin c Hc) as (i & Hf & Hi & Harg).
  unfold spec_rgb_to_xterm. rewrite <- xterm_tail_standard.
  rewrite (argmin_lowest_complete _ _ _ Harg). rewrite Hf. f_equal. lia.
Qed.

Lemma model_is_spec (col : color) (p : list rgb) :
  color_ok col -> palette_ok p ->
  color_to_rgb col p = spec_to_rgb p col /\
  color_to_xterm col = spec_to_xterm col /\
  color_to_ansi col p = spec_to_ansi p col.
Proof.
  intros Hc Hp. destruct col as [a | i | c]; cbn [color_ok] in Hc;
    cbn [spec_to_rgb spec_to_xterm spec_to_ansi].
  - destruct (low_indices p a Hp Hc) as (H1 & _ & _ & e & He & _ & _ & _ & _ & H2 & _).
    rewrite (proj2 (N.ltb_lt a 16) Hc).
    rewrite H1, H2, He. auto.
  - unfold spec_index_rgb. destruct (N.lt_ge_cases i 16) as [Hlo | Hhi].
    + destruct (low_indices p i Hp Hlo) as (_ & _ & H1 & e & He & _ & _ & _ & _ & _ & H2).
      rewrite (proj2 (N.ltb_lt i 16) Hlo).
      rewrite H1, H2, He. auto.
    + destruct (high_indices_rgb p i Hp (conj Hhi Hc)) as (_ & H1).
      rewrite (proj2 (N.ltb_ge i 16) Hhi), (proj2 (N.ltb_lt i 256) Hc).
      rewrite H1. repeat split. cbn [color_to_ansi]. rewrite (xterm_to_ansi_high p i (conj Hhi Hc)).
      apply (spec_rgb_to_ansi_eq p _ Hp). now apply xterm_fixed_ok.
  - cbn [color_to_rgb color_to_xterm color_to_ansi]. repeat split.
    + now apply spec_rgb_to_xterm_eq.
    + now apply spec_rgb_to_ansi_eq.
Qed.

(* statements in the form quoted by Props/C10.v *)
Lemma distance_zero_both (a b : rgb) :
  rgb_ok a -> rgb_ok b ->
  (redmean_distance a b = 0%Z <-> a = b) /\ (distance a b = Some 0 <-> a = b).
Proof. intros Ha Hb. split; [now apply redmean_zero | now apply distance_zero]. Qed.

Lemma xterm_candidates_standard :
  @length rgb xterm_colors = 256%nat /\ skipn 16 xterm_colors = xterm240 /\
  forall i, 16 <= i < 256 -> nth_error xterm_colors (N.to_nat i) = Some (xterm_fixed i).
Proof. exact (conj xterm_len (conj xterm_tail_standard xterm_nth)). Qed.

Lemma argmin_lowest_correct (d : rgb -> Z) (l : list rgb) (i : N) :
  argmin_lowest d l = Some i <-> is_argmin_lowest d l i.
Proof. split; [apply argmin_lowest_sound | apply argmin_lowest_complete]. Qed.

(* Recorded deviation (not a property theorem).
   The crate's green weight (4 * 256) is half of what the cited compuphase formula
   gives on the same scale (4 * 512); the two metrics choose different entries for
   about 11% of all colours against the VGA palette.  Witness, on a literal copy of
   the VGA palette: (0, 25, 85) goes to entry 8 (85,85,85) under the crate's scale
   and to entry 0 (0,0,0) under the cited one.  Every theorem above is stated and
   proved for the crate's own scale, which is what Spec/Lossy.v fixes (the property
   text does not give the weights). *)
Lemma green_weight_deviation_witness :
  let p := [(0,0,0); (170,0,0); (0,170,0); (170,85,0); (0,0,170); (170,0,170); (0,170,170); (170,170,170);
            (85,85,85); (255,85,85); (85,255,85); (255,255,85); (85,85,255); (255,85,255); (85,255,255); (255,255,255)] in
  argmin_lowest (redmean_distance (0, 25, 85)) p = Some 8 /\
  argmin_lowest (compuphase_distance (0, 25, 85)) p = Some 0.
Proof. vm_compute. split; reflexivity. Qed.
