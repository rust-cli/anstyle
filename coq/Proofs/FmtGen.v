(* crates/anstream/src/fmt.rs translated (Generated/FmtFn.v, tools/gen_fn_fmt.py: Adapter::new,
   Adapter::write_fmt, <Adapter as fmt::Write>::write_str) is the hand model fmt_adapter_write_fmt of Model/Stream.v:
   the closure is called once per fragment, in order, on the state its predecessor left; the first io::Error is saved in
   the error slot, stops the formatting and is what write_fmt answers; without an error the answer is Ok(()).
   (core::fmt::write itself is vocabulary: Model/Stream.v core_fmt_write.) *)
From Coq Require Import NArith List Bool.
From AV Require Import Generated.Table Spec.Io Model.Base Model.Imp Model.Utf8parse Model.Parser Model.Strip Model.Stream
  Generated.FmtFn.
Import ListNotations.
Local Open Scope N_scope.

Section Fmt.
Variable S : Type.
Variable f : list N -> S -> option (S * (unit + ekind)).

Lemma g_adapter_new_eq c : g_adapter_new S c = mkFA S c (inl tt).
Proof. reflexivity. Qed.

Lemma g_adapter_write_str_eq st err fr :
  g_adapter_write_str S (mkFA S (f, st) err) fr =
  match f fr st with
  | Some (st1, inl _) => Some (mkFA S (f, st1) err, inl tt)
  | Some (st1, inr e) => Some (mkFA S (f, st1) (inr e), inr tt)
  | None => None
  end.
Proof.
  unfold g_adapter_write_str, fclosure_call. cbn [fa_writer fst snd].
  destruct (f fr st) as [[st1 [[]|e]]|]; reflexivity.
Qed.

Lemma core_fmt_write_adapter frags : forall st,
  core_fmt_write (g_adapter_write_str S) (mkFA S (f, st) (inl tt)) frags =
  match fmt_adapter_write_fmt f st frags with
  | Some (st1, inl _) => Some (mkFA S (f, st1) (inl tt), inl tt)
  | Some (st1, inr e) => Some (mkFA S (f, st1) (inr e), inr tt)
  | None => None
  end.
Proof.
  induction frags as [|fr rest IH]; intros st; cbn [core_fmt_write fmt_adapter_write_fmt]; [reflexivity|].
  rewrite g_adapter_write_str_eq.
  destruct (f fr st) as [[st1 [[]|e]]|]; [apply IH|reflexivity|reflexivity].
Qed.

(* Adapter::new(closure).write_fmt(args): the hand model's answer, and the closure's captured variables are left as the
   hand model leaves them (they are `&mut` borrows of the caller's variables: the value translation returns the adapter) *)
Theorem g_adapter_write_fmt_eq st frags :
  match g_adapter_write_fmt S (g_adapter_new S (f, st)) frags with
  | Some (ad, r) => Some (snd (fa_writer S ad), r)
  | None => None
  end = fmt_adapter_write_fmt f st frags.
Proof.
  unfold g_adapter_write_fmt. rewrite g_adapter_new_eq, core_fmt_write_adapter.
  destruct (fmt_adapter_write_fmt f st frags) as [[st1 [[]|e]]|]; reflexivity.
Qed.

(* the same as a rewriting rule for the callers (Generated/StreamFn.v, Generated/WinconStreamFn.v): whatever is done with
   the captured state and the answer afterwards *)
Lemma adapter_run {R : Type} (K : S -> unit + ekind -> option R) st frags :
  match g_adapter_write_fmt S (g_adapter_new S (f, st)) frags with
  | Some (ad, r) => K (snd (fa_writer S ad)) r
  | None => None
  end = match fmt_adapter_write_fmt f st frags with Some (st1, r) => K st1 r | None => None end.
Proof.
  rewrite <- g_adapter_write_fmt_eq.
  destruct (g_adapter_write_fmt S (g_adapter_new S (f, st)) frags) as [[ad r]|]; reflexivity.
Qed.

End Fmt.
