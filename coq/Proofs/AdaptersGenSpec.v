(* C16 for the TRANSLATED conversion functions: Proofs/AdaptersGen.v
   (translated = hand model) composed with Proofs/Adapters.v (hand model meets the specification).
   Kept apart from AdaptersGen.v so that that file does not depend on the property proofs; the library renderings
   (Proofs/*FnGen.v) compose all three. *)
From Coq Require Import NArith List Bool.
From AV Require Import Generated.Adapters Spec.Sgr Spec.Targets Model.Adapters Model.Base Generated.AdaptersFn
  Proofs.Adapters Proofs.AdaptersGen.
Import ListNotations.
Local Open Scope N_scope.

(* [Some]: in particular the adapter does not panic *)
Lemma translated_convert_meaning l s : ad_src_ok s ->
  (t <- g_convert l s ;; ad_meaning l t) = Some (ad_project l s).
Proof.
  intros H. rewrite (proj1 translated_adapters_are_model l s H). exact (ad_convert_meaning l s H).
Qed.

Lemma translated_syntect_expected r g b a r' g' b' a' font : font < 256 ->
  g_syn_to_anstyle (mkAdSyn (r, g, b, a) (r', g', b', a') font) =
  Some (ad_syntect_expected (r, g, b, a) (r', g', b', a') font).
Proof.
  intros H. rewrite g_syn_to_anstyle_eq. f_equal.
  exact (proj1 (ad_syntect_keeps r g b a r' g' b' a' font H)).
Qed.
