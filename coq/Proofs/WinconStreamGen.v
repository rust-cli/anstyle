(* The functions TRANSLATED from crates/anstream/src/wincon.rs
   (Generated/WinconStreamFn.v, written by tools/gen_fn_stream.py on every run) are
   extensionally equal to the hand model Model/WinconStream.v that the theorems of C18 are
   about.  A change to the Rust functions changes the translation; if it changes their
   meaning, one of these proofs fails. *)
From Coq Require Import NArith Arith List Bool Lia.
From AV Require Import Generated.Table Spec.Utf8 Spec.Vt Spec.Sgr Spec.Io Model.Base Model.Imp Model.Utf8parse Model.Parser
  Model.Strip Model.Wincon Model.Stream Model.WinconStream Proofs.BaseFacts Generated.FmtFn Proofs.FmtGen Proofs.StreamGen Generated.WinconStreamFn Generated.WinconFn.
Import ListNotations.
Local Open Scope N_scope.

Definition wconv_n (r : option (console * wstream * (N + ekind))) : option (wstream * console * sres) :=
  match r with Some (c, s, x) => Some (s, c, sres_of_n x) | None => None end.
Definition wconv_u (r : option (console * wstream * (unit + ekind))) : option (wstream * console * sres) :=
  match r with Some (c, s, x) => Some (s, c, sres_of_unit x) | None => None end.

Lemma g_cap_wincon_color_eq c : g_cap_wincon_color c = Some (cap_wincon_color c).
Proof. destruct c; reflexivity. Qed.

Lemma cap_stage (o : option colour) :
  match o with Some x => g_cap_wincon_color x | None => Some None end = Some (cap_opt o).
Proof. destruct o as [c|]; [apply g_cap_wincon_color_eq|reflexivity]. Qed.

Lemma con_write_inl c fg bg data c1 n :
  con_write_colored c fg bg data = (c1, inl n) ->
  n <= N.of_nat (length data) /\
  ((length (con_script c1) < length (con_script c))%nat \/ (con_script c1 = [] /\ n = N.of_nat (length data))).
Proof.
  unfold con_write_colored. destruct (con_script c) as [|[k|e] rest]; intros H; inversion H; subst; cbn [con_script length].
  - split; [lia|]. right. split; reflexivity.
  - split; [lia|]. left. lia.
Qed.

Lemma con_write_inr c fg bg data c1 e :
  con_write_colored c fg bg data = (c1, inr e) -> (length (con_script c1) < length (con_script c))%nat.
Proof.
  unfold con_write_colored. destruct (con_script c) as [|[k|e0] rest]; intros H; inversion H; subst; cbn [con_script length]. lia.
Qed.

(* what the translated `while !buf.is_empty()` loop answers, against wc_run_loop *)
Definition inner_ok (res : option ((console * list N) + ((console * list N) * (unit + ekind)))) (hand : console * (unit + ekind)) : Prop :=
  match res with
  | Some (inl (c1, _)) => hand = (c1, inl tt)
  | Some (inr ((c1, _), r)) => exists e, r = inr e /\ hand = (c1, inr e)
  | None => False
  end.

Lemma g_wc_write_all_eq raw s buf : wconv_u (g_wc_write_all raw s buf) = wc_write_all s buf raw.
Proof.
  (* combinator, step, initial tuple and continuation of the outer loop are read off the goal (as Proofs/StreamGen.v
     g_write_all_eq does): `mk` is the initial tuple with the iterator, the console and the stream state abstracted, in
     whatever order the translator carries them and whatever further loop variables (a shadowed `buf`) ride along *)
  unfold g_wc_write_all, wc_write_all, wci_enter. cbv zeta.
  match goal with
  | |- wconv_u (match ?W ?fuel0 ?f ?init with Some x => @?K x | None => None end) = _ =>
      let pat := eval pattern (wci_new buf), raw,
                 (mkWS (ws_parser s) (mkCap (c_style (ws_capture s)) (c_printable (ws_capture s)) None)) in init in
      match pat with
      | ?mk _ _ _ =>
          set (step := f);     (* opaque: unfolded one round at a time, the inner loop inside it stays folded *)
          assert (L : forall fuel bs p cap c,
                     wconv_u (match W fuel step (mk bs c (mkWS p cap)) with Some x => K x | None => None end)
                     = wc_write_all_loop fuel bs p cap c)
      end
  end.
  { induction fuel as [|fuel IH]; intros bs p cap c; [reflexivity|].
    cbn [while_fuel while_fuel0 wc_write_all_loop]. unfold step at 1. unfold wci_next. cbn [ws_parser ws_capture].
    destruct (wincon_next bs p cap) as [[[[item bs1] p1] cap1]|]; [|reflexivity].
    destruct item as [[style txt]|]; [|reflexivity].
    rewrite !cap_stage.
    match goal with |- context [while_fuel _ ?f (c, str_bytes txt)] => set (istep := f) end.
    assert (I : forall f c0 b, (length (con_script c0) + length b < f)%nat ->
                inner_ok (while_fuel f istep (c0, b)) (wc_run_loop f c0 (cap_opt (s_fg style)) (cap_opt (s_bg style)) b)).
    { induction f as [|f IHf]; intros c0 b Hm; [lia|].
      cbn [while_fuel wc_run_loop]. unfold istep at 1.
      destruct b as [|b1 bt]; [reflexivity|]. cbn [is_empty negb].
      destruct (con_write_colored c0 (cap_opt (s_fg style)) (cap_opt (s_bg style)) (b1 :: bt)) as [c1 r] eqn:Ew.
      destruct r as [n|e].
      - destruct (con_write_inl _ _ _ _ _ _ Ew) as [Hn Hs].
        destruct (n =? 0) eqn:En.
        + apply N.eqb_eq in En. subst n. cbn [inner_ok]. exists WriteZero. split; reflexivity.
        + apply N.eqb_neq in En. rewrite (slice_suffix _ _ Hn).
          assert (Hk : (length (con_script c1) + length (skipn (N.to_nat n) (b1 :: bt)) < f)%nat).
          { rewrite skipn_length. cbn [length] in *. destruct Hs as [Hs|[Hs ->]]; [lia|]. rewrite Hs. cbn [length]. lia. }
          specialize (IHf c1 (skipn (N.to_nat n) (b1 :: bt)) Hk).
          destruct n as [|pn]; [congruence|]. exact IHf.
      - pose proof (con_write_inr _ _ _ _ _ _ Ew) as Hs.
        destruct e; cbn [ekind_eqb].
        + apply IHf. cbn [length] in *. lia.
        + cbn [inner_ok]. eexists. split; reflexivity.
        + cbn [inner_ok]. eexists. split; reflexivity.
        + cbn [inner_ok]. eexists. split; reflexivity. }
    specialize (I (S (length (con_script c) + length (str_bytes txt))) c (str_bytes txt) (Nat.lt_succ_diag_r _)).
    destruct (while_fuel (S (length (con_script c) + length (str_bytes txt))) istep (c, str_bytes txt))
      as [[[c1 b1]|[[c1 b1] r]]|]; cbn [inner_ok] in I.
    - rewrite I. apply IH.
    - destruct I as (e & -> & ->). reflexivity.
    - contradiction. }
  apply (L (S (S (length buf))) buf (ws_parser s)
           (mkCap (c_style (ws_capture s)) (c_printable (ws_capture s)) None) raw).
Qed.

Lemma g_wc_write_eq raw s buf : wconv_n (g_wc_write raw s buf) = wc_write s buf raw.
Proof.
  unfold g_wc_write, wc_write. rewrite <- g_wc_write_all_eq.
  destruct (g_wc_write_all raw s buf) as [[[c1 s1] r]|]; [|reflexivity].
  destruct r as [[]|e]; reflexivity.
Qed.

Lemma g_wc_write_fmt_eq raw s frags : wconv_u (g_wc_write_fmt raw s frags) = wc_write_fmt s frags raw.
Proof.
  unfold g_wc_write_fmt. cbv zeta.
  (* Adapter::new(closure).write_fmt(args), TRANSLATED (Generated/FmtFn.v), is the hand model's fmt_adapter_write_fmt *)
  rewrite (adapter_run _ _ (fun st r => let '(raw3, state3) := st in Some (raw3, state3, r))).
  revert raw s.
  induction frags as [|fr rest IH]; intros raw s; cbn [fmt_adapter_write_fmt wc_write_fmt]; [reflexivity|].
  rewrite <- g_wc_write_all_eq.
  destruct (g_wc_write_all raw s fr) as [[[c1 s1] r]|]; cbn [wconv_u]; [|reflexivity].
  destruct r as [[]|e]; cbn [sres_of_unit]; [|reflexivity].
  apply IH.
Qed.

(* write_vectored: `bufs.iter().find(|b| !b.is_empty()).map(|b| &**b).unwrap_or(&[][..])`, TRANSLATED, is first_nonempty *)
Lemma wc_find_nonempty_is_first_nonempty (bufs : list (list N)) :
  opt_unwrap_or (option_map (fun b => b) (find (fun b => negb (is_empty b)) bufs)) [] = first_nonempty bufs.
Proof. exact (find_nonempty_is_first_nonempty bufs). Qed.

Lemma g_wcs_write_vectored_first x bufs : g_wcs_write_vectored x bufs = g_wcs_write x (first_nonempty bufs).
Proof.
  unfold g_wcs_write_vectored. cbv zeta.
  match goal with
  | |- context [find ?p bufs] => rewrite (find_first_nonempty p bufs) by (intros [|? ?]; reflexivity)
  end.
  destruct (first_nonempty bufs); cbn [opt_unwrap_or option_map].
  all: match goal with |- context [g_wcs_write ?y ?b] => destruct (g_wcs_write y b) as [[? ?]|] end; reflexivity.
Qed.

Definition g_wcs_op (x : wcstream) (o : sop) : option (wcstream * sres) :=
  match o with
  | OWrite buf => '(x1, r) <- g_wcs_write x buf ;; Some (x1, sres_of_n r)
  | OWriteAll buf => '(x1, r) <- g_wcs_write_all x buf ;; Some (x1, sres_of_unit r)
  | OWriteVectored bufs => '(x1, r) <- g_wcs_write_vectored x bufs ;; Some (x1, sres_of_n r)
  | OWriteFmt frags => '(x1, r) <- g_wcs_write_fmt x frags ;; Some (x1, sres_of_unit r)
  | OFlush => let '(x1, r) := g_wcs_flush x in Some (x1, sres_of_unit r)
  end.

Fixpoint g_wcs_run (x : wcstream) (ops : list sop) : option (wcstream * list sres) :=
  match ops with
  | [] => Some (x, [])
  | o :: rest =>
      '(x1, r) <- g_wcs_op x o ;;
      '(x2, rs) <- g_wcs_run x1 rest ;;
      Some (x2, r :: rs)
  end.

Lemma g_wcs_op_eq x o :
  match g_wcs_op x o with Some (x1, r) => Some (wcs_state x1, wcs_raw x1, r) | None => None end
  = wc_op (wcs_state x) (wcs_raw x) o.
Proof.
  destruct o as [buf|buf|bufs|frags|]; cbn [g_wcs_op wc_op].
  - rewrite <- g_wc_write_eq. unfold g_wcs_write.
    destruct (g_wc_write (wcs_raw x) (wcs_state x) buf) as [[[? ?] ?]|]; reflexivity.
  - rewrite <- g_wc_write_all_eq. unfold g_wcs_write_all.
    destruct (g_wc_write_all (wcs_raw x) (wcs_state x) buf) as [[[? ?] ?]|]; reflexivity.
  - rewrite g_wcs_write_vectored_first. rewrite <- g_wc_write_eq. unfold g_wcs_write.
    destruct (g_wc_write (wcs_raw x) (wcs_state x) (first_nonempty bufs)) as [[[? ?] ?]|]; reflexivity.
  - rewrite <- g_wc_write_fmt_eq. unfold g_wcs_write_fmt.
    destruct (g_wc_write_fmt (wcs_raw x) (wcs_state x) frags) as [[[? ?] ?]|]; reflexivity.
  - reflexivity.
Qed.

Theorem translated_wincon_stream_is_model : forall ops x,
  match g_wcs_run x ops with Some (x1, rs) => Some (wcs_state x1, wcs_raw x1, rs) | None => None end
  = wc_run_ops (wcs_state x) (wcs_raw x) ops.
Proof.
  induction ops as [|o rest IH]; intros x; cbn [g_wcs_run wc_run_ops]; [reflexivity|].
  rewrite <- g_wcs_op_eq.
  destruct (g_wcs_op x o) as [[x1 r]|]; [|reflexivity].
  rewrite <- IH. destruct (g_wcs_run x1 rest) as [[x2 rs]|]; reflexivity.
Qed.

Lemma g_wcs_new_eq cf raw : g_wcs_new cf raw = mkWCS raw ws_new.
Proof. reflexivity. Qed.
Lemma g_wcs_into_inner_eq cf x : g_wcs_into_inner cf x = wcs_raw x.
Proof. reflexivity. Qed.
Lemma g_wcs_is_terminal_eq cf x : g_wcs_is_terminal cf x = ac_tty cf.
Proof. reflexivity. Qed.
(* `lock` hands the state at the time of the call to the locked stream, and the console it writes to is the same *)
Lemma g_wcs_lock_stdout_eq cf x : g_wcs_lock_stdout cf x = x.
Proof. destruct x; reflexivity. Qed.
Lemma g_wcs_lock_stderr_eq cf x : g_wcs_lock_stderr cf x = x.
Proof. destruct x; reflexivity. Qed.

Lemma g_wcs_run_app ops1 : forall ops2 x,
  g_wcs_run x (ops1 ++ ops2) =
  match g_wcs_run x ops1 with
  | Some (x1, rs1) => match g_wcs_run x1 ops2 with Some (x2, rs2) => Some (x2, rs1 ++ rs2) | None => None end
  | None => None
  end.
Proof.
  induction ops1 as [|o rest IH]; intros ops2 x; cbn [app g_wcs_run].
  - destruct (g_wcs_run x ops2) as [[x2 rs2]|]; reflexivity.
  - destruct (g_wcs_op x o) as [[x1 r]|]; [|reflexivity]. cbv beta iota. rewrite IH.
    destruct (g_wcs_run x1 rest) as [[x2 rs]|]; [|reflexivity]. cbv beta iota.
    destruct (g_wcs_run x2 ops2) as [[x3 rs3]|]; reflexivity.
Qed.

Theorem translated_wincon_lock_preserves_state : forall cf x ops1 ops2,
  match g_wcs_run x ops1 with
  | Some (x1, rs1) =>
      match g_wcs_run (g_wcs_lock_stdout cf x1) ops2 with Some (x2, rs2) => Some (x2, rs1 ++ rs2) | None => None end
  | None => None
  end = g_wcs_run x (ops1 ++ ops2) /\
  match g_wcs_run x ops1 with
  | Some (x1, rs1) =>
      match g_wcs_run (g_wcs_lock_stderr cf x1) ops2 with Some (x2, rs2) => Some (x2, rs1 ++ rs2) | None => None end
  | None => None
  end = g_wcs_run x (ops1 ++ ops2).
Proof.
  intros cf x ops1 ops2. rewrite g_wcs_run_app.
  destruct (g_wcs_run x ops1) as [[x1 rs1]|]; [|split; reflexivity].
  rewrite g_wcs_lock_stdout_eq, g_wcs_lock_stderr_eq. split; reflexivity.
Qed.

Theorem translated_wincon_new_run_into_inner : forall cf raw ops,
  match g_wcs_run (g_wcs_new cf raw) ops with
  | Some (x1, rs) => Some (wcs_state x1, g_wcs_into_inner cf x1, rs)
  | None => None
  end = wc_run_ops ws_new raw ops.
Proof. intros. rewrite g_wcs_new_eq. exact (translated_wincon_stream_is_model ops (mkWCS raw ws_new)). Qed.

(* the initial state `state: Default::default()` names (ws_new) is the TRANSLATED WinconBytes::new (Generated/WinconFn.v) *)
Lemma ws_new_is_translated_new : ws_new = mkWS (wb_parser g_wb_new) (wb_capture g_wb_new).
Proof. reflexivity. Qed.
