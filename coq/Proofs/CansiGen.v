(* cansi 2.2.1 (third party; src/{parsing.rs,categorise.rs,lib.rs} of the cargo registry copy pinned by Cargo.lock) as
   translated by tools/gen_fn_cansi.py (Generated/CansiFn.v) is extensionally equal to the hand model [rf_categorise]
   (Model/Roff.v) the theorems of C15 are about.

   The hand model is one left-to-right pass over the bytes (a three-state machine); the crate works in two passes
   over byte offsets: parse finds the CSI sequences (Match { start, end, text }), stepping over one char at a time
   elsewhere; categorise_text_v3 cuts the text between the matches and reads every sequence with handle_seq / adjust_sgr.
   [rf_matches] is the list of matches as a structural function of the remaining text; the parse loops equal it for
   every byte string; the categorise loop over [rf_matches] equals the state machine for every string of UTF-8 shaped
   chars ([rf_utf8_ok]: what a Rust &str holds) -- stepping by chars and stepping by bytes differ on other byte
   strings (a lead byte directly followed by ESC). *)
From Coq Require Import NArith Arith List Bool Lia.
From AV Require Model.Text.
From AV Require Import Model.Base Model.Imp Generated.Roff Model.Roff Generated.CansiFn Proofs.BaseFacts Proofs.Roff Proofs.CansiSgr.
Import ListNotations.
Local Open Scope N_scope.

#[local] Hint Rewrite @len_app @len_cons @len_nil : len.

Lemma slice_rest {A} (text pre s : list A) a : text = pre ++ s -> a = len pre -> slice text a (len text) = Some s.
Proof.
  intros Ht Ha. apply (slice_mid_eq text pre s []); [rewrite app_nil_r; exact Ht|exact Ha|]. subst text. apply len_app.
Qed.

Lemma len_cons_ne {A} (x : A) q a : a + len (x :: q) =? a = false.
Proof. apply N.eqb_neq. rewrite len_cons. lia. Qed.

Lemma g_cansi_terminated_byte_eq b : g_cansi_terminated_byte b = rf_terminated b.
Proof. reflexivity. Qed.

(* a Match as parse records it: ESC [ <parameter bytes> <terminating byte> *)
Lemma g_cansi_handle_seq_eq a e p tb :
  g_cansi_handle_seq (mkRfMatch a e (27 :: 91 :: p ++ [tb])) = Some (rf_handle_seq p).
Proof.
  unfold g_cansi_handle_seq. cbn [rfm_text].
  replace (len (27 :: 91 :: p ++ [tb])) with (len p + 3) by (autorewrite with len; lia).
  unfold csub. replace (1 <=? len p + 3) with true by (symmetry; apply N.leb_le; lia).
  rewrite (slice_mid_eq (27 :: 91 :: p ++ [tb]) [27; 91] p [tb]); [|reflexivity|reflexivity|autorewrite with len; lia].
  unfold rf_handle_seq, g_cansi_SEPARATOR. f_equal. apply fold_left_ext. exact g_cansi_adjust_sgr_eq.
Qed.

Fixpoint rf_csi_scan (r : list N) : option (list N * N * list N) :=
  match r with
  | [] => None
  | b :: t => if rf_terminated b then Some ([], b, t)
              else match rf_csi_scan t with Some (p, tb, r') => Some (b :: p, tb, r') | None => None end
  end.

Lemma rf_csi_scan_some r : forall p tb r', rf_csi_scan r = Some (p, tb, r') -> r = p ++ tb :: r' /\ rf_terminated tb = true.
Proof.
  induction r as [|b t IH]; intros p tb r' H; cbn [rf_csi_scan] in H; [discriminate|].
  destruct (rf_terminated b) eqn:T.
  - inversion H; subst. split; [reflexivity|exact T].
  - destruct (rf_csi_scan t) as [[[p0 tb0] r0]|]; [|discriminate]. inversion H; subst.
    destruct (IH _ _ _ eq_refl) as [-> HT]. split; [reflexivity|exact HT].
Qed.

(* the matches of parse as a function of the text that is left ([off] = its offset); [n] bounds the number of steps *)
Fixpoint rf_matches (n : nat) (off : N) (s : list N) : list rf_match :=
  match n with
  | O => []
  | S n' =>
      if rf_starts_with s [27; 91] then
        match rf_csi_scan (skipn 2 s) with
        | Some (p, tb, r') =>
            let e := off + 2 + len p + 1 in
            mkRfMatch off e (27 :: 91 :: p ++ [tb]) :: rf_matches n' e r'
        | None => []
        end
      else
        match rf_chars_next s with
        | Some c => rf_matches n' (off + len c) (skipn (length c) s)
        | None => []
        end
  end.

Lemma rf_starts_with_csi s : rf_starts_with s [27; 91] = true -> exists r, s = 27 :: 91 :: r.
Proof.
  destruct s as [|a [|b r]]; cbn [rf_starts_with]; intros H; try discriminate.
  - rewrite andb_false_r in H. discriminate.
  - apply andb_true_iff in H as [H1 H2]. apply andb_true_iff in H2 as [H2 _]. apply N.eqb_eq in H1, H2. subst. exists r. reflexivity.
Qed.

Lemma rf_utf8_width_pos b : exists k, N.to_nat (rf_utf8_width b) = S k.
Proof.
  unfold rf_utf8_width.
  destruct (b <? 128); [exists 0%nat; reflexivity|].
  destruct (b <? 224); [exists 1%nat; reflexivity|].
  destruct (b <? 240); [exists 2%nat|exists 3%nat]; reflexivity.
Qed.

(* the inner loop: `while end < text.len() && !terminated_byte(text.as_bytes()[end]) { end += 1 }`, for any closure
   [F] that is that step; [e0] is the offset of what is left to scan *)
Lemma cansi_inner_loop text F :
  (forall e, F e = (v <- (if e <? len text then el <- aget text e ;; Some (negb (g_cansi_terminated_byte el)) else Some false) ;;
                    if v then Some (BNext (e + 1)) else Some (BBreak e))) ->
  forall r pre fuel e0, text = pre ++ r -> e0 = len pre -> (length r < fuel)%nat ->
  while_fuel0 fuel F e0 =
  Some (match rf_csi_scan r with Some (p, _, _) => e0 + len p | None => len text end).
Proof.
  intros HF. induction r as [|b t IH]; intros pre fuel e0 Ht -> Hf.
  all: destruct fuel as [|fuel]; [lia|].
  all: cbn [while_fuel0]; rewrite HF.
  - subst text. rewrite app_nil_r, N.ltb_irrefl. reflexivity.
  - replace (len pre <? len text) with true by (symmetry; apply N.ltb_lt; subst text; autorewrite with len; lia).
    subst text. rewrite aget_mid. cbn [rf_csi_scan]. rewrite g_cansi_terminated_byte_eq.
    destruct (rf_terminated b); cbn [negb]; [rewrite len_nil, N.add_0_r; reflexivity|].
    rewrite (IH (pre ++ [b]) fuel (len pre + 1)); [|rewrite <- app_assoc; reflexivity|autorewrite with len; lia|cbn [length] in Hf; lia].
    destruct (rf_csi_scan t) as [[[p tb] r']|]; [|reflexivity]. autorewrite with len. f_equal. lia.
Qed.

Lemma rf_matches_short n off s : (length s < 2)%nat -> rf_matches n off s = [].
Proof.
  intros H. destruct n as [|n]; [reflexivity|]. destruct s as [|b [|c s]]; cbn [length] in H; try lia.
  - reflexivity.
  - cbn [rf_matches rf_starts_with]. rewrite andb_false_r. cbn [rf_chars_next].
    destruct (rf_utf8_width_pos b) as [k ->]. cbn [firstn length skipn]. destruct k; cbn [firstn length skipn];
      (destruct n as [|n]; reflexivity).
Qed.

Definition parse_v (st : list rf_match * list N * N * N) : list rf_match := fst (fst (fst st)).

Theorem g_cansi_parse_eq text : g_cansi_parse text = Some (rf_matches (S (S (length text))) 0 text).
Proof.
  unfold g_cansi_parse. cbv zeta.
  match goal with |- context [while_fuel0 _ ?f ([], text, 0, _)] => set (step := f) end.
  assert (L : forall fuel v pre s a, text = pre ++ s -> a = len pre -> (length s < fuel)%nat ->
              option_map parse_v (while_fuel0 fuel step (v, s, a, a + 2)) = Some (v ++ rf_matches fuel a s)).
  { induction fuel as [|f IH]; intros v pre s a Ht Ha Hf; [lia|].
    cbn [while_fuel0]. unfold step at 1. cbv zeta.
    assert (Hlen : len text = a + len s) by (subst text a; apply len_app).
    destruct (a + 2 <=? len text) eqn:E2.
    2:{ cbn [option_map parse_v fst]. apply N.leb_gt in E2.
        rewrite rf_matches_short by (unfold len in *; lia). rewrite app_nil_r. reflexivity. }
    apply N.leb_le in E2. change g_cansi_CSI with [27; 91]. change (len [27; 91]) with 2.
    destruct (rf_starts_with s [27; 91]) eqn:ES.
    - destruct (rf_starts_with_csi s ES) as [r ->].
      match goal with |- context [while_fuel0 _ ?F (a + 2)] =>
        rewrite (cansi_inner_loop text F (fun _ => eq_refl) r (pre ++ [27; 91]) (S (length text)) (a + 2))
      end.
      2:{ rewrite <- app_assoc. exact Ht. }
      2:{ rewrite len_app, Ha. reflexivity. }
      2:{ subst text. rewrite app_length. cbn [length]. lia. }
      cbn [rf_matches]. rewrite ES. cbn [skipn].
      destruct (rf_csi_scan r) as [[[p tb] r']|] eqn:SC.
      + destruct (rf_csi_scan_some r p tb r' SC) as [-> _]. set (m := 27 :: 91 :: p ++ [tb]).
        assert (Ht' : text = pre ++ m ++ r').
        { rewrite Ht. unfold m. cbn [app]. rewrite <- app_assoc. reflexivity. }
        assert (He : a + 2 + len p + 1 = len (pre ++ m)) by (unfold m; autorewrite with len; lia).
        replace (len text <? a + 2 + len p + 1) with false
          by (symmetry; apply N.ltb_ge; rewrite He, Ht'; autorewrite with len; lia).
        rewrite (slice_mid_eq text pre m r' a (a + 2 + len p + 1) Ht' Ha). 2:{ rewrite He. apply len_app. }
        rewrite (slice_rest text (pre ++ m) r') by (rewrite <- ?app_assoc; assumption).
        rewrite (IH (v ++ [mkRfMatch a (a + 2 + len p + 1) m]) (pre ++ m) r' (a + 2 + len p + 1)).
        * rewrite <- app_assoc. reflexivity.
        * rewrite <- app_assoc. exact Ht'.
        * exact He.
        * cbn [length] in Hf. rewrite app_length in Hf. cbn [length] in Hf. lia.
      + replace (len text <? len text + 1) with true by (symmetry; apply N.ltb_lt; lia).
        cbn [option_map parse_v fst]. rewrite app_nil_r. reflexivity.
    - destruct s as [|b t]; [unfold len in *; cbn [length] in *; lia|].
      cbn [rf_matches]. rewrite ES. cbn [rf_chars_next]. set (c := firstn (N.to_nat (rf_utf8_width b)) (b :: t)).
      assert (Hc : b :: t = c ++ skipn (length c) (b :: t)).
      { unfold c. rewrite firstn_length. rewrite <- (firstn_skipn (N.to_nat (rf_utf8_width b)) (b :: t)) at 1.
        f_equal. destruct (Nat.min_spec (N.to_nat (rf_utf8_width b)) (length (b :: t))) as [[_ ->]|[Hge ->]]; [reflexivity|].
        rewrite !skipn_all2 by lia. reflexivity. }
      assert (Hcpos : (1 <= length c)%nat).
      { unfold c. destruct (rf_utf8_width_pos b) as [k ->]. cbn [firstn length]. lia. }
      unfold rf_char_len_utf8. fold (len c).
      assert (Ht' : text = (pre ++ c) ++ skipn (length c) (b :: t)) by (rewrite <- app_assoc, <- Hc; exact Ht).
      assert (Ha' : a + len c = len (pre ++ c)) by (rewrite len_app, Ha; reflexivity).
      rewrite (slice_rest text (pre ++ c) _ _ Ht' Ha').
      rewrite (IH v (pre ++ c) _ _ Ht' Ha'); [reflexivity|].
      rewrite skipn_length. cbn [length] in Hf |- *. lia. }
  specialize (L (S (S (length text))) [] [] text 0 eq_refl eq_refl ltac:(lia)).
  change (0 + len g_cansi_CSI) with (0 + 2).
  destruct (while_fuel0 (S (S (length text))) step ([], text, 0, 0 + 2)) as [[[[v6 s4] a] b]|]; cbn [option_map parse_v fst] in L; [|discriminate].
  inversion L. reflexivity.
Qed.

(* a string of UTF-8 shaped chars: every char is a lead byte announcing its width followed by width - 1 bytes >= 128 (0x80)
   (implied by UTF-8 validity, hence by the type &str) *)
Inductive rf_utf8_ok : list N -> Prop :=
  | U8nil : rf_utf8_ok []
  | U8char b cs t : length (b :: cs) = N.to_nat (rf_utf8_width b) -> Forall (fun c => 128 <= c) cs ->
                    rf_utf8_ok t -> rf_utf8_ok (b :: cs ++ t).

Lemma rf_utf8_ascii b cs : length (b :: cs) = N.to_nat (rf_utf8_width b) -> b < 128 -> cs = [].
Proof.
  unfold rf_utf8_width. intros H Hb. apply N.ltb_lt in Hb. rewrite Hb in H. cbn [length] in H.
  destruct cs; [reflexivity|cbn [length] in H; lia].
Qed.

(* an ASCII byte is a char of its own *)
Lemma rf_utf8_ok_after_ascii l : rf_utf8_ok l -> forall p b t, l = p ++ b :: t -> b < 128 -> rf_utf8_ok t.
Proof.
  induction 1 as [|b0 cs t0 Hw Hcs Hok IH]; intros p b t E Hb.
  - destruct p; discriminate.
  - destruct p as [|x p]; cbn [app] in E; injection E as E1 E2.
    + subst b0. rewrite (rf_utf8_ascii b cs Hw Hb) in E2. cbn [app] in E2. subst t0. exact Hok.
    + apply app_eq_app in E2 as [l [[Ea Eb]|[Ea Eb]]].
      * destruct l as [|y l].
        -- cbn [app] in Eb. apply (IH [] b t); [symmetry; exact Eb|exact Hb].
        -- cbn [app] in Eb. inversion Eb; subst. apply Forall_app in Hcs as [_ Hcs]. inversion Hcs; subst. lia.
      * exact (IH l b t Eb Hb).
Qed.

Lemma cat_go_high sgr cs : forall pend t, Forall (fun c => 128 <= c) cs ->
  rf_cat_go RfInText sgr pend (cs ++ t) = rf_cat_go RfInText sgr (rev cs ++ pend) t.
Proof. intros pend t H. apply rf_cat_text. intros Hin. apply (proj1 (Forall_forall _ _) H) in Hin. lia. Qed.

Lemma cat_go_saw_esc sgr pend t : rf_starts_with (27 :: t) [27; 91] = false ->
  rf_cat_go RfSawEsc sgr pend t = rf_cat_go RfInText sgr (27 :: pend) t.
Proof.
  destruct t as [|b t]; [reflexivity|]. cbn [rf_cat_go]. intros H. destruct (b =? 91) eqn:E.
  - apply N.eqb_eq in E. subst b. cbn [rf_starts_with] in H. rewrite !N.eqb_refl in H. destruct t; discriminate H.
  - destruct (b =? 27); reflexivity.
Qed.

Lemma cat_go_csi sgr pend r : forall acc,
  rf_cat_go (RfInCsi acc) sgr pend r =
  match rf_csi_scan r with
  | Some (p, _, r') => rf_flush sgr pend ++ rf_cat_go RfInText (rf_handle_seq (rev (rev p ++ acc))) [] r'
  | None => rf_flush sgr (rev r ++ acc ++ 91 :: 27 :: pend)
  end.
Proof.
  induction r as [|b t IH]; intros acc; cbn [rf_cat_go rf_csi_scan]; [reflexivity|].
  destruct (rf_terminated b); [reflexivity|]. rewrite IH.
  destruct (rf_csi_scan t) as [[[p tb] r']|]; cbn [rev]; rewrite <- app_assoc; reflexivity.
Qed.

Lemma g_cansi_with_sgr_eq sgr text a b : g_cansi_with_sgr sgr text a b = (sgr, text).
Proof. destruct sgr. reflexivity. Qed.

(* the tail of categorise_text_v3: the text after the last match *)
Definition cat_fin (text : list N) (o : option (rf_sgr * N * list rf_cat)) : option (list rf_cat) :=
  match o with
  | None => None
  | Some (sgr, lo, slices) =>
      if negb (lo =? len text)
      then sl <- slice text lo (len text) ;; Some (slices ++ [g_cansi_with_sgr sgr sl lo (len text)]) else Some slices
  end.

(* `if lo != hi { slices.push(with_sgr(sgr, &text[lo..hi], lo, hi)) }` for the text [q] collected so far *)
Lemma cat_push text pre q post sgr (slices : list rf_cat) : text = pre ++ q ++ post ->
  (if negb (len pre + len q =? len pre)
   then sl <- slice text (len pre) (len pre + len q) ;; Some (slices ++ [g_cansi_with_sgr sgr sl (len pre) (len pre + len q)])
   else Some slices) = Some (slices ++ rf_flush sgr (rev q)).
Proof.
  intros Ht. rewrite rf_flush_rev. destruct q as [|x q].
  - rewrite len_nil, N.add_0_r, N.eqb_refl, app_nil_r. reflexivity.
  - rewrite len_cons_ne. cbn [negb]. rewrite (slice_mid_eq text pre (x :: q) post _ _ Ht eq_refl eq_refl), g_cansi_with_sgr_eq. reflexivity.
Qed.

Theorem g_cansi_categorise_text_eq text : rf_utf8_ok text -> g_cansi_categorise_text text = Some (rf_categorise text).
Proof.
  intros Hok. unfold g_cansi_categorise_text. rewrite g_cansi_parse_eq. cbv zeta.
  match goal with |- context [for_list0 ?f _ _] => set (step := f) end.
  (* [q]: the text since the last match, [pend] of the machine; [pre]: everything before it *)
  assert (C : forall n s pre q sgr slices lo off, text = pre ++ q ++ s -> rf_utf8_ok s -> (length s < n)%nat ->
              lo = len pre -> off = len pre + len q ->
              cat_fin text (for_list0 step (rf_matches n off s) (sgr, lo, slices)) =
              Some (slices ++ rf_cat_go RfInText sgr (rev q) s)).
  { induction n as [|n IH]; intros s pre q sgr slices lo off Ht Hs Hn -> ->; [lia|].
    inversion Hs as [|b cs t Hw Hcs Ht0]; subst s.
    - (* the end of the text *)
      cbn [rf_matches rf_starts_with rf_chars_next for_list0 cat_fin rf_cat_go].
      replace (len text) with (len pre + len q) by (subst text; autorewrite with len; lia).
      rewrite (N.eqb_sym (len pre)). exact (cat_push text pre q [] sgr slices Ht).
    - cbn [rf_matches]. destruct (rf_starts_with (b :: cs ++ t) [27; 91]) eqn:ES.
      + (* a CSI sequence *)
        destruct (rf_starts_with_csi _ ES) as [r Er]. inversion Er as [[Eb Er']]. subst b.
        rewrite (rf_utf8_ascii 27 cs Hw) in * by lia. cbn [app] in *. subst t. cbn [skipn].
        cbn [rf_cat_go]. rewrite N.eqb_refl. cbn [rf_cat_go]. rewrite N.eqb_refl. rewrite cat_go_csi.
        destruct (rf_csi_scan r) as [[[p tb] r']|] eqn:SC.
        * destruct (rf_csi_scan_some r p tb r' SC) as [-> HT]. rewrite app_nil_r, rev_involutive.
          cbn [for_list0]. unfold step at 1. cbn [rfm_start rfm_end].
          rewrite g_cansi_handle_seq_eq, (cat_push text pre q _ sgr slices Ht). set (m := 27 :: 91 :: p ++ [tb]).
          assert (Hok' : rf_utf8_ok r').
          { apply (rf_utf8_ok_after_ascii _ Ht0 (91 :: p) tb r' eq_refl). unfold rf_terminated in HT.
            apply andb_true_iff in HT as [_ HT]. apply N.leb_le in HT. lia. }
          assert (Ht' : text = (pre ++ q ++ m) ++ [] ++ r').
          { rewrite Ht. unfold m. cbn [app]. rewrite <- !app_assoc. cbn [app]. rewrite <- app_assoc. reflexivity. }
          assert (He : len pre + len q + 2 + len p + 1 = len (pre ++ q ++ m)) by (unfold m; autorewrite with len; lia).
          assert (Hn' : (length r' < n)%nat) by (cbn [length] in Hn; rewrite app_length in Hn; cbn [length] in Hn; lia).
          rewrite (IH r' _ [] _ _ _ _ Ht' Hok' Hn' He) by (rewrite He, len_nil, N.add_0_r; reflexivity).
          cbn [rev app]. rewrite <- app_assoc. reflexivity.
        * (* never terminated: all of it is text *)
          cbn [for_list0 cat_fin app].
          replace (len pre =? len text) with false
            by (symmetry; apply N.eqb_neq; subst text; autorewrite with len; lia).
          cbn [negb]. rewrite (slice_rest text pre (q ++ 27 :: 91 :: r) _ Ht eq_refl), g_cansi_with_sgr_eq.
          do 2 f_equal. unfold rf_flush.
          destruct (rev r ++ 91 :: 27 :: rev q) eqn:E; [destruct (rev r); discriminate|]. rewrite <- E.
          rewrite rev_app_distr. cbn [rev]. rewrite rev_involutive, rev_involutive, <- !app_assoc. reflexivity.
      + (* one char of text *)
        assert (Hc : firstn (N.to_nat (rf_utf8_width b)) (b :: cs ++ t) = b :: cs).
        { rewrite <- Hw. change (b :: cs ++ t) with ((b :: cs) ++ t). rewrite firstn_app, firstn_all, Nat.sub_diag. cbn [firstn]. apply app_nil_r. }
        cbn [rf_chars_next]. rewrite Hc. change (b :: cs ++ t) with ((b :: cs) ++ t) at 1.
        rewrite skipn_app, skipn_all, Nat.sub_diag. cbn [skipn app].
        rewrite (IH t pre (q ++ b :: cs) _ _ (len pre) _).
        * do 2 f_equal. rewrite rev_app_distr. cbn [rev]. rewrite <- app_assoc. cbn [app rf_cat_go].
          destruct (b =? 27) eqn:Eb.
          -- apply N.eqb_eq in Eb. subst b. rewrite (rf_utf8_ascii 27 cs Hw) in * by lia. cbn [app rev] in *.
             symmetry. apply cat_go_saw_esc. exact ES.
          -- symmetry. apply cat_go_high. exact Hcs.
        * rewrite Ht, <- !app_assoc. reflexivity.
        * exact Ht0.
        * cbn [length] in Hn. rewrite app_length in Hn. lia.
        * reflexivity.
        * rewrite len_app. lia. }
  specialize (C (S (S (length text))) text [] [] rf_sgr_default [] 0 0 eq_refl Hok ltac:(lia) eq_refl eq_refl).
  destruct (for_list0 step (rf_matches (S (S (length text))) 0 text) (rf_sgr_default, 0, [])) as [[[sg lo] sl]|];
    [|discriminate C].
  cbn [cat_fin] in C. destruct (negb (lo =? len text)); [destruct (slice text lo (len text))|]; exact C.
Qed.

(* the UTF-8 encoding of ANY list of code points (Model/Text.v [str_bytes], the development's notion of the bytes of
   a Rust string) is a string of UTF-8 shaped chars *)
Lemma rf_utf8_width_lead :
  (forall d, d < 32 -> rf_utf8_width (192 + d) = 2) /\ (forall d, d < 16 -> rf_utf8_width (224 + d) = 3) /\
  (forall d, rf_utf8_width (240 + d) = 4).
Proof.
  unfold rf_utf8_width. repeat split; intros d; intros;
    rewrite ?(proj2 (N.ltb_ge _ _)) by lia; rewrite ?(proj2 (N.ltb_lt _ _)) by lia; reflexivity.
Qed.

Lemma rf_utf8_ok_encode c t : rf_utf8_ok t -> rf_utf8_ok (Model.Text.utf8_encode c ++ t).
Proof.
  intros Ht. destruct rf_utf8_width_lead as (W2 & W3 & W4). unfold Model.Text.utf8_encode.
  assert (K : forall l, Forall (fun x => 128 <= x) (map (N.add 128) l))
    by (intros l; apply Forall_forall; intros x Hx; apply in_map_iff in Hx as [y [<- _]]; apply N.le_add_r).
  destruct (c <? 128) eqn:E1.
  - apply (U8char c [] t); [|constructor|exact Ht]. unfold rf_utf8_width. rewrite E1. reflexivity.
  - apply N.ltb_ge in E1. destruct (c <? 2048) eqn:E2; [|destruct (c <? 65536) eqn:E3].
    + apply N.ltb_lt in E2. apply (U8char _ (map (N.add 128) [_]) t); [|apply K|exact Ht].
      rewrite W2 by (apply N.div_lt_upper_bound; lia). reflexivity.
    + apply N.ltb_lt in E3. apply (U8char _ (map (N.add 128) [_; _]) t); [|apply K|exact Ht].
      rewrite W3 by (apply N.div_lt_upper_bound; lia). reflexivity.
    + apply (U8char _ (map (N.add 128) [_; _; _]) t); [|apply K|exact Ht]. rewrite W4. reflexivity.
Qed.

Theorem rf_utf8_ok_str_bytes w : rf_utf8_ok (Model.Text.str_bytes w).
Proof.
  unfold Model.Text.str_bytes. induction w as [|c w IH]; [constructor|]. cbn [flat_map]. apply rf_utf8_ok_encode. exact IH.
Qed.

Lemma rf_utf8_ok_ascii l : Forall (fun b => b < 128) l -> rf_utf8_ok l.
Proof.
  induction 1 as [|b t Hb _ IH]; [constructor|]. apply (U8char b [] t); [|constructor|exact IH].
  unfold rf_utf8_width. apply N.ltb_lt in Hb. rewrite Hb. reflexivity.
Qed.

(* cansi::v3::categorise_text as translated IS the hand model's one-pass categoriser, on every Rust string *)
Theorem translated_cansi_categorise_is_model : forall w : list N,
  g_cansi_categorise_text (Model.Text.str_bytes w) = Some (rf_categorise (Model.Text.str_bytes w)).
Proof. intros w. apply g_cansi_categorise_text_eq. apply rf_utf8_ok_str_bytes. Qed.

(* what anstyle_roff::to_roff(text).to_roff() computes when cansi is the TRANSLATED crate: the translated categoriser,
   the lines of anstyle-roff (hand model [rf_doc_lines], itself proved equal to the translated lib.rs in
   Proofs/RoffGen.v), roff's renderer -- is the hand model the theorems of C15 are about *)
Theorem translated_cansi_to_roff_is_model : forall input : list N, rf_utf8_ok input ->
  (cs <- g_cansi_categorise_text input ;; ls <- rf_doc_lines cs ;; Some (rf_render ls)) = rf_to_roff input.
Proof. intros input H. rewrite (g_cansi_categorise_text_eq input H). reflexivity. Qed.
