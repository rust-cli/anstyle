(* Proofs/StripStr.v -- the text scanner next_str: it computes "filter kept" under
   a byte-at-a-time machine over (state, previous byte kept?) and leaves that
   machine's state behind.  On valid UTF-8 that machine and the machine of
   Proofs/StripMachine.v keep the same bytes, so what holds of strip_bytes holds of
   strip_str. *)
From Coq Require Import NArith Arith List Bool Lia.
From AV Require Import Generated.Table Spec.Utf8 Spec.Vt Spec.Strip
  Model.Base Model.Utf8parse Model.Parser Model.Strip Proofs.TableFacts Proofs.StripMachine Proofs.StripSim.
Import ListNotations.
Local Open Scope N_scope.

(* UTF-8 validity as a step function *)
Definition vnext (vu : option ustate) (b : N) : option (option ustate) :=
  match vu with
  | None => if b <? 128 then Some None
            else match utf8_lead b with Some u => Some (Some u) | None => None end
  | Some u => match utf8_cont u b with
              | UMore u' => Some (Some u')
              | UDone => Some None
              | UBad => None
              end
  end.

Lemma valid_from_cons vu b rest :
  valid_from vu (b :: rest) = match vnext vu b with Some vu' => valid_from vu' rest | None => false end.
Proof.
  cbn [valid_from]. unfold vnext. destruct vu as [u|].
  - destruct (utf8_cont u b); reflexivity.
  - destruct (b <? 128); [reflexivity|]. destruct (utf8_lead b); reflexivity.
Qed.

Lemma valid_from_app : forall a b vu,
  valid_from vu a = true -> valid_from vu (a ++ b) = valid_from None b.
Proof.
  induction a as [|x a IH]; intros b vu H.
  - cbn [valid_from] in H. destruct vu; [discriminate|]. reflexivity.
  - cbn [app]. rewrite valid_from_cons in *. destruct (vnext vu x) as [vu'|]; [|discriminate].
    now apply IH.
Qed.

Lemma valid_concat : forall chunks,
  Forall (fun c => valid_utf8 c = true) chunks -> valid_utf8 (concat chunks) = true.
Proof.
  induction chunks as [|c cs IH]; intros H; [reflexivity|].
  apply Forall_cons_iff in H as [Hc Hcs]. cbn [concat]. unfold valid_utf8 in *.
  rewrite valid_from_app; auto.
Qed.

(* the first column of Table 3-7 *)
Lemma utf8_lead_cases a u : utf8_lead a = Some u ->
  match u with
  | UTail1 => 194 <= a <= 223
  | UE0 => a = 224
  | UTail2 => 225 <= a <= 236 \/ 238 <= a <= 239
  | UED => a = 237
  | UF0 => a = 240
  | UTail3 => 241 <= a <= 243
  | UF4 => a = 244
  end.
Proof.
  unfold utf8_lead.
  repeat match goal with |- context [if ?c then _ else _] => destruct c eqn:? end;
    intros H; try discriminate H; injection H as <-; unfold in_range in *; tests_to_props; lia.
Qed.

Lemma lead_range b u : utf8_lead b = Some u -> 194 <= b <= 244.
Proof. intros H. apply utf8_lead_cases in H. destruct u; lia. Qed.

Lemma not_cont_low b : b < 128 -> is_utf8_continuation b = false.
Proof. intros H. apply andb_false_iff. left. apply N.leb_gt, H. Qed.

Lemma not_cont_high b : 192 <= b -> is_utf8_continuation b = false.
Proof. intros H. apply andb_false_iff. right. apply N.leb_gt. lia. Qed.

(* The validity DFA sorts the bytes it accepts into three kinds: inside a character a
   byte in 80..BF (every row of Table 3-7 asks for one); between characters a 7-bit
   byte, which is a character, or a lead byte, which begins one. *)
Lemma vnext_cont u b vu' :
  vnext (Some u) b = Some vu' -> is_utf8_continuation b = true /\ is_ascii b = false.
Proof.
  cbn [vnext]. intros H.
  assert (Hr : 128 <= b <= 191).
  { destruct u; cbn [utf8_cont] in H;
      match type of H with match (if ?c then _ else _) with _ => _ end = _ => destruct c eqn:E end;
      try discriminate H; unfold in_range in *; tests_to_props; lia. }
  split; [apply andb_true_iff; split; apply N.leb_le; lia|apply N.ltb_ge; lia].
Qed.

Lemma vnext_boundary vu b vu' : vnext vu b = Some vu' -> is_utf8_continuation b = false -> vu = None.
Proof.
  intros H Hc. destruct vu as [u|]; [|reflexivity]. destruct (vnext_cont _ _ _ H). congruence.
Qed.

Lemma vnext_ascii vu b vu' : vnext vu b = Some vu' -> is_ascii b = true -> vu' = None.
Proof.
  intros H Ha. rewrite (vnext_boundary _ _ _ H (not_cont_low b (proj1 (N.ltb_lt _ _) Ha))) in H.
  cbn [vnext] in H. unfold is_ascii in Ha. rewrite Ha in H. congruence.
Qed.

Lemma vnext_lead b vu' :
  vnext None b = Some vu' -> is_ascii b = false ->
  exists u, utf8_lead b = Some u /\ vu' = Some u /\ is_utf8_continuation b = false.
Proof.
  intros H Ha. cbn [vnext] in H. unfold is_ascii in Ha. rewrite Ha in H.
  destruct (utf8_lead b) as [u|] eqn:Hl; [|discriminate].
  injection H as <-. exists u. repeat split. apply lead_range in Hl. apply not_cont_high. lia.
Qed.

Lemma boundary_not_cont b vu' : vnext None b = Some vu' -> is_utf8_continuation b = false.
Proof.
  intros H. destruct (is_ascii b) eqn:Ha; [apply not_cont_low, N.ltb_lt, Ha|].
  now destruct (vnext_lead _ _ H Ha) as (u & _ & _ & Hc).
Qed.

(* every chunk handed to the text API starts at a character boundary *)
Definition starts_clean (bs : list N) : Prop :=
  match bs with b :: _ => is_utf8_continuation b = false | [] => True end.

Lemma valid_starts_clean c : valid_utf8 c = true -> starts_clean c.
Proof.
  destruct c as [|b r]; [intros; exact I|]. unfold valid_utf8. rewrite valid_from_cons.
  destruct (vnext None b) eqn:E; [|discriminate]. intros _. exact (boundary_not_cont _ _ E).
Qed.

(* next_str's state update: a target of Anywhere or Utf8 leaves the state (the text
   scanner never enters Utf8: the bytes of a character ride along through
   `is_utf8_continuation`) *)
Definition upd (st ns : state) : state :=
  if negb (state_eqb ns Anywhere) && negb (state_eqb ns Utf8) then ns else st.

(* [tk]: the previous byte was kept (a UTF-8 continuation byte then rides along);
   answers the state and whether this byte is kept *)
Definition sstep (st : state) (tk : bool) (b : N) : option (state * bool) :=
  '(ns, a) <- state_change st b ;;
  if is_printable_bytes a b then Some (upd st ns, true)
  else if tk && is_utf8_continuation b then Some (st, true)
  else Some (upd st ns, false).

Fixpoint srun (st : state) (tk : bool) (bs : list N) : option (state * bool * list N) :=
  match bs with
  | [] => Some (st, tk, [])
  | b :: rest =>
      '(st1, k) <- sstep st tk b ;;
      '(st2, tk2, out) <- srun st1 k rest ;;
      Some (st2, tk2, if k then b :: out else out)
  end.

Lemma srun_app : forall a b st tk st1 tk1 o1,
  srun st tk a = Some (st1, tk1, o1) ->
  srun st tk (a ++ b) =
    match srun st1 tk1 b with
    | Some (st2, tk2, o2) => Some (st2, tk2, o1 ++ o2)
    | None => None
    end.
Proof.
  induction a as [|x a IH]; intros b st tk st1 tk1 o1 H; cbn [srun app] in *.
  - injection H as <- <- <-. destruct (srun st tk b) as [[[? ?] ?]|]; reflexivity.
  - destruct (sstep st tk x) as [[sx k]|]; [|discriminate].
    destruct (srun sx k a) as [[[sa ta] oa]|] eqn:Ha; [|discriminate].
    injection H as -> -> <-. rewrite (IH b _ _ _ _ _ Ha).
    destruct (srun st1 tk1 b) as [[[? ?] ?]|]; [|reflexivity].
    destruct k; reflexivity.
Qed.

Lemma printable_not_cont st b ns a :
  b < 256 -> state_change st b = Some (ns, a) -> is_printable_bytes a b = true ->
  is_utf8_continuation b = false.
Proof.
  intros Hb Hsc Hp. destruct (printable_entry _ _ _ _ Hb Hsc Hp) as [[_ Ha]|(_ & _ & _ & Hc & _)]; [|exact Hc].
  apply not_cont_low, N.ltb_lt, Ha.
Qed.

Lemma sstep_total st tk b : b < 256 -> exists x, sstep st tk b = Some x.
Proof.
  intros Hb. unfold sstep. destruct (state_change_total st b Hb) as (ns & a & ->).
  destruct (is_printable_bytes a b); [|destruct (tk && is_utf8_continuation b)]; eauto.
Qed.

Lemma sstep_kept st tk b st1 : b < 256 -> sstep st tk b = Some (st1, true) -> st1 = st.
Proof.
  intros Hb. unfold sstep. destruct (state_change st b) as [[ns a]|] eqn:Hsc; [|discriminate].
  destruct (is_printable_bytes a b) eqn:Hp.
  - intros H. injection H as <-. unfold upd.
    destruct (printable_entry _ _ _ _ Hb Hsc Hp) as [[-> _]|(-> & _)]; reflexivity.
  - destruct (tk && is_utf8_continuation b); congruence.
Qed.

Lemma sstep_clean st tk b :
  (tk = true -> is_utf8_continuation b = false) -> sstep st tk b = sstep st false b.
Proof. intros H. destruct tk; [|reflexivity]. unfold sstep. now rewrite (H eq_refl). Qed.

Lemma sstep_printable st b s tk : sstep st false b = Some (s, true) -> sstep st tk b = Some (s, true).
Proof.
  unfold sstep. destruct (state_change st b) as [[ns a]|]; [|discriminate].
  destruct (is_printable_bytes a b); [trivial|discriminate].
Qed.

Lemma ns_take_cons b rest st :
  ns_take (b :: rest) st =
  match sstep st true b with
  | Some (_, true) => '(t, r) <- ns_take rest st ;; Some (b :: t, r)
  | Some (_, false) => Some ([], b :: rest)
  | None => None
  end.
Proof.
  cbn [ns_take]. unfold sstep. destruct (state_change st b) as [[ns a]|]; [|reflexivity].
  destruct (is_printable_bytes a b); [reflexivity|]. cbn [orb andb].
  destruct (is_utf8_continuation b); reflexivity.
Qed.

Lemma ns_skip_cons b rest st :
  ns_skip (b :: rest) st =
  match sstep st false b with
  | Some (st1, true) => Some (b :: rest, st1)
  | Some (st1, false) => ns_skip rest st1
  | None => None
  end.
Proof.
  cbn [ns_skip]. unfold sstep, upd. destruct (state_change st b) as [[ns a]|]; [|reflexivity].
  destruct (is_printable_bytes a b); reflexivity.
Qed.

Lemma ns_take_cut : forall bs st t r, ns_take bs st = Some (t, r) -> bs = t ++ r /\ starts_clean r.
Proof.
  induction bs as [|b bs IH]; intros st t r H.
  - injection H as <- <-. split; [reflexivity|exact I].
  - rewrite ns_take_cons in H. destruct (sstep st true b) as [[? [|]]|] eqn:Hs; [| |discriminate].
    + destruct (ns_take bs st) as [[t1 r1]|] eqn:Ht; [|discriminate].
      injection H as <- <-. destruct (IH _ _ _ Ht) as [-> Hc]. split; [reflexivity|exact Hc].
    + injection H as <- <-. split; [reflexivity|]. cbn. unfold sstep in Hs.
      destruct (state_change st b) as [[ns a]|]; [|discriminate].
      destruct (is_printable_bytes a b); [discriminate|].
      destruct (is_utf8_continuation b); [discriminate|reflexivity].
Qed.

Lemma ns_take_spec : forall bs st t r,
  bytes_ok bs -> ns_take bs st = Some (t, r) -> srun st true t = Some (st, true, t).
Proof.
  induction bs as [|b bs IH]; intros st t r Hok H.
  - injection H as <- _. reflexivity.
  - rewrite ns_take_cons in H. apply bytes_ok_cons in Hok as [Hb Hok'].
    destruct (sstep st true b) as [[s1 [|]]|] eqn:Hs; [| |discriminate].
    + destruct (ns_take bs st) as [[t1 r1]|] eqn:Ht; [|discriminate].
      injection H as <- _. cbn [srun]. rewrite Hs, (sstep_kept _ _ _ _ Hb Hs), (IH _ _ _ Hok' Ht). reflexivity.
    + injection H as <- _. reflexivity.
Qed.

Lemma ns_skip_suffix : forall bs st bs1 st1,
  ns_skip bs st = Some (bs1, st1) -> exists pre, bs = pre ++ bs1.
Proof.
  induction bs as [|b bs IH]; intros st bs1 st1 H.
  - injection H as <- _. exists []. reflexivity.
  - rewrite ns_skip_cons in H. destruct (sstep st false b) as [[s1 [|]]|]; [| |discriminate].
    + injection H as <- _. exists []. reflexivity.
    + destruct (IH _ _ _ H) as [pre ->]. exists (b :: pre). reflexivity.
Qed.

Lemma sstep_stop_clean st b s : b < 256 -> sstep st false b = Some (s, true) -> is_utf8_continuation b = false.
Proof.
  intros Hb. unfold sstep. destruct (state_change st b) as [[ns a]|] eqn:Hsc; [|discriminate].
  destruct (is_printable_bytes a b) eqn:Hp; [intros _|discriminate].
  exact (printable_not_cont _ _ _ _ Hb Hsc Hp).
Qed.

Lemma ns_skip_spec : forall bs st tk bs1 st1,
  bytes_ok bs -> (tk = true -> starts_clean bs) ->
  ns_skip bs st = Some (bs1, st1) ->
  exists pre tk1,
    bs = pre ++ bs1 /\ srun st tk pre = Some (st1, tk1, []) /\ starts_clean bs1 /\
    match bs1 with [] => True | b :: _ => sstep st1 false b = Some (st1, true) end.
Proof.
  induction bs as [|b bs IH]; intros st tk bs1 st1 Hok Hfirst H.
  - injection H as <- <-. exists [], tk. cbn. auto.
  - rewrite ns_skip_cons in H. apply bytes_ok_cons in Hok as [Hb Hok'].
    destruct (sstep st false b) as [[s1 [|]]|] eqn:Hs; [| |discriminate].
    + pose proof (sstep_kept _ _ _ _ Hb Hs) as ->. injection H as <- <-. exists [], tk.
      split; [reflexivity|]. split; [reflexivity|]. split; [exact (sstep_stop_clean _ _ _ Hb Hs)|exact Hs].
    + destruct (IH s1 false _ _ Hok' ltac:(discriminate) H) as (pre & tk1 & -> & Hrun & Hrest).
      exists (b :: pre), tk1. split; [reflexivity|]. split; [|exact Hrest].
      cbn [srun]. now rewrite (sstep_clean _ _ _ Hfirst), Hs, Hrun.
Qed.

Theorem str_iter_spec : forall fuel bs off st tk ps bs' st',
  (length bs < fuel)%nat -> bytes_ok bs -> (tk = true -> starts_clean bs) ->
  str_iter fuel bs off st = Some (ps, bs', st') ->
  bs' = [] /\ exists tk', srun st tk bs = Some (st', tk', concat (map p_bytes ps)).
Proof.
  induction fuel as [|fuel IH]; intros bs off st tk ps bs' st' Hlen Hok Hfirst H; [lia|].
  cbn [str_iter] in H. unfold next_str in H.
  destruct (ns_skip bs st) as [[bs1 st1]|] eqn:Hsk; [|discriminate].
  destruct (ns_skip_spec _ _ tk _ _ Hok Hfirst Hsk) as (pre & tk1 & -> & Hrun & _ & Hstop).
  apply bytes_ok_app in Hok as [_ Hok1].
  destruct (ns_take bs1 st1) as [[t bs2]|] eqn:Ht; [|discriminate].
  pose proof (ns_take_spec _ _ _ _ Hok1 Ht) as Hrun2.
  destruct (ns_take_cut _ _ _ _ Ht) as [-> Hc2].
  destruct t as [|t0 t].
  - (* an empty run: the first scan reached the end of the slice *)
    injection H as <- <- <-. cbn [app] in Ht, Hstop. destruct bs2 as [|b r].
    + split; [reflexivity|]. exists tk1. rewrite app_nil_r. exact Hrun.
    + rewrite ns_take_cons, (sstep_printable _ _ _ true Hstop) in Ht.
      destruct (ns_take r st1) as [[? ?]|]; discriminate.
  - destruct (str_iter fuel bs2 _ st1) as [[[ps2 bs3] st3]|] eqn:Hit; [|discriminate].
    injection H as <- <- <-.
    apply bytes_ok_app in Hok1 as [_ Hok2].
    assert (Hlen2 : (length bs2 < fuel)%nat).
    { rewrite !app_length in Hlen. cbn [length] in Hlen. lia. }
    destruct (IH _ _ _ true _ _ _ Hlen2 Hok2 (fun _ => Hc2) Hit) as (-> & tk' & Hrun3).
    split; [reflexivity|]. exists tk'.
    (* the run over the taken bytes does not depend on the flag: its first byte is printable *)
    assert (Hrun2' : srun st1 tk1 (t0 :: t) = Some (st1, true, t0 :: t)).
    { cbn [srun] in Hrun2 |- *. cbn [app] in Hstop.
      now rewrite (sstep_printable _ _ _ true Hstop) in Hrun2; rewrite (sstep_printable _ _ _ tk1 Hstop). }
    rewrite (srun_app pre _ _ _ _ _ _ Hrun), (srun_app (t0 :: t) _ _ _ _ _ _ Hrun2'), Hrun3.
    reflexivity.
Qed.

Lemma ns_skip_total : forall bs st, bytes_ok bs -> exists x, ns_skip bs st = Some x.
Proof.
  induction bs as [|b bs IH]; intros st Hok; [cbn; eauto|].
  apply bytes_ok_cons in Hok as [Hb Hok']. rewrite ns_skip_cons.
  destruct (sstep_total st false b Hb) as [[s1 [|]] ->]; [eauto|]. apply IH, Hok'.
Qed.

Lemma ns_take_total : forall bs st, bytes_ok bs -> exists x, ns_take bs st = Some x.
Proof.
  induction bs as [|b bs IH]; intros st Hok; [cbn; eauto|].
  apply bytes_ok_cons in Hok as [Hb Hok']. rewrite ns_take_cons.
  destruct (sstep_total st true b Hb) as [[s1 [|]] ->]; [|eauto].
  destruct (IH st Hok') as [[t r] ->]. eauto.
Qed.

Theorem str_iter_total : forall fuel bs off st,
  (length bs < fuel)%nat -> bytes_ok bs -> exists x, str_iter fuel bs off st = Some x.
Proof.
  induction fuel as [|fuel IH]; intros bs off st Hlen Hok; [lia|].
  cbn [str_iter]. unfold next_str.
  destruct (ns_skip_total bs st Hok) as [[bs1 st1] Hsk]. rewrite Hsk.
  destruct (ns_skip_suffix _ _ _ _ Hsk) as [pre ->].
  apply bytes_ok_app in Hok as [_ Hok1].
  destruct (ns_take_total bs1 st1 Hok1) as [[t bs2] Ht]. rewrite Ht.
  destruct t as [|t0 t]; [eauto|].
  rewrite (proj1 (ns_take_cut _ _ _ _ Ht)) in Hok1, Hlen. apply bytes_ok_app in Hok1 as [_ Hok2].
  edestruct (IH bs2) as [[[ps bs3] st3] ->]; [|exact Hok2|eauto].
  rewrite !app_length in Hlen. cbn [length] in Hlen. lia.
Qed.

Lemma strip_next_str_run c st tk :
  bytes_ok c -> (tk = true -> starts_clean c) ->
  exists ps st1 tk1, strip_next_str c st = Some (ps, [], st1) /\
                     srun st tk c = Some (st1, tk1, concat (map p_bytes ps)).
Proof.
  intros Hc Hfirst. unfold strip_next_str.
  destruct (str_iter_total (S (length c)) c 0 st (Nat.lt_succ_diag_r _) Hc) as [[[ps bs'] st1] Hit].
  destruct (str_iter_spec _ _ _ _ tk _ _ _ (Nat.lt_succ_diag_r _) Hc Hfirst Hit) as (-> & tk1 & Hrun).
  eauto 6.
Qed.

(* from U8Ground utf8parse moves as the first column of Table 3-7 says *)
Lemma u8_lead_matches b :
  is_ascii b = false -> abs_u8 (u8st (fst (utf8_add u8_new b))) = utf8_lead b.
Proof.
  intros Ha. unfold utf8_add, u8_parser_advance, utf8_lead. cbn [u8_new u8st u8_advance].
  replace (rng 0 127 b) with false
    by (symmetry; apply andb_false_iff; right; apply N.leb_gt; apply N.ltb_ge in Ha; lia).
  change rng with in_range.
  repeat match goal with |- context [if ?c then _ else _] => destruct c end; reflexivity.
Qed.

(* the text machine (st, tk) and the byte machine (sm, um) are in step; [vu]: where
   the validity DFA stands.  Either both machines are inside a kept
   character, or they are in the same state with an idle decoder; then the
   validity DFA may still be inside a character that is not kept (a multi-byte
   character within an escape sequence), and the flag is down *)
Definition Lock (st : state) (tk : bool) (sm : state) (um : u8parser) (vu : option ustate) : Prop :=
  (st = Ground /\ tk = true /\ sm = Utf8 /\ exists us, vu = Some us /\ abs_u8 (u8st um) = Some us) \/
  (sm = st /\ st <> Utf8 /\ um = u8_new /\ (tk = true -> vu = None)).

Lemma upd_idle st ns : ns <> Utf8 -> upd st ns = if state_eqb ns Anywhere then st else ns.
Proof.
  intros H. apply state_eqb_neq in H. unfold upd. rewrite H. now destruct (state_eqb ns Anywhere).
Qed.

Lemma sstep_cont st b : b < 256 -> is_utf8_continuation b = true -> sstep st true b = Some (st, true).
Proof.
  intros Hb Hc. unfold sstep. destruct (state_change_total st b Hb) as (ns & a & Hsc). rewrite Hsc, Hc.
  destruct (is_printable_bytes a b) eqn:Hp; [|reflexivity].
  rewrite (printable_not_cont _ _ _ _ Hb Hsc Hp) in Hc. discriminate.
Qed.

Lemma lock_step st tk sm um vu b vu' st' k :
  b < 256 -> Lock st tk sm um vu -> vnext vu b = Some vu' -> sstep st tk b = Some (st', k) ->
  exists sm' um', mstep sm um b = Some (sm', um', k) /\ Lock st' k sm' um' vu'.
Proof.
  intros Hb [(-> & -> & -> & us & -> & Hu)|(-> & Hst & -> & Htk)] Hv Hs.
  - (* inside a kept character: the byte continues it *)
    destruct (vnext_cont _ _ _ Hv) as [Hc Ha]. rewrite (sstep_cont _ _ Hb Hc) in Hs. injection Hs as <- <-.
    rewrite (mstep_char um b Ha). do 2 eexists. split; [reflexivity|].
    pose proof (utf8_add_cont um us b Hb Ha Hu) as Hcont. cbn [vnext] in Hv.
    destruct (utf8_cont us b) as [us'| |]; [| |discriminate]; injection Hv as <-.
    + destruct Hcont as [-> Hu']. left. eauto 8.
    + rewrite Hcont. right. rewrite (utf8_add_done um b Ha Hcont). repeat split; discriminate.
  - (* outside: the same table entry decides for both *)
    rewrite (mstep_idle _ _ _ Hst). unfold idle_step.
    rewrite sstep_clean in Hs by (intros E; rewrite (Htk E) in Hv; exact (boundary_not_cont _ _ Hv)).
    unfold sstep in Hs. destruct (state_change st b) as [[ns a]|] eqn:Hsc; [|discriminate].
    destruct (is_printable_bytes a b) eqn:Hp; injection Hs as <- <-.
    + destruct (printable_entry _ _ _ _ Hb Hsc Hp) as [[-> Ha]|(-> & -> & Ha & Hc & _)];
        cbn [state_eqb state_disc N.eqb]; do 2 eexists; (split; [reflexivity|]).
      * right. repeat split; [exact Hst|]. intros _. exact (vnext_ascii _ _ _ Hv Ha).
      * rewrite (vnext_boundary _ _ _ Hv Hc) in Hv. destruct (vnext_lead _ _ Hv Ha) as (u & Hl & -> & _).
        left. repeat split. exists u. split; [reflexivity|]. now rewrite (u8_lead_matches b Ha).
    + pose proof (unprintable_entry _ _ _ _ Hb Hsc Hp) as Hns. rewrite (upd_idle _ _ Hns).
      do 2 eexists. split; [reflexivity|]. right. repeat split; [|discriminate].
      destruct (state_eqb ns Anywhere); assumption.
Qed.

Lemma lock_run : forall bs st tk sm um vu st' tk' out,
  bytes_ok bs -> Lock st tk sm um vu -> valid_from vu bs = true ->
  srun st tk bs = Some (st', tk', out) ->
  exists sm' um', mrun sm um bs = Some (sm', um', out).
Proof.
  induction bs as [|b bs IH]; intros st tk sm um vu st' tk' out Hok HL Hv H; cbn [srun] in H.
  - injection H as _ _ <-. cbn. eauto.
  - apply bytes_ok_cons in Hok as [Hb Hok'].
    rewrite valid_from_cons in Hv. destruct (vnext vu b) as [vu'|] eqn:Hvn; [|discriminate].
    destruct (sstep st tk b) as [[sx k]|] eqn:Hs; [|discriminate].
    destruct (srun sx k bs) as [[[sa ta] oa]|] eqn:Hr; [|discriminate].
    injection H as _ _ <-.
    destruct (lock_step _ _ _ _ _ _ _ _ _ Hb HL Hvn Hs) as (sm1 & um1 & Hm & HL1).
    destruct (IH _ _ _ _ _ _ _ _ Hok' HL1 Hv Hr) as (sm2 & um2 & Hrun).
    exists sm2, um2. cbn [mrun]. now rewrite Hm, Hrun.
Qed.

Lemma srun_is_spec input st tk out :
  bytes_ok input -> valid_utf8 input = true ->
  srun Ground false input = Some (st, tk, out) -> out = spec_strip input.
Proof.
  intros Hok Hv H.
  destruct (lock_run input Ground false Ground u8_new None st tk out Hok) as (sm & um & Hrun); [|exact Hv|exact H|].
  - right. repeat split; discriminate.
  - exact (mrun_is_spec _ _ _ _ Hok Hrun).
Qed.

(* C01: strip_str = specification on every valid UTF-8 string *)
Theorem strip_str_is_spec : forall input,
  bytes_ok input -> valid_utf8 input = true ->
  strip_str_model input = Some (spec_strip input).
Proof.
  intros input Hok Hv.
  destruct (strip_next_str_run input Ground false Hok ltac:(discriminate)) as (ps & st & tk & Hn & Hrun).
  unfold strip_str_model, strip_str_pieces. rewrite Hn. f_equal. exact (srun_is_spec _ _ _ _ Hok Hv Hrun).
Qed.

Lemma str_chunks_spec : forall chunks st tk,
  Forall bytes_ok chunks -> Forall (fun c => valid_utf8 c = true) chunks ->
  exists pss st' tk',
    strip_str_chunks chunks st = Some (pss, st') /\
    srun st tk (concat chunks) = Some (st', tk', concat (map (fun ps => concat (map p_bytes ps)) pss)).
Proof.
  induction chunks as [|c cs IH]; intros st tk Hok Hv; cbn [strip_str_chunks concat].
  - exists [], st, tk. cbn. auto.
  - apply Forall_cons_iff in Hok as [Hc Hcs]. apply Forall_cons_iff in Hv as [Hvc Hvcs].
    destruct (strip_next_str_run c st tk Hc (fun _ => valid_starts_clean c Hvc)) as (ps & st1 & tk1 & -> & Hrun).
    destruct (IH st1 tk1 Hcs Hvcs) as (pss & st2 & tk2 & -> & Hrun2).
    exists (ps :: pss), st2, tk2. split; [reflexivity|].
    rewrite (srun_app c _ _ _ _ _ _ Hrun), Hrun2. reflexivity.
Qed.

(* C03: any chunking of the text API (cuts at character boundaries) *)
Theorem strip_str_chunked : forall chunks,
  bytes_ok (concat chunks) -> Forall (fun c => valid_utf8 c = true) chunks ->
  exists pss st,
    strip_str_chunks chunks Ground = Some (pss, st) /\
    concat (map (fun ps => concat (map p_bytes ps)) pss) = spec_strip (concat chunks) /\
    Some (concat (map (fun ps => concat (map p_bytes ps)) pss)) = strip_str_model (concat chunks).
Proof.
  intros chunks Hok Hv.
  destruct (str_chunks_spec chunks Ground false (bytes_ok_concat _ Hok) Hv) as (pss & st & tk & Hch & Hrun).
  exists pss, st. split; [exact Hch|].
  pose proof (valid_concat _ Hv) as Hvc.
  pose proof (srun_is_spec _ _ _ _ Hok Hvc Hrun) as Hs.
  split; [exact Hs|]. now rewrite (strip_str_is_spec _ Hok Hvc), Hs.
Qed.
