(* Finite facts about the generated state table, each by evaluating a boolean check on all 16 x 256 entries inside
   the kernel. *)
From Coq Require Import NArith List Bool Lia.
From AV Require Import Generated.Table Spec.Utf8 Spec.Vt Model.Base Model.Parser.
From AV Require Export Proofs.BaseFacts.
Import ListNotations.
Local Open Scope N_scope.

Lemma in_range_true : forall lo hi b, lo <= b <= hi -> in_range lo hi b = true.
Proof. intros lo hi b [H1 H2]. unfold in_range. apply N.leb_le in H1, H2. now rewrite H1, H2. Qed.

Lemma in_range_false : forall lo hi b, b < lo \/ hi < b -> in_range lo hi b = false.
Proof.
  intros lo hi b H. unfold in_range. apply andb_false_iff.
  destruct H as [H|H]; [left | right]; apply N.leb_gt; exact H.
Qed.

Lemma all_states_In : forall s, In s all_states.
Proof. intros []; cbn; tauto. Qed.

Lemma forall_states (P : state -> bool) :
  forallb P all_states = true -> forall s, P s = true.
Proof. intros H s. rewrite forallb_forall in H. apply H, all_states_In. Qed.

Lemma state_of_disc_disc a : state_of_disc (state_disc a) = Some a.
Proof. destruct a; reflexivity. Qed.

Lemma action_of_disc_disc a : action_of_disc (action_disc a) = Some a.
Proof. destruct a; reflexivity. Qed.

Lemma state_eqb_eq a b : state_eqb a b = true <-> a = b.
Proof.
  unfold state_eqb. rewrite N.eqb_eq. split; [|congruence].
  intros H. pose proof (state_of_disc_disc a) as Ha. rewrite H, state_of_disc_disc in Ha. congruence.
Qed.

Lemma state_eqb_refl a : state_eqb a a = true.
Proof. now apply state_eqb_eq. Qed.

Lemma state_eqb_neq a b : state_eqb a b = false <-> a <> b.
Proof. rewrite <- state_eqb_eq. destruct (state_eqb a b); split; congruence. Qed.

(* [state_change s b] reads entry [b] of the Anywhere row and of the row of [s];
   walking the two rows side by side visits every byte once (so the 16 x 256 check
   is linear in the table, not quadratic) *)
Fixpoint sweep_row (Q : N -> option (state * action) -> bool) (n : nat) (b : N) (r0 r : list N) : bool :=
  match n with
  | O => true
  | S n' =>
      match r0, r with
      | c0 :: r0', c :: r' => Q b (unpack (if c0 =? 0 then c else c0)) && sweep_row Q n' (b + 1) r0' r'
      | _, _ => false
      end
  end.

Lemma sweep_row_nth Q : forall n b r0 r, sweep_row Q n b r0 r = true ->
  forall k, (k < n)%nat ->
  Q (b + N.of_nat k)
    (c0 <- nth_error r0 k ;; c <- (if c0 =? 0 then nth_error r k else Some c0) ;; unpack c) = true.
Proof.
  induction n as [|n IH]; intros b r0 r H k Hk; [lia|].
  destruct r0 as [|c0 r0], r as [|c r]; try discriminate H.
  cbn [sweep_row] in H. apply andb_true_iff in H. destruct H as [H0 H].
  destruct k as [|k].
  - rewrite N.add_0_r. cbn [nth_error]. destruct (c0 =? 0); exact H0.
  - replace (b + N.of_nat (S k)) with (b + 1 + N.of_nat k) by lia.
    apply (IH _ _ _ H). lia.
Qed.

Definition sweep_state (Q : state -> N -> option (state * action) -> bool) (s : state) : bool :=
  match aget state_changes (state_disc Anywhere), aget state_changes (state_disc s) with
  | Some r0, Some r => sweep_row (Q s) 256 0 r0 r
  | _, _ => false
  end.

Lemma state_change_sweep (Q : state -> N -> option (state * action) -> bool) :
  forallb (sweep_state Q) all_states = true ->
  forall s b, b < 256 -> Q s b (state_change s b) = true.
Proof.
  intros H s b Hb. pose proof (forall_states _ H s) as Hs. unfold sweep_state in Hs.
  unfold state_change, state_change_.
  destruct (aget state_changes (state_disc Anywhere)) as [r0|]; [|discriminate].
  destruct (aget state_changes (state_disc s)) as [r|]; [|discriminate].
  pose proof (sweep_row_nth _ _ _ _ _ Hs (N.to_nat b) ltac:(lia)) as Hk.
  rewrite N2Nat.id in Hk. exact Hk.
Qed.

Definition vstate_eqb (a b : vstate) : bool :=
  match a, b with
  | VGround, VGround | VEscape, VEscape | VEscInt, VEscInt
  | VCsiEntry, VCsiEntry | VCsiParam, VCsiParam | VCsiInt, VCsiInt | VCsiIgnore, VCsiIgnore
  | VDcsEntry, VDcsEntry | VDcsParam, VDcsParam | VDcsInt, VDcsInt | VDcsPass, VDcsPass
  | VDcsIgnore, VDcsIgnore | VOsc, VOsc | VSos, VSos => true
  | _, _ => false
  end.

Lemma vstate_eqb_eq a b : vstate_eqb a b = true <-> a = b.
Proof.
  split; [|intros <-; destruct a; reflexivity].
  destruct a, b; intros H; first [reflexivity | discriminate H].
Qed.

Definition vact_eqb (a b : vact) : bool :=
  match a, b with
  | TNone, TNone | TIgnore, TIgnore | TPrint, TPrint | TExecute, TExecute | TCollect, TCollect
  | TParam, TParam | TEscDispatch, TEscDispatch | TCsiDispatch, TCsiDispatch | TPut, TPut
  | TOscPut, TOscPut | TUtf8, TUtf8 => true
  | _, _ => false
  end.

Lemma vact_eqb_eq a b : vact_eqb a b = true <-> a = b.
Proof.
  split; [|intros <-; destruct a; reflexivity].
  destruct a, b; intros H; first [reflexivity | discriminate H].
Qed.

(* the 14 parser states of the diagram; Anywhere is the table's "no change"
   marker and Utf8 is the out-of-band sub-state *)
Definition abs_state (s : state) : option vstate :=
  match s with
  | Ground => Some VGround | Escape => Some VEscape | EscapeIntermediate => Some VEscInt
  | CsiEntry => Some VCsiEntry | CsiParam => Some VCsiParam | CsiIntermediate => Some VCsiInt
  | CsiIgnore => Some VCsiIgnore
  | DcsEntry => Some VDcsEntry | DcsParam => Some VDcsParam | DcsIntermediate => Some VDcsInt
  | DcsPassthrough => Some VDcsPass | DcsIgnore => Some VDcsIgnore
  | OscString => Some VOsc | SosPmApcString => Some VSos
  | Anywhere | Utf8 => None
  end.

(* the actions that may label a transition (entry / exit actions never do) *)
Definition abs_action (a : action) : option vact :=
  match a with
  | ANop => Some TNone | AIgnore => Some TIgnore | APrint => Some TPrint | AExecute => Some TExecute
  | ACollect => Some TCollect | AParam => Some TParam | AEscDispatch => Some TEscDispatch
  | ACsiDispatch => Some TCsiDispatch | APut => Some TPut | AOscPut => Some TOscPut
  | ABeginUtf8 => Some TUtf8
  | AClear | AHook | AUnhook | AOscStart | AOscEnd => None
  end.

Definition opt_vstate_eqb (a b : option vstate) : bool :=
  match a, b with
  | None, None => true
  | Some x, Some y => vstate_eqb x y
  | _, _ => false
  end.

Definition opt_vact_eqb (a : option vact) (b : vact) : bool :=
  match a with Some x => vact_eqb x b | None => false end.

Lemma opt_vstate_eqb_eq a b : opt_vstate_eqb a b = true <-> a = b.
Proof.
  destruct a as [x|], b as [y|]; cbn [opt_vstate_eqb]; rewrite ?vstate_eqb_eq; split; congruence.
Qed.

Lemma opt_vact_eqb_eq : forall o va, opt_vact_eqb o va = true -> o = Some va.
Proof. intros [x|] va H; [apply vact_eqb_eq in H; now subst | discriminate H]. Qed.

Definition trans_matches (s : state) (b : N) : bool :=
  match abs_state s with
  | None => true
  | Some v =>
      match state_change s b with
      | None => false
      | Some (s', a) =>
          let '(tgt, va) := vt_trans v b in
          match s' with
          | Anywhere => opt_vstate_eqb tgt None && opt_vact_eqb (abs_action a) va
          | Utf8 => opt_vstate_eqb tgt None && opt_vact_eqb (abs_action a) va && vact_eqb va TUtf8
          | _ => opt_vstate_eqb tgt (abs_state s') && opt_vact_eqb (abs_action a) va
          end
      end
  end.

(* [trans_matches s b] is [entry_matches s b (state_change s b)] *)
Definition entry_matches (s : state) (b : N) (r : option (state * action)) : bool :=
  match abs_state s with
  | None => true
  | Some v =>
      match r with
      | None => false
      | Some (s', a) =>
          let '(tgt, va) := vt_trans v b in
          match s' with
          | Anywhere => opt_vstate_eqb tgt None && opt_vact_eqb (abs_action a) va
          | Utf8 => opt_vstate_eqb tgt None && opt_vact_eqb (abs_action a) va && vact_eqb va TUtf8
          | _ => opt_vstate_eqb tgt (abs_state s') && opt_vact_eqb (abs_action a) va
          end
      end
  end.

Lemma table_matches_all : forallb (sweep_state entry_matches) all_states = true.
Proof. vm_compute. reflexivity. Qed.

Lemma table_is_williams : forall s b, b < 256 -> trans_matches s b = true.
Proof. exact (state_change_sweep entry_matches table_matches_all). Qed.

Definition utf8_only_ground (s : state) (b : N) (r : option (state * action)) : bool :=
  match r with
  | Some (s', a) =>
      (if action_eqb a ABeginUtf8 then state_eqb s Ground && state_eqb s' Utf8 else negb (state_eqb s' Utf8))
      && (if action_eqb a APrint then state_eqb s Ground else true)
  | None => false
  end.

Lemma utf8_only_ground_all : forallb (sweep_state utf8_only_ground) all_states = true.
Proof. vm_compute. reflexivity. Qed.

(* unpack is total on every table entry: both nibbles name a state / an action,
   so the transmute in definitions.rs is only ever applied to valid discriminants
   (read off the sweep above: [utf8_only_ground] answers false on [None], so a
   sweep that passes has met [Some] in every entry) *)
Lemma state_change_total : forall s b, b < 256 -> exists s' a, state_change s b = Some (s', a).
Proof.
  intros s b Hb. pose proof (state_change_sweep _ utf8_only_ground_all s b Hb) as H.
  destruct (state_change s b) as [[s' a]|]; [eauto | discriminate].
Qed.

Definition cancel_to_ground (s : state) : bool :=
  match state_change s 24, state_change s 26 with
  | Some (Ground, AExecute), Some (Ground, AExecute) => true
  | _, _ => false
  end.

Lemma cancel_to_ground_all : forallb cancel_to_ground all_states = true.
Proof. vm_compute. reflexivity. Qed.
