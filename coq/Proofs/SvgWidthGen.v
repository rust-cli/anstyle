(* C14 without the unicode-width oracle: the svg theorems instantiated with the translated width function
   (Model/SvgWidth.v uw_width), and the facts about it the svg model uses. *)
From Coq Require Import NArith ZArith List Bool Lia.
From AV Require Import Model.Base Model.Imp Model.UnicodeWidth Generated.UnicodeWidthFn Proofs.UnicodeWidthGen
  Generated.Svg Spec.Sgr Model.Svg Generated.SvgFn Proofs.SvgGen Model.SvgWidth.
Import ListNotations.
Local Open Scope N_scope.

(* on a &str the Rust call does not panic and answers uw_width *)
Theorem uw_width_is_translated s :
  Forall uw_cp s -> g_uw_str_trait_width s = Some (uw_width s).
Proof.
  intros H. unfold uw_width. destruct (g_uw_str_trait_width_total s H) as [n ->]. reflexivity.
Qed.

Corollary uw_width_is_translated_chars s :
  forallb uw_is_char s = true -> g_uw_str_trait_width s = Some (uw_width s).
Proof.
  intros H. apply uw_width_is_translated. rewrite forallb_forall in H. apply Forall_forall.
  intros c Hc. apply uw_is_char_cp, H, Hc.
Qed.

(* the result is a usize *)
Lemma uw_wrapping_lt sum add : uw_wrapping_add_signed sum add < 18446744073709551616.
Proof.
  unfold uw_wrapping_add_signed.
  pose proof (Z.mod_pos_bound (Z.of_N sum + add) 18446744073709551616 eq_refl) as [H1 H2].
  change 18446744073709551616 with (Z.to_N 18446744073709551616). apply Z2N.inj_lt; lia.
Qed.

Lemma uw_fold_lt l : forall sum info r,
  sum < 18446744073709551616 ->
  uw_fold_m (fun '(sum, next_info) c =>
      r <- g_uw_width_in_str c next_info ;;
      let '(add, info) := r in Some (uw_wrapping_add_signed sum add, info)) (sum, info) l = Some r ->
  fst r < 18446744073709551616.
Proof.
  induction l as [|c l IH]; intros sum info r Hs; cbn [uw_fold_m].
  - intros [= <-]. exact Hs.
  - destruct (g_uw_width_in_str c info) as [[add info']|]; [|discriminate].
    apply IH. apply uw_wrapping_lt.
Qed.

Theorem uw_width_lt s : uw_width s < 18446744073709551616.
Proof.
  unfold uw_width. rewrite g_uw_str_trait_width_eq. unfold g_uw_str_width, uw_rfold_m.
  match goal with |- context [uw_fold_m ?f ?a ?l] => destruct (uw_fold_m f a l) as [r|] eqn:E end; [|reflexivity].
  cbv beta iota. eapply uw_fold_lt; [|exact E]. reflexivity.
Qed.

Theorem uw_width_ascii s :
  Forall uw_printable_ascii s -> N.of_nat (length s) < 18446744073709551616 -> uw_width s = N.of_nat (length s).
Proof.
  intros H L. unfold uw_width. now rewrite g_uw_str_trait_width_eq, g_uw_str_width_ascii.
Qed.

Theorem uw_width_empty : uw_width [] = 0.
Proof. reflexivity. Qed.

(* write_bg_span: `fill.repeat(fragment.width())` is exactly as wide as the fragment, with either fill *)
Theorem uw_width_fill_on x : uw_width (repeat svg_fill_on (N.to_nat (uw_width x))) = uw_width x.
Proof.
  pose proof (uw_width_lt x) as L. unfold uw_width at 1. rewrite g_uw_str_trait_width_eq.
  unfold svg_fill_on. rewrite g_uw_str_width_fill; rewrite N2Nat.id; [reflexivity|exact L].
Qed.

Theorem uw_width_fill_off x : uw_width (repeat svg_fill_off (N.to_nat (uw_width x))) = uw_width x.
Proof.
  pose proof (uw_width_lt x) as L. rewrite uw_width_ascii; rewrite ?repeat_length, ?N2Nat.id; [reflexivity| |exact L].
  generalize (N.to_nat (uw_width x)). induction n; cbn [repeat]; constructor; [|assumption].
  unfold svg_fill_off, uw_printable_ascii. lia.
Qed.

Theorem translated_render_svg_uw ceil84 minw t input :
  g_svg_render (svg_uw_oracle ceil84 minw) t input =
  (styled <- svg_styled t input ;;
   d <- svg_doc t input ;;
   Some (svg_m_print_uw (svg_m_width_px_uw ceil84 minw (svg_split_lines styled)) d)).
Proof. exact (translated_render_svg_is_model (svg_uw_oracle ceil84 minw) t input). Qed.

(* `Term::new().<builders>.render_svg(input)`: the only parameter left is the f64 product *)
Theorem translated_built_term_renders_uw ceil84 bs input :
  let t := g_svg_build g_svg_term_new bs in
  g_svg_render_full (svg_tf_uw_oracle ceil84 t) t input =
  (styled <- svg_styled (svg_tf_term t) input ;;
   d <- svg_doc (svg_tf_term t) input ;;
   Some (svg_m_print_uw (svg_m_width_px_uw ceil84 (svg_tf_min_width_px t) (svg_split_lines styled)) d)).
Proof. exact (translated_built_term_renders uw_width ceil84 bs input). Qed.

(* every `t.width()` / `fragment.width()` the translated render_svg evaluates is the translated width function
   on that very string, and it does not panic when the string consists of chars *)
Theorem svg_oracle_uw_is_translated ceil84 minw s :
  forallb uw_is_char s = true ->
  g_uw_str_trait_width s = Some (svg_o_uw (svg_uw_oracle ceil84 minw) s).
Proof. exact (uw_width_is_translated_chars s). Qed.

(* the model the correspondence driver runs for case kind svgraw IS the translated render_svg, under the one
   remaining parameter instantiated with ceil(42 x / 5) *)
Theorem translated_render_svg_is_driver_model palette fg bg background minw input :
  g_svg_render (svg_uw_oracle svg_ceil84_exact minw) (mkSvgTerm palette fg bg background) input =
  svg_m_render_uw palette fg bg background minw input.
Proof. unfold svg_m_render_uw. apply translated_render_svg_uw. Qed.
