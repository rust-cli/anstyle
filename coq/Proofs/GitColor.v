(* Proofs/GitColor.v -- C11, one word: the keyword arms and parse_color of the
   model against the vocabulary of Spec/GitSyntax. *)
From Coq Require Import NArith List Bool Lia.
From AV Require Import Generated.Git Spec.StyleRec Spec.SgrCodes Spec.GitSyntax Model.Base Model.Text Model.Git
  Proofs.BaseFacts Proofs.Text Proofs.LsParse Proofs.GitWords.
Import ListNotations.
Local Open Scope N_scope.

Lemma assoc_not_in {V} : forall w (T : list (list N * V)),
  existsb (list_eqb w) (map fst T) = false -> assoc w T = None.
Proof.
  intros w. induction T as [|[k v] T IH]; intros H; [reflexivity|].
  cbn in H. apply orb_false_iff in H as [H1 H2]. cbn [assoc]. rewrite H1. now apply IH.
Qed.

Lemma lookup_not_in : forall w T, existsb (list_eqb w) (map fst T) = false -> lookup w T = None.
Proof.
  intros w. induction T as [|[k v] T IH]; intros H; [reflexivity|].
  cbn in H. apply orb_false_iff in H as [H1 H2]. cbn [lookup]. change (bytes_eqb w k) with (list_eqb w k).
  rewrite H1. now apply IH.
Qed.

(* two tables agree under [R] on every word if they do on the keys of both: any other word is in neither *)
Lemma tables_agree {V} (R : option V -> option gtoken -> bool) (T : list (list N * V)) (U : list (word * gtoken)) :
  R None None = true ->
  forallb (fun k => R (assoc k T) (lookup k U)) (map fst T ++ map fst U) = true ->
  forall w, R (assoc w T) (lookup w U) = true.
Proof.
  intros H0 Hk w. destruct (existsb (list_eqb w) (map fst T ++ map fst U)) eqn:E.
  - apply existsb_exists in E as (k & Hin & Hk'). apply list_eqb_eq in Hk'. subst k.
    rewrite forallb_forall in Hk. now apply Hk.
  - rewrite existsb_app in E. apply orb_false_iff in E as [E1 E2].
    now rewrite (assoc_not_in _ _ E1), (lookup_not_in _ _ E2).
Qed.

Definition kw_rel (x : option (bool * N)) (t : option gtoken) : bool :=
  match x, t with
  | Some (ins, bit), Some (GAttr on a) => Bool.eqb ins on && (bit =? attr_bit a)
  | None, None => true
  | _, _ => false
  end.

Lemma kw_agree : forall w, kw_rel (assoc w git_keywords) (lookup w attr_words) = true.
Proof. apply tables_agree; reflexivity. Qed.

Definition name_rel (x : option (option N)) (t : option gtoken) : bool :=
  match x, t with
  | Some None, Some (GColor None) => true
  | Some (Some i), Some (GColor (Some (TAnsi j))) => i =? j
  | None, None => true
  | _, _ => false
  end.

Lemma name_agree : forall w, name_rel (assoc w git_color_names) (lookup w color_words) = true.
Proof. apply tables_agree; reflexivity. Qed.

(* every word of the two tables begins with a lower-case letter or '-': a word that begins otherwise ('+', '#',
   a digit) is in neither *)
Definition word_start (c : N) : bool := between 97 c 122 || (c =? DASH).
Definition starts_word (k : list N) : bool := match k with x :: _ => word_start x | [] => false end.

Lemma lookup_first : forall c ds T,
  forallb starts_word (map fst T) = true -> word_start c = false -> lookup (c :: ds) T = None.
Proof.
  intros c ds. induction T as [|[k v] T IH]; intros H Hc; [reflexivity|].
  cbn [map fst forallb] in H. apply andb_true_iff in H as [H1 H2]. cbn [lookup].
  destruct k as [|x k]; [discriminate H1|]. cbn [starts_word] in H1. cbn [bytes_eqb].
  destruct (N.eqb_spec c x) as [->|_]; [congruence | now apply IH].
Qed.

Lemma classify_lower_other : forall c ds, word_start c = false ->
  classify_lower (c :: ds) =
  if c =? HASH then hex_color ds
  else match strict_u8 (c :: ds) with Some n => Some (GColor (Some (TAnsi256 n))) | None => None end.
Proof. intros c ds H. unfold classify_lower. now rewrite !lookup_first by (reflexivity || exact H). Qed.

(* the '#' arm of Model/Git.v [parse_color], word for word (parse_color_hash holds by conversion); named so that
   hex_agree can be stated *)
Definition hex_branch (hex : list N) : option (option (option tcolor)) :=
  let hb := str_bytes hex in
  let l := N.of_nat (length hb) in
  if negb (existsb (N.eqb l) git_hex_lens) then Some None
  else if negb (forallb is_ascii_hexdigit hb) then Some None
  else
    let l3 := l / 3 in
    rs <- str_slice hb 0 l3 ;;
    gs <- str_slice hb l3 (2 * l3) ;;
    bs <- str_slice hb (2 * l3) (3 * l3) ;;
    match u8_from_str_radix git_hex_radix rs,
          u8_from_str_radix git_hex_radix gs,
          u8_from_str_radix git_hex_radix bs with
    | Some r, Some g, Some b => Some (Some (Some (TRgb r g b)))
    | _, _, _ => Some None
    end.

Lemma to_digit_hex : forall a, is_hex a = true -> to_digit 16 a = Some (hex_value a) /\ hex_value a < 16.
Proof.
  intros a Ha.
  (* is_hex implies a < 128 (is_hex_ascii), so 128 rows suffice *)
  assert (T : forallb (fun a => negb (is_hex a) ||
                match to_digit 16 a with Some v => (v =? hex_value a) && (v <? 16) | None => false end)
                (range_from 0 128) = true) by reflexivity.
  pose proof (forall_range _ 128 T a (is_hex_ascii a Ha)) as E. cbv beta in E. rewrite Ha in E.
  destruct (to_digit 16 a) as [v|]; [|discriminate E].
  apply andb_true_iff in E as [E L]. apply N.eqb_eq in E. apply N.ltb_lt in L. subst v. split; [reflexivity | exact L].
Qed.

Lemma hex_no_sign : forall a, is_hex a = true -> a <> 43 /\ a <> 45.
Proof. intros a Ha. split; intros ->; discriminate Ha. Qed.

Lemma from_str_radix_hex1 : forall a, is_hex a = true -> u8_from_str_radix 16 [a] = Some (hex_value a).
Proof.
  intros a Ha. destruct (to_digit_hex a Ha) as [Da La]. destruct (hex_no_sign a Ha) as [P M].
  rewrite from_str_no_sign by assumption. cbn [digits_u8]. rewrite Da.
  change (0 * 16 + hex_value a) with (hex_value a).
  now rewrite (proj2 (N.leb_le _ 255)) by lia.
Qed.

Lemma from_str_radix_hex2 : forall a b, is_hex a = true -> is_hex b = true ->
  u8_from_str_radix 16 [a; b] = Some (16 * hex_value a + hex_value b).
Proof.
  intros a b Ha Hb. destruct (to_digit_hex a Ha) as [Da La]. destruct (to_digit_hex b Hb) as [Db Lb].
  destruct (hex_no_sign a Ha) as [P M].
  rewrite from_str_no_sign by assumption. cbn [digits_u8]. rewrite Da.
  change (0 * 16 + hex_value a) with (hex_value a).
  rewrite (proj2 (N.leb_le _ 255)) by lia. rewrite Db, (N.mul_comm (hex_value a)).
  now rewrite (proj2 (N.leb_le _ 255)) by lia.
Qed.

Lemma all_hex_ascii : forall l, forallb is_hex l = true -> Forall (fun x => x < 128) l.
Proof. exact (forallb_Forall is_hex _ is_hex_ascii). Qed.

Lemma hex_bytes_check : forall hex, forallb is_ascii_hexdigit (str_bytes hex) = forallb is_hex hex.
Proof.
  intros hex. rewrite (class_bytes is_ascii_hexdigit hexdigit_lt_128). apply forallb_ext'. exact hexdigit_agree.
Qed.

Definition color_of (t : option gtoken) : option (option tcolor) :=
  match t with Some (GColor c) => Some c | _ => None end.

Lemma hex_agree : forall digits, hex_branch digits = Some (color_of (hex_color digits)).
Proof.
  intros digits. unfold hex_branch, hex_color. rewrite hex_bytes_check.
  destruct (forallb is_hex digits) eqn:H.
  2:{ cbn [negb]. destruct (negb _); reflexivity. }
  rewrite (class_bytes_id is_hex is_hex_ascii _ H). cbn [negb].
  pose proof (all_hex_ascii _ H) as HA.
  destruct digits as [|a [|b [|c [|d [|e [|f [|g rest]]]]]]]; try reflexivity.
  - (* #rgb *)
    cbn in H. rewrite !andb_true_iff in H. destruct H as (Ha & Hb & Hc & _).
    change (N.of_nat (length [a; b; c])) with 3. change (existsb (N.eqb 3) git_hex_lens) with true. cbn [negb].
    change (3 / 3) with 1. change (2 * 1) with 2. change (3 * 1) with 3.
    rewrite !(str_slice_ascii _ _ _ HA).
    change (slice [a; b; c] 0 1) with (Some [a]).
    change (slice [a; b; c] 1 2) with (Some [b]).
    change (slice [a; b; c] 2 3) with (Some [c]).
    cbv iota beta.
    change git_hex_radix with 16. rewrite (from_str_radix_hex1 a Ha), (from_str_radix_hex1 b Hb), (from_str_radix_hex1 c Hc). reflexivity.
  - (* #rrggbb *)
    cbn in H. rewrite !andb_true_iff in H. destruct H as (Ha & Hb & Hc & Hd & He & Hf & _).
    change (N.of_nat (length [a; b; c; d; e; f])) with 6. change (existsb (N.eqb 6) git_hex_lens) with true. cbn [negb].
    change (6 / 3) with 2. change (2 * 2) with 4. change (3 * 2) with 6.
    rewrite !(str_slice_ascii _ _ _ HA).
    change (slice [a; b; c; d; e; f] 0 2) with (Some [a; b]).
    change (slice [a; b; c; d; e; f] 2 4) with (Some [c; d]).
    change (slice [a; b; c; d; e; f] 4 6) with (Some [e; f]).
    cbv iota beta.
    change git_hex_radix with 16. rewrite (from_str_radix_hex2 a b Ha Hb), (from_str_radix_hex2 c d Hc Hd), (from_str_radix_hex2 e f He Hf). reflexivity.
  - (* seven or more digits *)
    set (l := N.of_nat (length (a :: b :: c :: d :: e :: f :: g :: rest))).
    assert (Hl : 7 <= l) by (subst l; cbn [length]; lia).
    assert (existsb (N.eqb l) git_hex_lens = false) as ->.
    { unfold git_hex_lens. cbn [existsb]. rewrite !orb_false_iff. repeat split; try reflexivity; apply N.eqb_neq; lia. }
    reflexivity.
Qed.

Lemma hex_branch_total : forall hex, hex_branch hex <> None.
Proof. intros hex. rewrite hex_agree. discriminate. Qed.

Lemma parse_color_hash : forall hex, assoc (35 :: hex) git_color_names = None -> parse_color (35 :: hex) = hex_branch hex.
Proof. intros hex H. unfold parse_color. rewrite H. reflexivity. Qed.

Lemma parse_color_number : forall w, assoc w git_color_names = None ->
  match w with c :: _ => (c =? 35) = false | [] => True end ->
  parse_color w = match parse_u8 (str_bytes w) with Some n => Some (Some (Some (TAnsi256 n))) | None => Some None end.
Proof.
  intros w H Hc. unfold parse_color. rewrite H. destruct w as [|c ds]; [reflexivity|].
  change git_hex_prefix with 35. now rewrite Hc.
Qed.

Theorem parse_color_total : forall w, parse_color w <> None.
Proof.
  intros w. destruct (assoc w git_color_names) as [[i|]|] eqn:A.
  - unfold parse_color. rewrite A. discriminate.
  - unfold parse_color. rewrite A. discriminate.
  - destruct w as [|c ds].
    + rewrite parse_color_number by (auto; exact I). destruct (parse_u8 _); discriminate.
    + destruct (c =? 35) eqn:E.
      * apply N.eqb_eq in E. subst c. rewrite parse_color_hash by assumption. apply hex_branch_total.
      * rewrite parse_color_number by assumption. destruct (parse_u8 _); discriminate.
Qed.

(* one lower-cased word outside the open class: the model's keyword match and
   parse_color agree with the vocabulary *)
Theorem word_agree : forall lw, open_field lw = false ->
  match classify_lower lw with
  | Some (GAttr on a) => assoc lw git_keywords = Some (on, attr_bit a)
  | Some (GColor c) => assoc lw git_keywords = None /\ parse_color lw = Some (Some c)
  | None => assoc lw git_keywords = None /\ parse_color lw = Some None
  end.
Proof.
  intros lw Hopen. unfold classify_lower.
  pose proof (kw_agree lw) as K. unfold kw_rel in K.
  destruct (lookup lw attr_words) as [[c|on a]|] eqn:L1; destruct (assoc lw git_keywords) as [[ins bit]|] eqn:A1;
    try discriminate K.
  - apply andb_true_iff in K as [K1 K2]. apply eqb_prop in K1. apply N.eqb_eq in K2. now subst.
  - pose proof (name_agree lw) as M. unfold name_rel in M.
    destruct (lookup lw color_words) as [[[[j|j|r g b]|]|on a]|] eqn:L2; destruct (assoc lw git_color_names) as [[i|]|] eqn:A2;
      try discriminate M.
    + apply N.eqb_eq in M. subst j. split; [reflexivity|]. unfold parse_color. now rewrite A2.
    + split; [reflexivity|]. unfold parse_color. now rewrite A2.
    + destruct lw as [|c ds].
      * split; [reflexivity|]. rewrite parse_color_number by (auto; exact I). reflexivity.
      * change HASH with 35. destruct (c =? 35) eqn:E.
        -- apply N.eqb_eq in E. subst c. rewrite parse_color_hash by assumption. rewrite hex_agree.
           destruct (hex_color ds) as [[x|on a]|] eqn:HC; try (split; reflexivity).
           exfalso. unfold hex_color in HC. destruct (forallb is_hex ds); [|discriminate].
           destruct ds as [|? [|? [|? [|? [|? [|? [|? ?]]]]]]]; discriminate HC.
        -- rewrite parse_color_number by assumption.
           rewrite parse_u8_closed by (now rewrite open_field_bytes).
           rewrite strict_u8_bytes. destruct (strict_u8 (c :: ds)); split; reflexivity.
Qed.
