(* About Model/Base.v alone: a boolean check or an equation of two maps over the enumeration
   [range_from] read at one element; the panicking list operations ([slice], [aset]) on a list
   given in parts. *)
From Coq Require Import NArith List Bool Lia PeanoNat.
From AV Require Import Model.Base Model.Imp.
Import ListNotations.
Local Open Scope N_scope.

(* the boolean tests on N among the hypotheses, as propositions for [lia]; a false conjunction makes two goals *)
Ltac tests_to_props :=
  repeat match goal with
  | H : (_ && _) = true |- _ => apply andb_true_iff in H; destruct H
  | H : (_ && _) = false |- _ => apply andb_false_iff in H; destruct H
  | H : negb _ = true |- _ => apply negb_true_iff in H
  | H : negb _ = false |- _ => apply negb_false_iff in H
  | H : (_ =? _) = true |- _ => apply N.eqb_eq in H
  | H : (_ =? _) = false |- _ => apply N.eqb_neq in H
  | H : (_ <=? _) = true |- _ => apply N.leb_le in H
  | H : (_ <=? _) = false |- _ => apply N.leb_gt in H
  | H : (_ <? _) = true |- _ => apply N.ltb_lt in H
  | H : (_ <? _) = false |- _ => apply N.ltb_ge in H
  end.

Lemma range_from_In : forall n a x, In x (range_from a n) <-> a <= x < a + N.of_nat n.
Proof.
  induction n as [|n IH]; intros a x; cbn [range_from].
  - split; [intros [] | lia].
  - rewrite Nat2N.inj_succ. cbn [In]. rewrite IH. lia.
Qed.

Lemma all_bytes_In : forall b, b < 256 <-> In b all_bytes.
Proof. intros b. unfold all_bytes. rewrite range_from_In. cbn. lia. Qed.

Lemma forall_bytes (P : N -> bool) :
  forallb P all_bytes = true -> forall b, b < 256 -> P b = true.
Proof.
  intros H b Hb. rewrite forallb_forall in H. apply H. now apply all_bytes_In.
Qed.

Lemma forall_range (P : N -> bool) (n : nat) :
  forallb P (range_from 0 n) = true -> forall x, x < N.of_nat n -> P x = true.
Proof. intros H x Hx. rewrite forallb_forall in H. apply H. apply range_from_In. lia. Qed.

(* a table fact with further variables in it: one conversion of two lists *)
Lemma range_ext {A} (f g : N -> A) (n : nat) :
  map f (range_from 0 n) = map g (range_from 0 n) -> forall x, x < N.of_nat n -> f x = g x.
Proof. intros H x Hx. apply (proj1 map_ext_in_iff H), range_from_In. lia. Qed.

Lemma bytes_ext {A} (f g : N -> A) : map f all_bytes = map g all_bytes -> forall c, c < 256 -> f c = g c.
Proof. exact (range_ext f g 256). Qed.

Lemma len_app {A} (a b : list A) : len (a ++ b) = len a + len b.
Proof. unfold len. rewrite app_length. lia. Qed.

Lemma len_cons {A} (x : A) l : len (x :: l) = len l + 1.
Proof. unfold len. cbn [length]. lia. Qed.

Lemma len_nil {A} : len (@nil A) = 0.
Proof. reflexivity. Qed.

Lemma len_map {A B} (f : A -> B) (l : list A) : len (map f l) = len l.
Proof. unfold len. rewrite map_length. reflexivity. Qed.

Lemma to_nat_len {A} (l : list A) : N.to_nat (len l) = length l.
Proof. apply Nat2N.id. Qed.

Lemma firstn_len_app {A} (a c : list A) : firstn (N.to_nat (len a)) (a ++ c) = a.
Proof. rewrite to_nat_len, firstn_app, firstn_all, Nat.sub_diag. apply app_nil_r. Qed.

Lemma skipn_len_app {A} (a c : list A) : skipn (N.to_nat (len a)) (a ++ c) = c.
Proof. rewrite to_nat_len, skipn_app, skipn_all, Nat.sub_diag. reflexivity. Qed.

Lemma skipn_add {A} : forall a b (l : list A), skipn (a + b) l = skipn b (skipn a l).
Proof.
  induction a as [|a IH]; intros b l; [reflexivity|].
  destruct l as [|h t]; cbn [Nat.add skipn]; [now destruct b | apply IH].
Qed.

Lemma slice_mid {A} (a m c : list A) : slice (a ++ m ++ c) (len a) (len a + len m) = Some m.
Proof.
  unfold slice.
  replace (_ && _) with true
    by (symmetry; apply andb_true_intro; split; apply N.leb_le; fold (len (a ++ m ++ c)); rewrite ?len_app; lia).
  rewrite skipn_len_app. replace (len a + len m - len a) with (len m) by lia. now rewrite firstn_len_app.
Qed.

(* the list and the bounds given by equations, for goals in which they stand computed *)
Lemma slice_mid_eq {A} (text pre mid post : list A) a b :
  text = pre ++ mid ++ post -> a = len pre -> b = len pre + len mid -> slice text a b = Some mid.
Proof. intros -> -> ->. apply slice_mid. Qed.

Lemma slice_head {A} (a c : list A) : slice (a ++ c) 0 (len a) = Some a.
Proof. exact (slice_mid [] a c). Qed.

Lemma slice_prefix {A} (l : list A) n : n <= N.of_nat (length l) -> slice l 0 n = Some (firstn (N.to_nat n) l).
Proof.
  intros H. unfold slice. rewrite (proj2 (N.leb_le _ _) H), (proj2 (N.leb_le _ _) (N.le_0_l n)), N.sub_0_r. reflexivity.
Qed.

Lemma slice_suffix {A} (l : list A) n : n <= N.of_nat (length l) -> slice l n (len l) = Some (skipn (N.to_nat n) l).
Proof.
  intros H. unfold slice, len. rewrite N.leb_refl, (proj2 (N.leb_le _ _) H). cbn [andb].
  rewrite firstn_all2; [reflexivity|]. rewrite skipn_length. lia.
Qed.

Lemma aget_mid {A} (pre : list A) b t : aget (pre ++ b :: t) (len pre) = Some b.
Proof. unfold aget. rewrite to_nat_len, nth_error_app2, Nat.sub_diag by lia. reflexivity. Qed.

Lemma aset_nat_mid {A} (pre : list A) (y x : A) (post : list A) :
  aset_nat (pre ++ y :: post) (length pre) x = Some (pre ++ x :: post).
Proof. induction pre as [|h pre IH]; cbn [app length aset_nat]; [reflexivity|]. rewrite IH. reflexivity. Qed.

Lemma aset_mid {A} (pre : list A) (y x : A) (post : list A) :
  aset (pre ++ y :: post) (len pre) x = Some (pre ++ x :: post).
Proof. unfold aset. rewrite to_nat_len. apply aset_nat_mid. Qed.
