(* C06: the model of StripStream's write family refines the byte-at-a-time strip
   machine [mrun] over scripted inner writers.  write: Ok n => exactly the kept bytes
   of the first n input bytes were delivered and the state is the machine state after
   them; Err k => the first inner write failed with k, nothing changed. *)
From Coq Require Import NArith Arith List Bool Lia.
From AV Require Import Generated.Table Spec.Io Spec.Strip Model.Base Model.Utf8parse Model.Parser Model.Strip
  Model.Stream Proofs.TableFacts Proofs.StripMachine Proofs.StripSim Proofs.StreamIo.
Import ListNotations.
Local Open Scope N_scope.

Definition SInv (s : sbytes) : Prop := Inv (sb_state s) (sb_u s).

Definition srun (s : sbytes) (bs : list N) := mrun (sb_state s) (sb_u s) bs.

Definition kept (s : sbytes) (bs : list N) : list N :=
  match srun s bs with Some (_, _, o) => o | None => [] end.

Definition after (s : sbytes) (bs : list N) : sbytes :=
  match srun s bs with Some (st, u, _) => mkSB st u | None => s end.

Lemma SInv_new : SInv sb_new.
Proof. exact Inv_init. Qed.

Lemma mrun_total : forall bs st u, bytes_ok bs -> exists x, mrun st u bs = Some x.
Proof.
  induction bs as [|b bs IH]; intros st u Hok; cbn [mrun]; [eauto|].
  inversion Hok as [|? ? Hb Hok']; subst.
  destruct (mstep_total st u b Hb) as [[[s1 u1] k] ->].
  destruct (IH s1 u1 Hok') as [[[s2 u2] o] ->]. eauto.
Qed.

Lemma mrun_out_length : forall bs st u st' u' o,
  mrun st u bs = Some (st', u', o) -> (length o <= length bs)%nat.
Proof.
  induction bs as [|b bs IH]; intros st u st' u' o H; cbn [mrun] in H.
  - injection H as _ _ <-. cbn. lia.
  - destruct (mstep st u b) as [[[s1 u1] k]|]; [|discriminate].
    destruct (mrun s1 u1 bs) as [[[s2 u2] o2]|] eqn:Hr; [|discriminate].
    injection H as _ _ <-. pose proof (IH _ _ _ _ _ Hr). destruct k; cbn [length]; lia.
Qed.

Lemma mrun_all_kept_prefix : forall a b st u st2 u2,
  mrun st u (a ++ b) = Some (st2, u2, a ++ b) ->
  exists st1 u1, mrun st u a = Some (st1, u1, a).
Proof.
  induction a as [|x a IH]; intros b st u st2 u2 H.
  - cbn. eauto.
  - cbn [app mrun] in H. cbn [mrun].
    destruct (mstep st u x) as [[[s1 u1] k]|]; [|discriminate].
    destruct (mrun s1 u1 (a ++ b)) as [[[s3 u3] o3]|] eqn:Hr; [|discriminate].
    destruct k.
    + injection H as _ _ ->. destruct (IH _ _ _ _ _ Hr) as (sa & ua & ->). eauto.
    + exfalso. injection H as _ _ ->. apply mrun_out_length in Hr. cbn [length] in Hr. lia.
Qed.

Lemma bytes_ok_firstn k bs : bytes_ok bs -> bytes_ok (firstn k bs).
Proof. intros H. rewrite <- (firstn_skipn k bs) in H. apply bytes_ok_app in H. tauto. Qed.

Lemma bytes_ok_skipn k bs : bytes_ok bs -> bytes_ok (skipn k bs).
Proof. intros H. rewrite <- (firstn_skipn k bs) in H. apply bytes_ok_app in H. tauto. Qed.

Theorem kept_after_def : forall s bs,
  bytes_ok bs ->
  mrun (sb_state s) (sb_u s) bs = Some (sb_state (after s bs), sb_u (after s bs), kept s bs).
Proof.
  intros s bs Hok. unfold after, kept, srun.
  destruct (mrun_total bs (sb_state s) (sb_u s) Hok) as [[[st u] o] ->]. reflexivity.
Qed.

Lemma srun_kept_after s bs st u o :
  mrun (sb_state s) (sb_u s) bs = Some (st, u, o) -> kept s bs = o /\ after s bs = mkSB st u.
Proof. intros H. unfold kept, after, srun. rewrite H. auto. Qed.

Lemma kept_nil s : kept s [] = [].
Proof. reflexivity. Qed.

Lemma after_nil s : after s [] = s.
Proof. destruct s. reflexivity. Qed.

Lemma after_inv s bs : bytes_ok bs -> SInv s -> SInv (after s bs).
Proof. intros Hok HI. exact (mrun_inv _ _ _ _ _ _ Hok HI (kept_after_def s bs Hok)). Qed.

Lemma srun_app s a b :
  bytes_ok (a ++ b) ->
  kept s (a ++ b) = kept s a ++ kept (after s a) b /\ after s (a ++ b) = after (after s a) b.
Proof.
  intros Hok. apply bytes_ok_app in Hok as [Ha Hb].
  pose proof (mrun_app a b _ _ _ _ _ (kept_after_def s a Ha)) as H.
  rewrite (kept_after_def (after s a) b Hb) in H.
  apply srun_kept_after in H. destruct H as [Hk ->]. split; [exact Hk|].
  destruct (after (after s a) b). reflexivity.
Qed.

Lemma kept_app s a b : bytes_ok (a ++ b) -> kept s (a ++ b) = kept s a ++ kept (after s a) b.
Proof. intros H. apply (srun_app s a b H). Qed.

Lemma after_app s a b : bytes_ok (a ++ b) -> after s (a ++ b) = after (after s a) b.
Proof. intros H. apply (srun_app s a b H). Qed.

Lemma kept_new_is_spec bs : bytes_ok bs -> kept sb_new bs = spec_strip bs.
Proof.
  intros Hok. exact (mrun_is_spec _ _ _ _ Hok (kept_after_def sb_new bs Hok)).
Qed.

Lemma agrees_prefix sm um st u x y : x <> [] -> agrees sm um st u (x ++ y) -> agrees sm um st u x.
Proof.
  intros Hx [H|(b & r' & E & Ha & Hs & Hst & Hu)]; [left; exact H|].
  destruct x as [|x0 x]; [contradiction|]. cbn [app] in E. inversion E; subst.
  right. exists b, x. auto.
Qed.

(* the scanner in state (st, u) in front of [bs] stands for the machine state [s]: they are equal, or the
   scanner has already left a broken character that the machine leaves at the next byte ([agrees]) *)
Definition at_state (s : sbytes) (st : state) (u : u8parser) (bs : list N) : Prop :=
  agrees (sb_state s) (sb_u s) st u bs.

Lemma at_state_refl s bs : at_state s (sb_state s) (sb_u s) bs.
Proof. left. auto. Qed.

Lemma at_state_run s st u x y sx ux ox :
  at_state s st u (x ++ y) -> mrun st u x = Some (sx, ux, ox) ->
  kept s x = ox /\ (x <> [] -> after s x = mkSB sx ux).
Proof.
  intros Hat H. destruct x as [|x0 x].
  - cbn in H. inversion H; subst. split; [reflexivity|]. intros E. contradiction.
  - assert (Hne : x0 :: x <> []) by discriminate.
    rewrite (agrees_mrun _ _ _ _ _ (agrees_prefix _ _ _ _ _ _ Hne Hat)) in H.
    apply srun_kept_after in H. tauto.
Qed.

(* one call of next_bytes (StripMachine.next_bytes_spec) read through [kept] / [after], from a scanner that
   stands for [s] *)
Lemma next_piece s bs off st u p bs' off' st' u' :
  bytes_ok bs -> SInv s -> at_state s st u bs ->
  next_bytes bs off st u = Some (p, bs', off', st', u') ->
  match p with
  | None => bs' = [] /\ kept s bs = [] /\ after s bs = mkSB st' u'
  | Some pc =>
      exists pre,
        bs = pre ++ p_bytes pc ++ bs' /\ p_bytes pc <> [] /\
        p_off pc = off + N.of_nat (length pre) /\ off' = p_off pc + N.of_nat (length (p_bytes pc)) /\
        (forall k, kept s (pre ++ firstn k (p_bytes pc)) = firstn k (p_bytes pc)) /\
        at_state (after s (pre ++ p_bytes pc)) st' u' bs'
  end.
Proof.
  intros Hok HI Hat H.
  pose proof (next_bytes_spec _ _ _ _ _ _ _ _ _ Hok (agrees_inv _ _ _ _ _ HI Hat) H) as Hp.
  destruct p as [pc|]; cbn [next_bytes_post] in Hp.
  - destruct Hp as (pre & sm1 & um1 & sm2 & um2 & Hbs & Hpoff & Hoff' & Hne & Hrun1 & Hrun2 & Hag2 & _).
    set (t := p_bytes pc) in *. exists pre.
    assert (Hrun : forall k x, mrun sm1 um1 (firstn k t) = Some x ->
              at_state s st u ((pre ++ firstn k t) ++ skipn k t ++ bs') /\
              mrun st u (pre ++ firstn k t) = Some (fst (fst x), snd (fst x), snd x)).
    { intros k [[sa ua] oa] Hx. split.
      - rewrite <- app_assoc, (app_assoc (firstn k t)), firstn_skipn, <- Hbs. exact Hat.
      - rewrite (mrun_app pre (firstn k t) _ _ _ _ _ Hrun1), Hx. reflexivity. }
    repeat (split; [assumption|]). split.
    + intros k.
      destruct (mrun_all_kept_prefix (firstn k t) (skipn k t) sm1 um1 sm2 um2) as (sa & ua & Hx).
      { rewrite firstn_skipn. exact Hrun2. }
      destruct (Hrun k _ Hx) as [Hat1 Hx1]. apply (at_state_run _ _ _ _ _ _ _ _ Hat1 Hx1).
    + pose proof (Hrun (length t)) as Hl. rewrite firstn_all, skipn_all in Hl.
      destruct (Hl _ Hrun2) as [Hat1 Hx1]. destruct (at_state_run _ _ _ _ _ _ _ _ Hat1 Hx1) as [_ ->].
      * exact Hag2.
      * destruct pre; [exact Hne|discriminate].
  - destruct Hp as [-> Hend]. rewrite (agrees_mrun _ _ _ _ _ Hat) in Hend.
    apply srun_kept_after in Hend. tauto.
Qed.

Lemma ss_replay_spec s x : bytes_ok x -> SInv s -> ss_replay s x = Some (after s x).
Proof.
  intros Hok HI. unfold ss_replay.
  destruct (strip_next_bytes_run x _ _ Hok HI) as (ps & st1 & u1 & -> & Hrun).
  apply srun_kept_after in Hrun as [_ ->]. reflexivity.
Qed.

Lemma run_post {A B C} (x : option (A * B * C)) (P : A -> B -> C -> Prop) a b c :
  (exists a b c, x = Some (a, b, c) /\ P a b c) -> x = Some (a, b, c) -> P a b c.
Proof. intros (a' & b' & c' & E & H) E'. rewrite E in E'. injection E' as -> -> ->. exact H. Qed.

(* what one call of StripStream::write guarantees, relative to the machine *)
Definition write_post (s : sbytes) (buf : list N) (w : writer) (s' : sbytes) (w' : writer) (r : sres) : Prop :=
  match r with
  | ROkN n =>
      n <= N.of_nat (length buf) /\
      w_received w' = w_received w ++ kept s (firstn (N.to_nat n) buf) /\
      s' = after s (firstn (N.to_nat n) buf) /\
      (length (w_script w') <= length (w_script w))%nat /\
      exists cs, w_calls w' = w_calls w ++ cs /\
                 (n = N.of_nat (length buf) -> Forall full_accept cs)
  | RErr k =>
      s' = s /\ exists piece, piece <> [] /\ w_write w piece = (w', inr k)
  | ROk => False
  end.

(* the loop has consumed [c] of [buf], all of whose kept bytes were accepted in full by the calls [cs] *)
Lemma ss_write_loop_spec : forall fuel buf s0 w0 c bs off st u delivered w cs,
  bytes_ok buf -> SInv s0 ->
  buf = c ++ bs -> off = N.of_nat (length c) -> (length bs < fuel)%nat ->
  at_state (after s0 c) st u bs ->
  w_received w = w_received w0 ++ kept s0 c ->
  w_calls w = w_calls w0 ++ cs -> Forall full_accept cs ->
  (length (w_script w) <= length (w_script w0))%nat ->
  (delivered = false -> w = w0) ->
  exists s' w' r, ss_write_loop fuel buf bs off s0 st u delivered w = Some (s', w', r) /\
                  write_post s0 buf w0 s' w' r.
Proof.
  induction fuel as [|fuel IH];
    intros buf s0 w0 c bs off st u delivered w cs Hok HI0 Hbuf Hoff Hlen Hat Hrec Hcalls Hfa Hscr Hdel; [lia|].
  pose proof Hok as Hokc. rewrite Hbuf in Hokc. apply bytes_ok_app in Hokc as [Hokc Hokbs].
  cbn [ss_write_loop].
  destruct (next_bytes_total bs off st u Hokbs) as [[[[[p bs'] off'] st'] u'] Hnb]. rewrite Hnb.
  pose proof (next_piece _ _ _ _ _ _ _ _ _ _ Hokbs (after_inv _ _ Hokc HI0) Hat Hnb) as Hp.
  destruct p as [pc|].
  2: { (* the iterator is exhausted: everything was delivered *)
    destruct Hp as (_ & Hk & Ha). pose proof Hok as Hok'. rewrite Hbuf in Hok'.
    assert (Hkb : kept s0 buf = kept s0 c) by (rewrite Hbuf, (kept_app _ _ _ Hok'), Hk; apply app_nil_r).
    assert (Hab : after s0 buf = mkSB st' u') by (rewrite Hbuf, (after_app _ _ _ Hok'); exact Ha).
    do 3 eexists. split; [reflexivity|]. cbn [write_post]. rewrite Nat2N.id, firstn_all, Hkb, Hab.
    refine (conj _ (conj Hrec (conj eq_refl (conj Hscr _)))).
    - lia.
    - exists cs. auto. }
  destruct Hp as (pre & Hbs & Hne & Hpoff & Hoff' & Hk & Hat').
  set (t := p_bytes pc) in *.
  assert (Htl : (0 < length t)%nat) by (destruct t; [contradiction|cbn [length]; lia]).
  assert (Hbuf' : buf = (c ++ pre) ++ t ++ bs') by (rewrite Hbuf, Hbs, <- app_assoc; reflexivity).
  assert (Hokx : forall k, bytes_ok (c ++ pre ++ firstn k t)).
  { intros k. rewrite <- (firstn_skipn k t), <- !app_assoc, !app_assoc in Hbuf'. rewrite Hbuf' in Hok.
    rewrite <- !app_assoc in Hok. rewrite !app_assoc in Hok. apply bytes_ok_app in Hok as [Hok _].
    apply bytes_ok_app in Hok as [Hok _]. rewrite <- app_assoc in Hok. exact Hok. }
  assert (Hkept : forall k, kept s0 ((c ++ pre) ++ firstn k t) = kept s0 c ++ firstn k t).
  { intros k. rewrite <- app_assoc, (kept_app _ _ _ (Hokx k)), Hk. reflexivity. }
  (* the call stops here after [m] bytes of this piece: rewind, replay the consumed prefix, report it *)
  assert (Hrewind : forall m w1 c1,
            m < N.of_nat (length t) -> w_received w1 = w_received w ++ firstn (N.to_nat m) t ->
            w_calls w1 = w_calls w ++ [c1] -> (length (w_script w1) <= length (w_script w))%nat ->
            exists s' w' r,
              (s1 <- ss_replay s0 (firstn (N.to_nat (p_off pc + m)) buf) ;; Some (s1, w1, ROkN (p_off pc + m)))
              = Some (s', w', r) /\ write_post s0 buf w0 s' w' r).
  { intros m w1 c1 Hm Hrec1 Hcalls1 Hscr1.
    rewrite (ss_replay_spec s0 _ (bytes_ok_firstn _ _ Hok) HI0).
    do 3 eexists. split; [reflexivity|]. cbn [write_post].
    assert (Hfirst : firstn (N.to_nat (p_off pc + m)) buf = (c ++ pre) ++ firstn (N.to_nat m) t).
    { rewrite Hpoff, Hoff, <- Nat2N.inj_add, <- app_length, to_nat_of_nat_add_n, Hbuf', firstn_app_2.
      f_equal. apply firstn_le_app. lia. }
    assert (Hlt : p_off pc + m < N.of_nat (length buf)).
    { rewrite Hpoff, Hoff, Hbuf', !app_length, !Nat2N.inj_add. lia. }
    rewrite Hfirst, Hkept.
    split; [lia|]. split; [rewrite Hrec1, Hrec, app_assoc; reflexivity|]. split; [reflexivity|].
    split; [lia|]. exists (cs ++ [c1]). split; [rewrite Hcalls1, Hcalls, app_assoc; reflexivity|]. lia. }
  destruct (w_write w t) as [w1 [written|e]] eqn:Hw.
  - destruct (w_write_inl _ _ _ _ Hw) as (Hwr & Hrec1 & Hcalls1 & Hscr1).
    destruct (N.of_nat (length t) =? written) eqn:Eq; cbn [negb].
    + (* the whole piece was accepted: next piece *)
      apply N.eqb_eq in Eq. subst written. rewrite Nat2N.id in Hrec1.
      apply (IH buf s0 w0 ((c ++ pre) ++ t) bs' off' st' u' true w1
                (cs ++ [CWrite t (inl (N.of_nat (length t)))])); try assumption.
      * rewrite Hbuf', !app_assoc. reflexivity.
      * rewrite Hoff', Hpoff, Hoff, !app_length, !Nat2N.inj_add. reflexivity.
      * rewrite Hbs, !app_length in Hlen. lia.
      * specialize (Hokx (length t)). rewrite firstn_all in Hokx.
        rewrite <- app_assoc, (after_app _ _ _ Hokx). exact Hat'.
      * specialize (Hkept (length t)). rewrite firstn_all in Hkept, Hrec1.
        rewrite Hkept, Hrec1, Hrec, app_assoc. reflexivity.
      * rewrite Hcalls1, Hcalls, app_assoc. reflexivity.
      * apply Forall_app. split; [exact Hfa|]. constructor; [exists t; reflexivity|constructor].
      * lia.
      * discriminate.
    + apply N.eqb_neq in Eq.
      destruct (N.of_nat (length t) <? written) eqn:El; [apply N.ltb_lt in El; lia|].
      apply (Hrewind written w1 _ ltac:(lia) Hrec1 Hcalls1 Hscr1).
  - destruct (w_write_inr _ _ _ _ Hw) as (rest & Hs & Hs1 & Hrec1 & Hcalls1).
    destruct delivered.
    + (* an error after something was delivered *)
      rewrite <- (N.add_0_r (p_off pc)). rewrite <- (app_nil_r (w_received w)) in Hrec1.
      apply (Hrewind 0 w1 _ ltac:(lia) Hrec1 Hcalls1). rewrite Hs, Hs1. cbn [length]. lia.
    + (* an error on the first inner write: nothing happened, surface it *)
      rewrite (Hdel eq_refl) in Hw.
      do 3 eexists. split; [reflexivity|]. cbn [write_post]. split; [reflexivity|]. exists t. auto.
Qed.

Theorem ss_write_spec s buf w :
  bytes_ok buf -> SInv s ->
  exists s' w' r, ss_write s buf w = Some (s', w', r) /\ write_post s buf w s' w' r.
Proof.
  intros Hok HI. unfold ss_write.
  apply (ss_write_loop_spec (S (length buf)) buf s w [] buf 0 (sb_state s) (sb_u s) false w []); auto.
  - rewrite after_nil. apply at_state_refl.
  - symmetry. apply app_nil_r.
  - symmetry. apply app_nil_r.
Qed.

Definition drive_post (s : sbytes) (buf : list N) (w : writer) (s' : sbytes) (w' : writer) (r : sres) : Prop :=
  exists p q, kept s buf = p ++ q /\ w_received w' = w_received w ++ p /\
              (r = ROk -> q = [] /\ s' = after s buf) /\ (forall n, r <> ROkN n).

Lemma drive_post_stop s buf w s' w' k : w_received w' = w_received w -> drive_post s buf w s' w' (RErr k).
Proof. intros Hrec. exists [], (kept s buf). rewrite app_nil_r. repeat split; auto; discriminate. Qed.

Lemma ss_drive_spec : forall fuel s w buf,
  bytes_ok buf -> SInv s ->
  (forall s' w' r, ss_drive fuel s w buf = Some (s', w', r) -> drive_post s buf w s' w' r) /\
  ((length (w_script w) + length buf < fuel)%nat -> exists x, ss_drive fuel s w buf = Some x).
Proof.
  assert (Hnil : forall fuel s w,
            (forall s' w' r, ss_drive fuel s w [] = Some (s', w', r) -> drive_post s [] w s' w' r) /\
            exists x, ss_drive fuel s w [] = Some x).
  { intros fuel s w. replace (ss_drive fuel s w []) with (Some (s, w, ROk)) by (destruct fuel; reflexivity).
    split; [|eauto]. intros s' w' r [= <- <- <-].
    exists [], []. rewrite after_nil, !app_nil_r. repeat split; auto; discriminate. }
  induction fuel as [|fuel IH]; intros s w buf Hok HI.
  { destruct buf; [split; [|intros _]; apply Hnil|]. split; [discriminate|cbn [length]; lia]. }
  destruct buf as [|b bs]; [split; [|intros _]; apply Hnil|].
  cbn [ss_drive]. set (buf := b :: bs) in *.
  assert (Hne : buf <> []) by discriminate.
  destruct (ss_write_spec s buf w Hok HI) as (s1 & w1 & [n| |k] & -> & Hpost); cbn [write_post] in Hpost.
  - destruct Hpost as (Hn & Hrec & Hs1 & Hscr & _).
    destruct n as [|pn].
    { split; [|eauto]. intros s' w' r [= <- <- <-]. apply drive_post_stop.
      rewrite Hrec. apply app_nil_r. }
    set (k := N.to_nat (N.pos pn)) in *.
    assert (Hok' : bytes_ok (firstn k buf ++ skipn k buf)) by (rewrite firstn_skipn; exact Hok).
    assert (HI1 : SInv s1) by (rewrite Hs1; apply after_inv; [apply bytes_ok_firstn; exact Hok|exact HI]).
    destruct (IH s1 w1 (skipn k buf) (bytes_ok_skipn k buf Hok) HI1) as [IHp IHt]. split.
    + intros s' w' r H. destruct (IHp _ _ _ H) as (p1 & q1 & Hk1 & Hrec1 & Hr & Hnn).
      exists (kept s (firstn k buf) ++ p1), q1.
      destruct (srun_app s _ _ Hok') as [Hkb Hab]. rewrite firstn_skipn, <- Hs1 in Hkb, Hab. rewrite Hkb, Hab.
      split; [rewrite Hk1, app_assoc; reflexivity|]. split; [rewrite Hrec1, Hrec, app_assoc; reflexivity|].
      split; [exact Hr|exact Hnn].
    + intros Hl. apply IHt. pose proof (skipn_length_lt k buf ltac:(lia) Hne). lia.
  - contradiction.
  - destruct Hpost as (-> & piece & _ & Hw).
    destruct (w_write_inr _ _ _ _ Hw) as (rest & Hsc & Hsc1 & Hrec & _).
    destruct k.
    { (* Interrupted: the same buffer again, one script entry shorter *)
      destruct (IH s w1 buf Hok HI) as [IHp IHt]. split.
      + intros s' w' r H. destruct (IHp _ _ _ H) as (p1 & q1 & Hk1 & Hrec1 & Hr). exists p1, q1.
        rewrite Hrec1, Hrec. auto.
      + intros Hl. apply IHt. rewrite Hsc in Hl. cbn [length] in Hl. rewrite Hsc1. lia. }
    (* every other kind ends the loop and is the answer *)
    all: split; [|eauto]; intros s' w' r [= <- <- <-]; apply drive_post_stop, Hrec.
Qed.

Definition write_all_post (s : sbytes) (buf : list N) (w : writer) (s' : sbytes) (w' : writer) (r : sres) : Prop :=
  SInv s' /\ (length (w_script w') <= length (w_script w))%nat /\
  exists cs, w_calls w' = w_calls w ++ cs /\
  match r with
  | ROk => w_received w' = w_received w ++ kept s buf /\ s' = after s buf /\ Forall benign cs
  | RErr k => (exists p q, kept s buf = p ++ q /\ w_received w' = w_received w ++ p) /\ err_calls cs k
  | ROkN _ => False
  end.

Lemma write_all_post_done s buf w s' :
  bytes_ok buf -> SInv s -> kept s buf = [] -> s' = after s buf -> write_all_post s buf w s' w ROk.
Proof.
  intros Hok HI Hk ->.
  split; [exact (after_inv _ _ Hok HI)|].
  split; [lia|].
  exists []. rewrite Hk, !app_nil_r. auto.
Qed.

(* std's write_all on the inner writer, handed the kept bytes of [x] *)
Lemma write_all_post_piece s x t w w1 r s' :
  kept s x = t -> w_write_all_post w t w1 r -> SInv s' ->
  match r with inl _ => s' = after s x | inr _ => True end ->
  write_all_post s x w s' w1 (sres_of_unit r).
Proof.
  intros <- (Hscr & cs & Hc & Hr) HI' Hs'.
  split; [exact HI'|].
  split; [exact Hscr|].
  exists cs. split; [exact Hc|].
  destruct r as [u|k]; cbn [sres_of_unit].
  - destruct Hr; auto.
  - exact Hr.
Qed.

Lemma write_all_post_seq s a b w s1 w1 s2 w2 r :
  bytes_ok (a ++ b) ->
  write_all_post s a w s1 w1 ROk -> write_all_post s1 b w1 s2 w2 r -> write_all_post s (a ++ b) w s2 w2 r.
Proof.
  intros Hok (_ & Hscr1 & cs1 & Hc1 & Hrec1 & -> & Hb1) (HI2 & Hscr2 & cs2 & Hc2 & Hr).
  split; [exact HI2|].
  split; [lia|].
  exists (cs1 ++ cs2).
  split; [rewrite Hc2, Hc1, app_assoc; reflexivity|].
  rewrite (kept_app s a b Hok), (after_app s a b Hok).
  destruct r as [n| |k].
  - exact Hr.
  - destruct Hr as (Hrec2 & Hs2 & Hb2). split; [rewrite Hrec2, Hrec1, app_assoc; reflexivity|].
    split; [exact Hs2|apply Forall_app; auto].
  - destruct Hr as [(p & q & Hpq & Hrec2) He]. split; [|apply err_calls_app; assumption].
    exists (kept s a ++ p), q. rewrite Hpq, Hrec2, Hrec1, !app_assoc. auto.
Qed.

Lemma write_all_post_err s a b w s1 w1 k :
  bytes_ok (a ++ b) -> write_all_post s a w s1 w1 (RErr k) -> write_all_post s (a ++ b) w s1 w1 (RErr k).
Proof.
  intros Hok (HI1 & Hscr & cs & Hc & (p & q & Hpq & Hrec) & He).
  split; [exact HI1|]. split; [exact Hscr|]. exists cs. split; [exact Hc|].
  split; [|exact He]. exists p, (q ++ kept (after s a) b). rewrite (kept_app s a b Hok), Hpq, app_assoc. auto.
Qed.

Lemma ss_write_all_loop_spec : forall fuel bs off st u w s,
  bytes_ok bs -> SInv s -> at_state s st u bs -> (length bs < fuel)%nat ->
  exists s' w' r, ss_write_all_loop fuel bs off st u w = Some (s', w', r) /\ write_all_post s bs w s' w' r.
Proof.
  induction fuel as [|fuel IH]; intros bs off st u w s Hok HI Hat Hlen; [lia|].
  cbn [ss_write_all_loop].
  destruct (next_bytes_total bs off st u Hok) as [[[[[p bs'] off'] st'] u'] Hnb]. rewrite Hnb.
  pose proof (next_piece _ _ _ _ _ _ _ _ _ _ Hok HI Hat Hnb) as Hp.
  destruct p as [pc|].
  2: { destruct Hp as (_ & Hk & Ha). do 3 eexists. split; [reflexivity|]. apply write_all_post_done; auto. }
  destruct Hp as (pre & -> & Hne & _ & _ & Hk & Hat').
  set (t := p_bytes pc) in *. specialize (Hk (length t)). rewrite firstn_all in Hk.
  rewrite app_assoc in Hok |- *. pose proof Hok as Hok2. apply bytes_ok_app in Hok2 as [Hokt Hok'].
  destruct (w_write_all w t) as [w1 r] eqn:Hw. apply w_write_all_spec in Hw.
  pose proof (after_inv _ _ Hokt HI) as HI1.
  destruct r as [[]|e].
  - destruct (IH bs' off' st' u' w1 (after s (pre ++ t)) Hok' HI1 Hat') as (s2 & w2 & r2 & Hl & Hpost2).
    { rewrite !app_length in Hlen. destruct t; [contradiction|cbn [length] in Hlen; lia]. }
    exists s2, w2, r2. split; [exact Hl|].
    exact (write_all_post_seq _ _ _ _ _ _ _ _ _ Hok (write_all_post_piece _ _ _ _ _ _ _ Hk Hw HI1 eq_refl) Hpost2).
  - (* the scanner stopped in a state that stands for a reachable one *)
    do 3 eexists. split; [reflexivity|].
    exact (write_all_post_err _ _ _ _ _ _ _ Hok
             (write_all_post_piece _ _ _ _ _ _ (mkSB st' u') Hk Hw (agrees_inv _ _ _ _ _ HI1 Hat') I)).
Qed.

Theorem ss_write_all_spec s buf w :
  bytes_ok buf -> SInv s ->
  exists s' w' r, ss_write_all s buf w = Some (s', w', r) /\ write_all_post s buf w s' w' r.
Proof.
  intros Hok HI. apply ss_write_all_loop_spec; [exact Hok|exact HI|apply at_state_refl|lia].
Qed.

Theorem ss_write_fmt_spec : forall frags s w,
  bytes_ok (concat frags) -> SInv s ->
  exists s' w' r, ss_write_fmt s frags w = Some (s', w', r) /\
                  write_all_post s (concat frags) w s' w' r.
Proof.
  induction frags as [|fr rest IH]; intros s w Hok HI; cbn [ss_write_fmt concat] in *.
  - do 3 eexists. split; [reflexivity|]. apply write_all_post_done; auto. symmetry. apply after_nil.
  - pose proof Hok as Hok2. apply bytes_ok_app in Hok2 as [Hfr Hrest].
    destruct (ss_write_all_spec s fr w Hfr HI) as (s1 & w1 & [n| |k] & -> & Hp1).
    + destruct Hp1 as (_ & _ & cs & _ & []).
    + destruct (IH s1 w1 Hrest (proj1 Hp1)) as (s2 & w2 & r2 & Hf & Hp2).
      exists s2, w2, r2. split; [exact Hf|]. exact (write_all_post_seq _ _ _ _ _ _ _ _ _ Hok Hp1 Hp2).
    + do 3 eexists. split; [reflexivity|]. apply write_all_post_err; assumption.
Qed.

Theorem write_refines : forall s buf w,
  bytes_ok buf -> Inv (sb_state s) (sb_u s) ->
  (exists s' w' r, ss_write s buf w = Some (s', w', r) /\ r <> ROk) /\
  (forall s' w' n, ss_write s buf w = Some (s', w', ROkN n) ->
     n <= N.of_nat (length buf) /\
     w_received w' = w_received w ++ kept s (firstn (N.to_nat n) buf) /\
     s' = after s (firstn (N.to_nat n) buf)) /\
  (forall s' w' k, ss_write s buf w = Some (s', w', RErr k) ->
     s' = s /\ w_received w' = w_received w /\
     exists piece rest, piece <> [] /\ w_script w = Fail k :: rest /\ w_script w' = rest /\
                        w_calls w' = w_calls w ++ [CWrite piece (inr k)]).
Proof.
  intros s buf w Hok HI. pose proof (ss_write_spec s buf w Hok HI) as Hsp.
  split; [|split].
  - destruct Hsp as (s1 & w1 & r1 & Hwr & Hpost). exists s1, w1, r1. split; [exact Hwr|]. intros ->. exact Hpost.
  - intros s' w' n H. destruct (run_post _ _ _ _ _ Hsp H) as (A & B & C & _). auto.
  - intros s' w' k H. destruct (run_post _ _ _ _ _ Hsp H) as (-> & piece & Hne & Hw).
    destruct (w_write_inr _ _ _ _ Hw) as (rest & Hs & Hs1 & Hrec & Hcalls).
    split; [reflexivity|]. split; [exact Hrec|]. exists piece, rest. auto.
Qed.

Theorem protocol_delivers : forall fuel s w buf s' w' r,
  bytes_ok buf -> Inv (sb_state s) (sb_u s) ->
  ss_drive fuel s w buf = Some (s', w', r) ->
  exists p q, kept s buf = p ++ q /\ w_received w' = w_received w ++ p /\
              (r = ROk -> q = [] /\ s' = after s buf) /\ (forall n, r <> ROkN n).
Proof. intros fuel s w buf s' w' r Hok HI. apply (ss_drive_spec fuel s w buf Hok HI). Qed.

Theorem protocol_fuel_suffices : forall fuel s w buf,
  bytes_ok buf -> Inv (sb_state s) (sb_u s) ->
  (length (w_script w) + length buf < fuel)%nat ->
  exists x, ss_drive fuel s w buf = Some x.
Proof. intros fuel s w buf Hok HI. apply (ss_drive_spec fuel s w buf Hok HI). Qed.

Theorem protocol_delivers_spec_strip : forall script buf,
  bytes_ok buf ->
  exists s' w' r, ss_drive_all script buf = Some (s', w', r) /\
    (exists q, spec_strip buf = w_received w' ++ q /\ (r = ROk -> q = [])) /\
    (forall n, r <> ROkN n).
Proof.
  intros script buf Hok. unfold ss_drive_all.
  destruct (ss_drive_spec (S (length script + length buf)) sb_new (writer_of script) buf Hok SInv_new) as [Hp Ht].
  destruct Ht as [[[s' w'] r] H]; [cbn [writer_of w_script]; lia|].
  exists s', w', r. split; [exact H|].
  destruct (Hp _ _ _ H) as (p & q & Hk & Hrec & Hr & Hn).
  cbn [writer_of w_received app] in Hrec. rewrite (kept_new_is_spec buf Hok) in Hk.
  split; [|exact Hn]. exists q. rewrite Hrec. split; [exact Hk|]. intros E. apply Hr, E.
Qed.

Theorem write_all_refines : forall s buf w,
  bytes_ok buf -> Inv (sb_state s) (sb_u s) ->
  (exists s' w' r, ss_write_all s buf w = Some (s', w', r) /\ forall n, r <> ROkN n) /\
  (forall s' w', ss_write_all s buf w = Some (s', w', ROk) ->
     w_received w' = w_received w ++ kept s buf /\ s' = after s buf) /\
  (forall s' w' k, ss_write_all s buf w = Some (s', w', RErr k) ->
     (exists p q, kept s buf = p ++ q /\ w_received w' = w_received w ++ p) /\
     exists cs, w_calls w' = w_calls w ++ cs /\ err_calls cs k).
Proof.
  intros s buf w Hok HI. pose proof (ss_write_all_spec s buf w Hok HI) as Hsp.
  split; [|split].
  - destruct Hsp as (s1 & w1 & r1 & Hwr & _ & _ & cs & _ & Hr). exists s1, w1, r1. split; [exact Hwr|]. intros n ->. exact Hr.
  - intros s' w' H. destruct (run_post _ _ _ _ _ Hsp H) as (_ & _ & cs & _ & Hr). tauto.
  - intros s' w' k H. destruct (run_post _ _ _ _ _ Hsp H) as (_ & _ & cs & Hc & Hp & He). eauto.
Qed.

Theorem write_fmt_refines : forall s frags w,
  bytes_ok (concat frags) -> Inv (sb_state s) (sb_u s) ->
  (exists s' w' r, ss_write_fmt s frags w = Some (s', w', r) /\ forall n, r <> ROkN n) /\
  (forall s' w', ss_write_fmt s frags w = Some (s', w', ROk) ->
     w_received w' = w_received w ++ kept s (concat frags) /\ s' = after s (concat frags)) /\
  (forall s' w' k, ss_write_fmt s frags w = Some (s', w', RErr k) ->
     (exists p q, kept s (concat frags) = p ++ q /\ w_received w' = w_received w ++ p) /\
     exists cs, w_calls w' = w_calls w ++ cs /\ err_calls cs k).
Proof.
  intros s frags w Hok HI. pose proof (ss_write_fmt_spec frags s w Hok HI) as Hsp.
  split; [|split].
  - destruct Hsp as (s1 & w1 & r1 & Hwr & _ & _ & cs & _ & Hr). exists s1, w1, r1. split; [exact Hwr|]. intros n ->. exact Hr.
  - intros s' w' H. destruct (run_post _ _ _ _ _ Hsp H) as (_ & _ & cs & _ & Hr). tauto.
  - intros s' w' k H. destruct (run_post _ _ _ _ _ Hsp H) as (_ & _ & cs & Hc & Hp & He). eauto.
Qed.

Lemma first_nonempty_spec : forall bufs,
  (first_nonempty bufs = [] /\ Forall (fun b => b = []) bufs) \/
  (exists pre rest, bufs = pre ++ first_nonempty bufs :: rest /\
                    Forall (fun b => b = []) pre /\ first_nonempty bufs <> []).
Proof.
  induction bufs as [|b bufs IH]; [left; split; [reflexivity|constructor]|].
  destruct b as [|x b]; cbn [first_nonempty].
  - destruct IH as [[H1 H2]|(pre & rest & H1 & H2 & H3)].
    + left. split; [exact H1|constructor; auto].
    + right. exists ([] :: pre), rest. split; [cbn; rewrite <- H1; reflexivity|].
      split; [constructor; auto|exact H3].
  - right. exists [], bufs. split; [reflexivity|]. split; [constructor|discriminate].
Qed.

(* write_vectored is `write` of the first non-empty buffer (so [write_refines] applies to it) *)
Theorem vectored_refines : forall s w bufs,
  ss_op s w (OWriteVectored bufs) = ss_write s (first_nonempty bufs) w /\
  ((first_nonempty bufs = [] /\ Forall (fun b => b = []) bufs) \/
   (exists pre rest, bufs = pre ++ first_nonempty bufs :: rest /\
                     Forall (fun b => b = []) pre /\ first_nonempty bufs <> [])).
Proof. intros s w bufs. split; [reflexivity|apply first_nonempty_spec]. Qed.

(* an error is the inner writer's own (or WriteZero on `Accept 0`); success saw no failure
   (write), resp. none but the `Interrupted` ones std's write_all retries (write_all, write_fmt) *)
Theorem error_kind_preserved : forall s w,
  Inv (sb_state s) (sb_u s) ->
  (forall buf s' w' k, bytes_ok buf -> ss_write s buf w = Some (s', w', RErr k) ->
     exists piece, w_calls w' = w_calls w ++ [CWrite piece (inr k)]) /\
  (forall buf s' w' k, bytes_ok buf -> ss_write_all s buf w = Some (s', w', RErr k) ->
     exists cs, w_calls w' = w_calls w ++ cs /\ err_calls cs k) /\
  (forall frags s' w' k, bytes_ok (concat frags) -> ss_write_fmt s frags w = Some (s', w', RErr k) ->
     exists cs, w_calls w' = w_calls w ++ cs /\ err_calls cs k) /\
  (forall buf s' w', bytes_ok buf -> ss_write s buf w = Some (s', w', ROkN (N.of_nat (length buf))) ->
     exists cs, w_calls w' = w_calls w ++ cs /\ Forall full_accept cs) /\
  (forall buf s' w', bytes_ok buf -> ss_write_all s buf w = Some (s', w', ROk) ->
     exists cs, w_calls w' = w_calls w ++ cs /\ Forall benign cs) /\
  (forall frags s' w', bytes_ok (concat frags) -> ss_write_fmt s frags w = Some (s', w', ROk) ->
     exists cs, w_calls w' = w_calls w ++ cs /\ Forall benign cs).
Proof.
  intros s w HI. repeat split.
  - intros buf s' w' k Hok H.
    destruct (run_post _ _ _ _ _ (ss_write_spec s buf w Hok HI) H) as (_ & piece & _ & Hw).
    destruct (w_write_inr _ _ _ _ Hw) as (_ & _ & _ & _ & Hc). eauto.
  - intros buf s' w' k Hok H.
    destruct (run_post _ _ _ _ _ (ss_write_all_spec s buf w Hok HI) H) as (_ & _ & cs & Hc & _ & He). eauto.
  - intros frags s' w' k Hok H.
    destruct (run_post _ _ _ _ _ (ss_write_fmt_spec frags s w Hok HI) H) as (_ & _ & cs & Hc & _ & He). eauto.
  - intros buf s' w' Hok H.
    destruct (run_post _ _ _ _ _ (ss_write_spec s buf w Hok HI) H) as (_ & _ & _ & _ & cs & Hc & Hf). eauto.
  - intros buf s' w' Hok H.
    destruct (run_post _ _ _ _ _ (ss_write_all_spec s buf w Hok HI) H) as (_ & _ & cs & Hc & _ & _ & Hb). eauto.
  - intros frags s' w' Hok H.
    destruct (run_post _ _ _ _ _ (ss_write_fmt_spec frags s w Hok HI) H) as (_ & _ & cs & Hc & _ & _ & Hb). eauto.
Qed.
