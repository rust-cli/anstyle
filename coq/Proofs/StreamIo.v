(* The scripted inner writers of Spec/Io under std's `write_all` loop: its fuel always
   suffices, and [w_write_all_outcome] says what holds when it ends, proved by the one
   induction over the loop; the form C06 / C08 use ([w_write_all_post]) and the form C17
   uses (Proofs/IoFacts.v) are read off it. *)
From Coq Require Import NArith Arith List Bool Lia.
From AV Require Import Spec.Io Proofs.BaseFacts.
Import ListNotations.
Local Open Scope N_scope.

Definition full_accept (c : wcall) : Prop := exists x, c = CWrite x (inl (N.of_nat (length x))).

(* nothing std's write_all would report: a (possibly short) accept, or Interrupted (retried) *)
Definition benign (c : wcall) : Prop :=
  match c with
  | CWrite _ (inl _) => True
  | CWrite _ (inr k) => k = Interrupted
  | CFlush => False
  end.

(* where an error kind may come from: the calls made during the operation are
   benign ones followed by a LAST call that the inner writer answered with
   `Fail k`, or in which it accepted 0 bytes of a non-empty buffer (k = WriteZero) *)
Definition err_calls (cs : list wcall) (k : ekind) : Prop :=
  exists h x, Forall benign h /\
    (cs = h ++ [CWrite x (inr k)] \/
     (k = WriteZero /\ x <> [] /\ cs = h ++ [CWrite x (inl 0)])).

Lemma full_accept_benign c : full_accept c -> benign c.
Proof. intros [x ->]. exact I. Qed.

Lemma err_calls_app a b k : Forall benign a -> err_calls b k -> err_calls (a ++ b) k.
Proof.
  intros Ha (h & x & Hh & Hc). exists (a ++ h), x. split; [apply Forall_app; auto|].
  destruct Hc as [->|(-> & Hx & ->)]; [left|right]; rewrite <- app_assoc; auto.
Qed.

Lemma to_nat_of_nat_add a b : N.to_nat (N.of_nat a + N.of_nat b) = (a + b)%nat.
Proof. rewrite N2Nat.inj_add, !Nat2N.id. reflexivity. Qed.

Lemma to_nat_of_nat_add_n a n : N.to_nat (N.of_nat a + n) = (a + N.to_nat n)%nat.
Proof. rewrite N2Nat.inj_add, Nat2N.id. reflexivity. Qed.

Lemma firstn_le_app {A} (k : nat) (l1 l2 : list A) :
  (k <= length l1)%nat -> firstn k (l1 ++ l2) = firstn k l1.
Proof.
  intros H. rewrite firstn_app. replace (k - length l1)%nat with 0%nat by lia.
  cbn [firstn]. apply app_nil_r.
Qed.

Lemma skipn_length_lt {A} (k : nat) (l : list A) :
  (0 < k)%nat -> l <> [] -> (length (skipn k l) < length l)%nat.
Proof.
  intros Hk Hl. rewrite skipn_length. destruct l; [contradiction|]. cbn [length]. lia.
Qed.

Lemma firstn_add {A} : forall a b (l : list A),
  firstn (a + b) l = firstn a l ++ firstn b (skipn a l).
Proof.
  induction a as [|a IH]; intros b l; cbn [Nat.add firstn skipn app]; [reflexivity|].
  destruct l as [|x l]; cbn [firstn skipn app].
  - now rewrite firstn_nil.
  - now rewrite IH.
Qed.

Lemma w_write_inl w buf w1 n :
  w_write w buf = (w1, inl n) ->
  n <= N.of_nat (length buf) /\
  w_received w1 = w_received w ++ firstn (N.to_nat n) buf /\
  w_calls w1 = w_calls w ++ [CWrite buf (inl n)] /\
  (length (w_script w1) <= length (w_script w))%nat.
Proof.
  unfold w_write. destruct (w_script w) as [|[a|e] rest]; intros H; inversion H; subst; clear H;
    cbn [w_received w_calls w_script length].
  - rewrite Nat2N.id, firstn_all. repeat split; auto; lia.
  - repeat split; auto; lia.
Qed.

Lemma w_write_inr w buf w1 k :
  w_write w buf = (w1, inr k) ->
  exists rest, w_script w = Fail k :: rest /\ w_script w1 = rest /\
    w_received w1 = w_received w /\ w_calls w1 = w_calls w ++ [CWrite buf (inr k)].
Proof.
  unfold w_write. destruct (w_script w) as [|[a|e] rest]; intros H; inversion H; subst; clear H.
  exists rest. cbn. auto.
Qed.

Lemma w_write_accept_all w buf :
  w_script w = [] ->
  w_write w buf = (mkW [] (w_received w ++ buf) (w_calls w ++ [CWrite buf (inl (N.of_nat (length buf)))]),
                   inl (N.of_nat (length buf))).
Proof. intros Hs. unfold w_write. rewrite Hs. reflexivity. Qed.

Definition w_write_all_post (w : writer) (buf : list N) (w1 : writer) (r : unit + ekind) : Prop :=
  (length (w_script w1) <= length (w_script w))%nat /\
  exists cs, w_calls w1 = w_calls w ++ cs /\
  match r with
  | inl _ => w_received w1 = w_received w ++ buf /\ Forall benign cs
  | inr k => (exists p q, buf = p ++ q /\ w_received w1 = w_received w ++ p) /\ err_calls cs k
  end.

(* everything the loop guarantees when it ends in [r]: on success the whole buffer was received over benign
   calls; on failure the first [j] bytes were, and the LAST call, made on the rest of the buffer, is the one
   that failed -- with the reported kind, or by accepting nothing (WriteZero).  Interrupted is never reported. *)
Definition w_write_all_outcome (w : writer) (buf : list N) (w1 : writer) (r : unit + ekind) : Prop :=
  (length (w_script w1) <= length (w_script w))%nat /\
  exists cs, w_calls w1 = w_calls w ++ cs /\
  match r with
  | inl _ => w_received w1 = w_received w ++ buf /\ Forall benign cs
  | inr k =>
      exists j h res,
        (j < length buf)%nat /\ w_received w1 = w_received w ++ firstn j buf /\
        cs = h ++ [CWrite (skipn j buf) res] /\ Forall benign h /\
        k <> Interrupted /\ (res = inr k \/ (res = inl 0 /\ k = WriteZero))
  end.

(* the loop stops at a call that delivered nothing *)
Lemma w_write_all_outcome_stop w buf w1 res k :
  buf <> [] -> w_received w1 = w_received w ++ firstn 0 buf -> w_calls w1 = w_calls w ++ [CWrite buf res] ->
  (length (w_script w1) <= length (w_script w))%nat ->
  k <> Interrupted -> res = inr k \/ (res = inl 0 /\ k = WriteZero) ->
  w_write_all_outcome w buf w1 (inr k).
Proof.
  intros Hne Hrec Hcalls Hscr Hk Hres. split; [exact Hscr|]. exists [CWrite buf res]. split; [exact Hcalls|].
  exists 0%nat, [], res. repeat split; auto. destruct buf; [contradiction|cbn [length]; lia].
Qed.

(* the loop goes on after a benign call [c] that delivered the first [n] bytes
   (n = 0: an Interrupted call, retried with the same buffer) *)
Lemma w_write_all_outcome_step w buf wa c n w1 r :
  w_received wa = w_received w ++ firstn n buf -> w_calls wa = w_calls w ++ [c] ->
  (length (w_script wa) <= length (w_script w))%nat -> benign c ->
  w_write_all_outcome wa (skipn n buf) w1 r -> w_write_all_outcome w buf w1 r.
Proof.
  intros Hrec Hcalls Hscr Hc (Hscr1 & cs & Hcs & Hr). split; [lia|]. exists (c :: cs).
  split; [rewrite Hcs, Hcalls, <- app_assoc; reflexivity|].
  destruct r as [u|k].
  - destruct Hr as [Hr Hb]. split; [|constructor; assumption].
    rewrite Hr, Hrec, <- app_assoc, firstn_skipn. reflexivity.
  - destruct Hr as (j & h & res & Hj & Hr & -> & Hh & Hres). rewrite skipn_length in Hj.
    exists (n + j)%nat, (c :: h), res. rewrite firstn_add, skipn_add, Hr, Hrec, <- app_assoc.
    split; [lia|]. do 2 (split; [reflexivity|]). split; [constructor; assumption|exact Hres].
Qed.

Lemma w_write_all_fuel_outcome : forall fuel w buf w1 r,
  (length (w_script w) + length buf < fuel)%nat ->
  w_write_all_fuel fuel w buf = (w1, r) ->
  w_write_all_outcome w buf w1 r.
Proof.
  induction fuel as [|fuel IH]; intros w buf w1 r Hlen H; [lia|].
  destruct buf as [|b bs].
  - cbn in H. inversion H; subst. split; [lia|]. exists []. rewrite !app_nil_r. auto.
  - set (buf := b :: bs) in *.
    assert (Hne : buf <> []) by discriminate.
    cbn [w_write_all_fuel] in H. fold buf in H.
    destruct (w_write w buf) as [wa [n|e]] eqn:Hw.
    + destruct (w_write_inl _ _ _ _ Hw) as (Hn & Hrec & Hcalls & Hscr).
      destruct n as [|p].
      * inversion H; subst. apply (w_write_all_outcome_stop _ _ _ _ _ Hne Hrec Hcalls Hscr); [discriminate|auto].
      * apply (w_write_all_outcome_step _ _ _ _ _ _ _ Hrec Hcalls Hscr I), IH; [|exact H].
        pose proof (skipn_length_lt (N.to_nat (N.pos p)) buf ltac:(lia) Hne). lia.
    + destruct (w_write_inr _ _ _ _ Hw) as (rest & Hs & Hs1 & Hrec & Hcalls).
      rewrite <- (app_nil_r (w_received w)) in Hrec.
      assert (Hscr : (length (w_script wa) < length (w_script w))%nat) by (rewrite Hs, Hs1; cbn [length]; lia).
      destruct e.
      { (* Interrupted: retry with the same buffer, one script entry shorter *)
        apply (w_write_all_outcome_step _ _ _ _ 0%nat _ _ Hrec Hcalls); [lia|reflexivity|]. apply (IH wa buf); [lia|exact H]. }
      (* every other kind ends the loop and is the answer *)
      all: inversion H; subst; apply (w_write_all_outcome_stop _ _ _ _ _ Hne Hrec Hcalls); [lia|discriminate|auto].
Qed.

Lemma w_write_all_outcome_post w buf w1 r : w_write_all_outcome w buf w1 r -> w_write_all_post w buf w1 r.
Proof.
  intros (Hscr & cs & Hc & Hr). split; [exact Hscr|]. exists cs. split; [exact Hc|].
  destruct r as [u|k]; [exact Hr|].
  destruct Hr as (j & h & res & Hj & Hrec & -> & Hh & _ & Hres). split.
  - exists (firstn j buf), (skipn j buf). rewrite firstn_skipn. auto.
  - exists h, (skipn j buf). split; [exact Hh|].
    destruct Hres as [->|[-> ->]]; [left; reflexivity|right]. repeat split; auto.
    intros E. apply (f_equal (@length N)) in E. rewrite skipn_length in E. cbn [length] in E. lia.
Qed.

Lemma w_write_all_outcome_spec w buf w1 r :
  w_write_all w buf = (w1, r) -> w_write_all_outcome w buf w1 r.
Proof. unfold w_write_all. apply w_write_all_fuel_outcome. lia. Qed.

Lemma w_write_all_spec w buf w1 r :
  w_write_all w buf = (w1, r) -> w_write_all_post w buf w1 r.
Proof. intros H. apply w_write_all_outcome_post, w_write_all_outcome_spec, H. Qed.

Lemma w_write_all_accept_all w buf :
  w_script w = [] ->
  exists w1, w_write_all w buf = (w1, inl tt) /\ w_script w1 = [] /\
             w_received w1 = w_received w ++ buf.
Proof.
  intros Hs. unfold w_write_all. rewrite Hs. cbn [length Nat.add].
  destruct buf as [|b bs].
  - exists w. cbn. rewrite app_nil_r. auto.
  - set (buf := b :: bs). cbn [w_write_all_fuel]. fold buf.
    rewrite (w_write_accept_all w buf Hs).
    destruct (N.of_nat (length buf)) as [|p] eqn:E; [discriminate E|].
    rewrite <- E, Nat2N.id, skipn_all. eexists. split; [destruct (length bs); reflexivity|]. cbn. auto.
Qed.
