(* Proofs/TermcolorFnGen.v -- C16, termcolor: what the TRANSLATED rendering code of the library
   (Generated/TermcolorFn.v: termcolor::Ansi<Vec<u8>>::set_color / write_color / reset and the
   harness entry point `tc::render`, translated from the registry source cargo links) writes for
   a ColorSpec, and what a terminal (Spec/Vt + Spec/Sgr, the interpreter of C05 / C07) makes of it;
   composed with Proofs/AdaptersGen.v and Proofs/Adapters.v: render (convert s) is read as
   ad_project AdTermcolor s, for every anstyle style s with u8 components.
   There is no hand model in between: the statements are about the generated functions. *)
From Coq Require Import String.
From Coq Require Import NArith Arith List Bool Lia.
From AV Require Import Spec.Vt Spec.Sgr Spec.Render Spec.Targets Model.Base Model.Imp Proofs.BaseFacts
  Generated.Adapters Model.Adapters Generated.AdaptersFn Proofs.Adapters Proofs.AdaptersGen
  Model.Termcolor Generated.TermcolorFn Proofs.TermcolorVt.
Import ListNotations.
Local Open Scope N_scope.

(* the values the Rust types can hold *)
Definition tcr_color_ok (c : tc_color) : Prop :=
  match c with
  | TcAnsi256 n => n < 256
  | TcRgb r g b => r < 256 /\ g < 256 /\ b < 256
  | TcNonexhaustive => False       (* #[doc(hidden)]: write_color panics on it (unreachable!) *)
  | _ => True
  end.
Definition tcr_ocolor_ok (o : option tc_color) : Prop := match o with Some c => tcr_color_ok c | None => True end.
Definition tcr_spec_ok (sp : tc_spec) : Prop := tcr_ocolor_ok (tcs_fg_color sp) /\ tcr_ocolor_ok (tcs_bg_color sp).

Definition tcr_hue (c : tc_color) : N :=
  match c with
  | TcBlack => 0 | TcRed => 1 | TcGreen => 2 | TcYellow => 3 | TcBlue => 4 | TcMagenta => 5 | TcCyan => 6 | TcWhite => 7
  | _ => 0
  end.

(* parameters as digit strings; [first] is the digit '3' (foreground) or '4' (background) *)
Definition tcr_color_params (first : N) (intense : bool) (c : tc_color) : list (list (list N)) :=
  match c with
  | TcAnsi256 n => [[[first; 56]]; [[53]]; [tcv_digits n]]
  | TcRgb r g b => [[[first; 56]]; [[50]]; [tcv_digits r]; [tcv_digits g]; [tcv_digits b]]
  | TcNonexhaustive => []
  | _ => if intense then [[[first; 56]]; [[53]]; [tcv_digits (8 + tcr_hue c)]] else [[first :: tcv_digits (tcr_hue c)]]
  end.
Definition tcr_slot_digit (fg : bool) : N := if fg then 51 else 52.

Definition tcr_ocolor_params (fg : bool) (intense : bool) (o : option tc_color) : list (list (list (list N))) :=
  match o with Some c => [tcr_color_params (tcr_slot_digit fg) intense c] | None => [] end.

Definition tcr_flag (b : bool) (digit : N) : list (list (list (list N))) := if b then [[[[digit]]]] else [].

(* the control sequences set_color writes, in order, as printed parameter lists *)
Definition tcr_params (sp : tc_spec) : list (list (list (list N))) :=
  tcr_flag (tcs_reset sp) 48 ++ tcr_flag (tcs_bold sp) 49 ++ tcr_flag (tcs_dimmed sp) 50 ++ tcr_flag (tcs_italic sp) 51
  ++ tcr_flag (tcs_underline sp) 52 ++ tcr_flag (tcs_strikethrough sp) 57
  ++ tcr_ocolor_params true (tcs_intense sp) (tcs_fg_color sp) ++ tcr_ocolor_params false (tcs_intense sp) (tcs_bg_color sp).

Definition tcr_seqs (prs : list (list (list (list N)))) : list (list N) := map (fun pr => rn_csi pr 109) prs.

(* what `render` returns: the sequences of set_color, the text "x", ESC [ 0 m *)
Definition tcr_bytes (sp : tc_spec) : list N := concat (tcr_seqs (tcr_params sp)) ++ [120] ++ rn_csi [[[48]]] 109.

Definition tcr_colour (intense : bool) (c : tc_color) : colour :=
  match c with
  | TcAnsi256 n => CIdx n
  | TcRgb r g b => CRgb r g b
  | _ => if intense then CIdx (8 + tcr_hue c) else CAnsi (tcr_hue c)
  end.
Definition tcr_eff (sp : tc_spec) : N :=
  N.lor (if tcs_bold sp then bit BOLD else 0) (N.lor (if tcs_dimmed sp then bit DIMMED else 0)
  (N.lor (if tcs_italic sp then bit ITALIC else 0) (N.lor (if tcs_underline sp then bit UNDERLINE else 0)
  (if tcs_strikethrough sp then bit STRIKETHROUGH else 0)))).
Definition tcr_shown (sp : tc_spec) : sstyle :=
  mkStyle (option_map (tcr_colour (tcs_intense sp)) (tcs_fg_color sp))
          (option_map (tcr_colour (tcs_intense sp)) (tcs_bg_color sp)) None (tcr_eff sp).

(* Generated/AdaptersFn.v builds the adapter's result over the vocabulary of Model/Adapters.v:
   `ColorSpec::new()` = ad_t_new, `set_fg(c)` / `set_bg(c)` = the slot, `set_x(true)` = the NAME
   set_x appended to the attribute list.  The ColorSpec that value denotes: the translated
   `ColorSpec::new`, the translated `set_fg` / `set_bg`, then the translated setter of every name in
   call order (tables g_tcr_color_names / g_tcr_flag_setters, written by the plug-in from the enum's
   variants and the impl's methods). *)
Definition tcr_color_of (c : ad_tcolor) : option tc_color :=
  match c with
  | AdNamed nm => ad_assoc nm g_tcr_color_names
  | AdFixed n => Some (TcAnsi256 n)
  | AdRgb r g b => Some (TcRgb r g b)
  end.
Definition tcr_ocolor_of (o : option ad_tcolor) : option (option tc_color) :=
  match o with None => Some None | Some c => option_map Some (tcr_color_of c) end.
Fixpoint tcr_apply_attrs (sp : tc_spec) (names : list (list N)) : option tc_spec :=
  match names with
  | [] => Some sp
  | nm :: rest =>
      match ad_assoc nm g_tcr_flag_setters with
      | Some f => tcr_apply_attrs (fst (f sp true)) rest
      | None => None
      end
  end.
Definition tcr_spec_of (t : ad_tstyle) : option tc_spec :=
  match tcr_ocolor_of (ad_t_fg t), tcr_ocolor_of (ad_t_bg t), ad_t_ul t with
  | Some fg, Some bg, None =>
      tcr_apply_attrs (fst (g_tcr_set_bg (fst (g_tcr_set_fg g_tcr_spec_new fg)) bg)) (ad_t_attrs t)
  | _, _, _ => None
  end.

Definition tcr_tcolor_ok (o : option ad_tcolor) : Prop :=
  match o with
  | Some (AdFixed n) => n < 256
  | Some (AdRgb r g b) => r < 256 /\ g < 256 /\ b < 256
  | _ => True
  end.
Definition tcr_tstyle_ok (t : ad_tstyle) : Prop := tcr_tcolor_ok (ad_t_fg t) /\ tcr_tcolor_ok (ad_t_bg t).
Definition tcr_src_u8 (s : sstyle) : Prop := rn_ocolour_wf (s_fg s) /\ rn_ocolour_wf (s_bg s).

Definition tcr_render_tstyle (t : ad_tstyle) : option (list N) := sp <- tcr_spec_of t ;; g_tcr_render sp.

(* write_color unrolls two macros of the library for the custom forms: `write_custom!` copies the fixed part of
   the sequence into a 19-byte buffer, runs `write_var_ansi_code!` once per component and sends what was written.
   [var_code] is the second macro, in continuation-passing form: the decimal digits of [c] without leading
   zeros, then ';', go into [fmt] after index [i] *)
Definition var_code {A} (c : N) (fmt : list N) (i : N) (K : list N -> N -> option A) : option A :=
  q <- (if 100 =? 0 then None else Some (c / 100)) ;;
  c1 <- (if 10 =? 0 then None else Some (q mod 10)) ;;
  q1 <- (if 10 =? 0 then None else Some (c / 10)) ;;
  c2 <- (if 10 =? 0 then None else Some (q1 mod 10)) ;;
  c3 <- (if 10 =? 0 then None else Some (c mod 10)) ;;
  '(fmt1, i1, printed) <- (if negb (c1 =? 0) then
      s <- cadd 8 48 c1 ;; arr <- aset fmt (i + 1) s ;; Some (arr, i + 1, true)
    else Some (fmt, i, false)) ;;
  '(fmt2, i2) <- (if negb (c2 =? 0) || printed then
      s <- cadd 8 48 c2 ;; arr <- aset fmt1 (i1 + 1) s ;; Some (arr, i1 + 1)
    else Some (fmt1, i1)) ;;
  s <- cadd 8 48 c3 ;;
  arr <- aset fmt2 (i2 + 1) s ;;
  arr1 <- aset arr (i2 + 1 + 1) 59 ;;
  K arr1 (i2 + 1 + 1).

(* the end of `write_custom!`: the last ';' is overwritten by 'm' and the buffer up to it is written *)
Definition finish (w fmt : list N) (i : N) : option (list N * (unit + unit)) :=
  arr <- aset fmt i 109 ;;
  sl <- slice arr 0 (i + 1) ;;
  Some (g_tcr_ansi_write_all w sl).

(* the fixed part: ESC [ 38 ; kind ;  or  ESC [ 48 ; kind ; *)
Definition custom_pre (fg : bool) (kind : N) : list N := [27; 91; tcr_slot_digit fg; 56; 59; kind; 59].

(* each of the three matches around a custom form (on intense, on the colour, on fg) hands the result on *)
Lemma bind_ret3 (o : option (list N * (unit + unit))) :
  ('(w, v) <- ('(w, v) <- ('(w, v) <- o ;; Some (w, v)) ;; Some (w, v)) ;; Some (w, v)) = o.
Proof. now destruct o as [[]|]. Qed.

Lemma write_color_ansi256 w fg n intense :
  g_tcr_ansi_write_color w fg (TcAnsi256 n) intense =
  var_code n (custom_pre fg 53 ++ repeat 0 12) 6 (finish w).
Proof. destruct intense, fg; refine (eq_trans _ (bind_ret3 _)); reflexivity. Qed.

Lemma write_color_rgb w fg r g b intense :
  g_tcr_ansi_write_color w fg (TcRgb r g b) intense =
  var_code r (custom_pre fg 50 ++ repeat 0 12) 6 (fun f i =>
  var_code g f i (fun f i => var_code b f i (finish w))).
Proof. destruct intense, fg; refine (eq_trans _ (bind_ret3 _)); reflexivity. Qed.

Definition holds (fmt : list N) (i : N) (t : list N) (room : nat) : Prop :=
  exists free, fmt = t ++ free /\ len t = i + 1 /\ (room <= length free)%nat.

Lemma holds_init fg kind : holds (custom_pre fg kind ++ repeat 0 12) 6 (custom_pre fg kind) 12.
Proof. exists (repeat 0 12). repeat split. cbn. lia. Qed.

Lemma holds_less fmt i t room room' : holds fmt i t room -> (room' <= room)%nat -> holds fmt i t room'.
Proof. intros (free & ? & ? & ?) ?. exists free. repeat split; auto; lia. Qed.

Lemma holds_aset fmt i t room v : holds fmt i t (S room) ->
  exists fmt', aset fmt (i + 1) v = Some fmt' /\ holds fmt' (i + 1) (t ++ [v]) room.
Proof.
  intros (free & -> & Hi & Hr). destruct free as [|x free]; [inversion Hr|].
  exists ((t ++ [v]) ++ free). split.
  - rewrite <- Hi, <- app_assoc. apply aset_mid.
  - exists free. unfold len in *. rewrite app_length. cbn [length] in *. repeat split; lia.
Qed.

Ltac push v H f H' := destruct (holds_aset _ _ _ _ v H) as (f & -> & H'); cbv beta iota.

Lemma digit_cadd d : d < 10 -> cadd 8 48 d = Some (48 + d).
Proof.
  intros H. unfold cadd. replace (48 + d <? 2 ^ 8) with true; [reflexivity|].
  symmetry. apply N.ltb_lt. change (2 ^ 8) with 256. lia.
Qed.

(* the translated macro and [tcv_digits] test the same two digits for 0 *)
Lemma var_code_holds c fmt i t room : holds fmt i t (4 + room) ->
  exists fmt' i', holds fmt' i' (t ++ tcv_digits c ++ [59]) room /\
    forall A (K : list N -> N -> option A), var_code c fmt i K = K fmt' i'.
Proof.
  intros H. unfold var_code, tcv_digits.
  change (100 =? 0) with false. change (10 =? 0) with false. cbv iota beta.
  rewrite !digit_cadd by (apply N.mod_lt; discriminate).
  destruct ((c / 100) mod 10 =? 0); [destruct ((c / 10) mod 10 =? 0)|];
    cbn [negb orb app]; cbv iota beta.
  - push (48 + c mod 10) H f1 H1. push 59 H1 f2 H2.
    rewrite <- app_assoc in H2. eexists _, _. split; [|reflexivity]. apply (holds_less _ _ _ _ _ H2). lia.
  - push (48 + (c / 10) mod 10) H f1 H1. push (48 + c mod 10) H1 f2 H2. push 59 H2 f3 H3.
    rewrite <- !app_assoc in H3. eexists _, _. split; [|reflexivity]. apply (holds_less _ _ _ _ _ H3). lia.
  - push (48 + (c / 100) mod 10) H f0 H0. rewrite orb_true_r.
    push (48 + (c / 10) mod 10) H0 f1 H1. push (48 + c mod 10) H1 f2 H2. push 59 H2 f3 H3.
    rewrite <- !app_assoc in H3. eexists _, _. split; [|reflexivity]. exact H3.
Qed.

Lemma finish_holds w fmt i t room : holds fmt i (t ++ [59]) room -> finish w fmt i = Some (w ++ t ++ [109], inl tt).
Proof.
  intros (free & -> & Hi & _). rewrite len_app in Hi. apply N.add_cancel_r in Hi. subst i.
  unfold finish. rewrite <- app_assoc. cbn [app]. rewrite aset_mid. cbv iota beta.
  change (t ++ 109 :: free) with (t ++ [109] ++ free).
  rewrite app_assoc, <- (len_app t [109] : _ = len t + 1), slice_head. reflexivity.
Qed.

(* write_color: the named colours are string literals in the source, the two custom forms go through the macros.
   (The bound on the components is not used: above 255 the macro would print the low three digits.) *)
Lemma g_tcr_write_color_eq w fg c intense : tcr_color_ok c ->
  g_tcr_ansi_write_color w fg c intense =
  Some (w ++ rn_csi (tcr_color_params (tcr_slot_digit fg) intense c) 109, inl tt).
Proof.
  intros Hc. destruct c; cbn [tcr_color_ok] in Hc; try contradiction.
  1-8: destruct intense, fg; reflexivity.
  (* Ansi256: one component through the macro; Rgb: three *)
  1: rewrite write_color_ansi256; destruct (var_code_holds n _ _ _ 8 (holds_init fg 53)) as (f1 & i1 & H1 & ->);
     rewrite app_assoc in H1; rewrite (finish_holds _ _ _ _ _ H1).
  2: rewrite write_color_rgb; destruct (var_code_holds r _ _ _ 8 (holds_init fg 50)) as (f1 & i1 & H1 & ->);
     destruct (var_code_holds g _ _ _ 4 H1) as (f2 & i2 & H2 & ->);
     destruct (var_code_holds b _ _ _ 0 H2) as (f3 & i3 & H3 & ->);
     rewrite !app_assoc in H3; rewrite (finish_holds _ _ _ _ _ H3).
  all: unfold tcr_color_params, rn_csi, rn_print_params, custom_pre; cbn [map rn_join app];
    repeat (rewrite <- app_assoc; cbn [app]); reflexivity.
Qed.

Lemma g_tcr_write_str_eq w s : g_tcr_ansi_write_str w s = (w ++ s, inl tt).
Proof. reflexivity. Qed.

Lemma g_tcr_reset_eq w : g_tcr_ansi_reset w = (w ++ rn_csi [[[48]]] 109, inl tt).
Proof. reflexivity. Qed.

Lemma tcr_seqs_app a b : tcr_seqs (a ++ b) = tcr_seqs a ++ tcr_seqs b.
Proof. apply map_app. Qed.

(* one `if spec.x { self.write_str("\x1B[dm")?; }` of set_color, for any continuation *)
Lemma tcr_flag_stage (b : bool) d w (K : list N -> option (list N * (unit + unit))) :
  (let k := K in
   if b then
     let '(o, r) := g_tcr_ansi_write_str w [27; 91; d; 109] in
     let w' := o in
     match r with inl _ => k w' | inr e => Some (w', inr e) end
   else k w)
  = K (w ++ concat (tcr_seqs (tcr_flag b d))).
Proof. destruct b; cbn [tcr_flag tcr_seqs map concat]; rewrite !app_nil_r; reflexivity. Qed.

(* one `if let Some(ref c) = spec.x { self.write_color(..)?; }`, for any function that does what write_color does *)
Lemma color_stage (WC : list N -> bool -> tc_color -> bool -> option (list N * (unit + unit)))
  (HWC : forall w fg c intense, tcr_color_ok c ->
     WC w fg c intense = Some (w ++ rn_csi (tcr_color_params (tcr_slot_digit fg) intense c) 109, inl tt))
  fg intense (oc : option tc_color) w (K : list N -> option (list N * (unit + unit))) :
  tcr_ocolor_ok oc ->
  (let m := oc in
   let k := K in
   match m with
   | Some c =>
       '(o, r) <- WC w fg c intense ;;
       let w' := o in
       match r with inl _ => k w' | inr e => Some (w', inr e) end
   | None => k w
   end)
  = K (w ++ concat (tcr_seqs (tcr_ocolor_params fg intense oc))).
Proof.
  intros H. destruct oc as [c|]; cbn [tcr_ocolor_params tcr_seqs map concat]; rewrite !app_nil_r; [|reflexivity].
  now rewrite (HWC _ _ _ _ H).
Qed.

Lemma g_tcr_set_color_eq w sp : tcr_spec_ok sp ->
  g_tcr_ansi_set_color w sp = Some (w ++ concat (tcr_seqs (tcr_params sp)), inl tt).
Proof.
  intros [Hf Hb]. cbv delta [g_tcr_ansi_set_color]. cbv beta.
  (* write_color as an abstract function: a `rewrite` that does not apply (another slot flag, another argument
     order) then fails at once instead of unfolding the 900-line definition *)
  pose proof g_tcr_write_color_eq as HWC. set (WC := g_tcr_ansi_write_color) in *. clearbody WC.
  change (g_tcr_ansi_reset w) with (g_tcr_ansi_write_str w [27; 91; 48; 109]).
  do 6 (rewrite tcr_flag_stage; cbv beta).
  rewrite (color_stage WC HWC true _ _ _ _ Hf). cbv beta.
  rewrite (color_stage WC HWC false _ _ _ _ Hb). cbv beta.
  unfold tcr_params. now rewrite !tcr_seqs_app, !concat_app, !app_assoc.
Qed.

Theorem g_tcr_render_eq sp : tcr_spec_ok sp -> g_tcr_render sp = Some (tcr_bytes sp).
Proof.
  intros H. unfold g_tcr_render, g_tcr_ansi_new, tc_ansi_mk, tc_vec_new.
  rewrite (g_tcr_set_color_eq [] sp H). cbv beta iota zeta.
  unfold g_tcr_ansi_write_all, set_tc_ansi_f0, tc_ansi_f0. cbv beta iota zeta.
  rewrite g_tcr_reset_eq. cbv beta iota zeta. unfold g_tcr_ansi_into_inner, tc_ansi_f0, tcr_bytes.
  cbn [app]. now rewrite <- app_assoc.
Qed.

Lemma g_tcr_render_nonexhaustive_panics :
  g_tcr_render (fst (g_tcr_set_fg g_tcr_spec_new (Some TcNonexhaustive))) = None.
Proof. vm_compute. reflexivity. Qed.

Lemma tcr_hue_lt c : tcr_hue c < 8.
Proof. destruct c; cbn; lia. Qed.

(* here the byte bounds of [tcr_color_ok] are what [tcv_digits_ok] needs *)
Lemma tcr_color_params_ok first intense c : first = 51 \/ first = 52 -> tcr_color_ok c ->
  rn_csi_ok (tcr_color_params first intense c) = true.
Proof.
  intros Hfirst Hc. destruct c; cbn [tcr_color_ok] in Hc; try contradiction.
  1-8: destruct Hfirst as [-> | ->], intense; reflexivity.
  - unfold rn_csi_ok, tcr_color_params. cbn [forallb]. rewrite tcv_digits_ok by assumption.
    destruct Hfirst as [-> | ->]; reflexivity.
  - destruct Hc as (Hr & Hg & Hb). unfold rn_csi_ok, tcr_color_params. cbn [forallb].
    rewrite !tcv_digits_ok by assumption. destruct Hfirst as [-> | ->]; reflexivity.
Qed.

Lemma tcr_color_apply fgslot intense c s : tcr_color_ok c ->
  sgr_apply s (rn_param_values (tcr_color_params (tcr_slot_digit fgslot) intense c)) =
  (if fgslot then set_fg else set_bg) s (Some (tcr_colour intense c)).
Proof.
  intros Hc. destruct c; cbn [tcr_color_ok] in Hc; try contradiction.
  1-8: destruct fgslot, intense; reflexivity.
  - unfold rn_param_values, tcr_color_params. cbn [map]. rewrite tcv_value by assumption.
    destruct fgslot; reflexivity.
  - destruct Hc as (Hr & Hg & Hb). unfold rn_param_values, tcr_color_params. cbn [map].
    rewrite !tcv_value by assumption. destruct fgslot; reflexivity.
Qed.

Lemma tcr_params_ok sp : tcr_spec_ok sp -> Forall (fun pr => rn_csi_ok pr = true) (tcr_params sp).
Proof.
  intros [Hf Hb]. unfold tcr_params.
  repeat (apply Forall_app; split).
  1-6: match goal with |- Forall _ (tcr_flag ?b _) => destruct b; cbn [tcr_flag]; repeat constructor end.
  - destruct (tcs_fg_color sp); cbn [tcr_ocolor_params]; repeat constructor.
    apply tcr_color_params_ok; [now left|exact Hf].
  - destruct (tcs_bg_color sp); cbn [tcr_ocolor_params]; repeat constructor.
    apply tcr_color_params_ok; [now right|exact Hb].
Qed.

Lemma tcr_flags_apply sp :
  fold_left sgr_apply (map rn_param_values
    (tcr_flag (tcs_reset sp) 48 ++ tcr_flag (tcs_bold sp) 49 ++ tcr_flag (tcs_dimmed sp) 50 ++ tcr_flag (tcs_italic sp) 51
     ++ tcr_flag (tcs_underline sp) 52 ++ tcr_flag (tcs_strikethrough sp) 57)) style_default =
  mkStyle None None None (tcr_eff sp).
Proof.
  unfold tcr_eff.
  destruct (tcs_reset sp), (tcs_bold sp), (tcs_dimmed sp), (tcs_italic sp), (tcs_underline sp), (tcs_strikethrough sp);
    reflexivity.
Qed.

Lemma tcr_groups_apply sp : tcr_spec_ok sp ->
  fold_left sgr_apply (map rn_param_values (tcr_params sp)) style_default = tcr_shown sp.
Proof.
  intros [Hf Hb]. unfold tcr_params.
  rewrite !app_assoc, map_app, fold_left_app, map_app, fold_left_app, <- !app_assoc.
  rewrite tcr_flags_apply. unfold tcr_shown.
  destruct (tcs_fg_color sp) as [cf|], (tcs_bg_color sp) as [cb|];
    cbn [tcr_ocolor_params map fold_left option_map tcr_ocolor_ok] in *;
    rewrite ?(tcr_color_apply true), ?(tcr_color_apply false) by assumption; reflexivity.
Qed.

Theorem tcr_render_shown sp : tcr_spec_ok sp ->
  g_tcr_render sp = Some (tcr_bytes sp) /\ ad_interp_x (tcr_bytes sp) = Some (tcr_shown sp).
Proof.
  intros H. split; [exact (g_tcr_render_eq sp H)|].
  rewrite <- (tcr_groups_apply sp H). unfold tcr_bytes. rewrite <- (app_nil_r (rn_csi [[[48]]] 109)).
  apply (seqs_interp_x (tcr_params sp) [[[[48]]]]); [exact (tcr_params_ok sp H)|repeat constructor].
Qed.

Lemma ad_name_eqb_eq a : forall b, ad_name_eqb a b = true -> a = b.
Proof.
  induction a as [|x a IH]; intros [|y b] H; cbn in H; try discriminate; [reflexivity|].
  apply andb_true_iff in H. destruct H as [H1 H2]. apply N.eqb_eq in H1. f_equal; auto.
Qed.

Lemma ad_assoc_in {A} k (tbl : list (list N * A)) v : ad_assoc k tbl = Some v -> In (k, v) tbl.
Proof.
  induction tbl as [|[k' v'] t IH]; cbn [ad_assoc]; [discriminate|].
  destruct (ad_name_eqb k k') eqn:E; intros H.
  - apply ad_name_eqb_eq in E. injection H as <-. subst. now left.
  - right. auto.
Qed.

Lemma tcr_colour_meaning o m : tcr_tcolor_ok o -> ad_slot_meaning AdTermcolor o = Some m ->
  exists oc, tcr_ocolor_of o = Some oc /\ tcr_ocolor_ok oc /\ option_map (tcr_colour false) oc = m.
Proof.
  intros Hok Hm. destruct o as [[nm|n|r g b]|]; cbn [ad_slot_meaning ad_colour_meaning] in Hm.
  - apply ad_assoc_in in Hm. cbn [ad_colour_table ad_termcolor_colours] in Hm.
    repeat (destruct Hm as [Hm|Hm]; [injection Hm as <- <-; eexists; split; [reflexivity|split; [exact I|reflexivity]]|]).
    contradiction.
  - injection Hm as <-. exists (Some (TcAnsi256 n)). split; [reflexivity|split; [exact Hok|reflexivity]].
  - injection Hm as <-. exists (Some (TcRgb r g b)). split; [reflexivity|split; [exact Hok|reflexivity]].
  - injection Hm as <-. exists None. split; [reflexivity|split; [exact I|reflexivity]].
Qed.

Lemma tcr_attrs_meaning names : forall sp e, ad_attrs_meaning AdTermcolor names = Some e ->
  exists sp', tcr_apply_attrs sp names = Some sp' /\
    tcs_fg_color sp' = tcs_fg_color sp /\ tcs_bg_color sp' = tcs_bg_color sp /\ tcs_intense sp' = tcs_intense sp /\
    tcr_eff sp' = N.lor e (tcr_eff sp).
Proof.
  induction names as [|nm rest IH]; intros sp e H; cbn [ad_attrs_meaning] in H.
  - injection H as <-. exists sp. repeat split; reflexivity.
  - destruct (ad_assoc nm (ad_attr_table AdTermcolor)) as [k|] eqn:Ek; [|discriminate].
    destruct (ad_attrs_meaning AdTermcolor rest) as [m|] eqn:Em; [|discriminate]. injection H as <-.
    apply ad_assoc_in in Ek. cbn [ad_attr_table ad_termcolor_attrs] in Ek.
    assert (Hstep : exists sp1, ad_assoc nm g_tcr_flag_setters = Some (fun s b => (sp1 s b, sp1 s b)) /\
              tcs_fg_color (sp1 sp true) = tcs_fg_color sp /\ tcs_bg_color (sp1 sp true) = tcs_bg_color sp /\
              tcs_intense (sp1 sp true) = tcs_intense sp /\ tcr_eff (sp1 sp true) = N.lor (bit k) (tcr_eff sp)).
    { destruct sp as [fg bg bold intense underline dimmed italic reset strike].
      repeat (destruct Ek as [Ek|Ek];
        [injection Ek as <- <-; eexists; split; [reflexivity|];
         repeat split; unfold tcr_eff; cbn; destruct bold, dimmed, italic, underline, strike; reflexivity|]).
      contradiction. }
    destruct Hstep as (sp1 & Ea & H1 & H2 & H3 & H4).
    destruct (IH (sp1 sp true) m eq_refl) as (sp' & Er & G1 & G2 & G3 & G4).
    exists sp'. cbn [tcr_apply_attrs]. rewrite Ea. cbn [fst]. split; [exact Er|].
    rewrite G1, G2, G3, G4, H1, H2, H3, H4. repeat split.
    rewrite N.lor_assoc, (N.lor_comm m (bit k)). reflexivity.
Qed.

(* every target style Spec/Targets gives a meaning to IS a ColorSpec (built by the translated
   constructor and setters) that the library shows as exactly that meaning *)
Theorem tcr_meaning_shown t m : tcr_tstyle_ok t -> ad_meaning AdTermcolor t = Some m ->
  exists sp, tcr_spec_of t = Some sp /\ tcr_spec_ok sp /\ tcr_shown sp = m.
Proof.
  intros [Hf Hb] Hm. unfold ad_meaning in Hm. cbn [ad_has_ul] in Hm.
  destruct (ad_slot_meaning AdTermcolor (ad_t_fg t)) as [mf|] eqn:Ef; [|discriminate].
  destruct (ad_slot_meaning AdTermcolor (ad_t_bg t)) as [mb|] eqn:Eb; [|discriminate].
  destruct (ad_t_ul t) eqn:Eu; [discriminate|].
  destruct (ad_attrs_meaning AdTermcolor (ad_t_attrs t)) as [e|] eqn:Ee; [|discriminate]. injection Hm as <-.
  destruct (tcr_colour_meaning _ _ Hf Ef) as (cf & Cf & Okf & Mf).
  destruct (tcr_colour_meaning _ _ Hb Eb) as (cb & Cb & Okb & Mb).
  destruct (tcr_attrs_meaning (ad_t_attrs t) (fst (g_tcr_set_bg (fst (g_tcr_set_fg g_tcr_spec_new cf)) cb)) e Ee)
    as (sp & Es & G1 & G2 & G3 & G4).
  exists sp. unfold tcr_spec_of. rewrite Cf, Cb, Eu. split; [exact Es|].
  cbn in G1, G2, G3, G4. split.
  - unfold tcr_spec_ok. now rewrite G1, G2.
  - unfold tcr_shown. rewrite G1, G2, G3, G4, Mf, Mb, N.lor_0_r. reflexivity.
Qed.

(* [tcr_spec_of] agrees with the call sequence of anstyle_termcolor::to_termcolor_spec: the abstract
   value Generated/AdaptersFn.v builds for `ColorSpec::new(); set_fg(f); set_bg(b); set_bold(b1);
   set_dimmed(b2); set_italic(b3); set_underline(b4)` (vocabulary of Model/Adapters.v: a flag set to
   false leaves the list) denotes the ColorSpec the TRANSLATED constructor and setters build when
   called in that order with those arguments *)
Definition tcr_n_set_bold : list N := Eval vm_compute in ad_str "set_bold".
Definition tcr_n_set_dimmed : list N := Eval vm_compute in ad_str "set_dimmed".
Definition tcr_n_set_italic : list N := Eval vm_compute in ad_str "set_italic".
Definition tcr_n_set_underline : list N := Eval vm_compute in ad_str "set_underline".

Lemma tcr_spec_of_call_sequence cf cb f b b1 b2 b3 b4 :
  tcr_ocolor_of cf = Some f -> tcr_ocolor_of cb = Some b ->
  tcr_spec_of (ad_t_flag (ad_t_flag (ad_t_flag (ad_t_flag (ad_t_set_bg (ad_t_set_fg ad_t_new cf) cb)
                 tcr_n_set_bold b1) tcr_n_set_dimmed b2) tcr_n_set_italic b3) tcr_n_set_underline b4) =
  Some (fst (g_tcr_set_underline (fst (g_tcr_set_italic (fst (g_tcr_set_dimmed (fst (g_tcr_set_bold
         (fst (g_tcr_set_bg (fst (g_tcr_set_fg g_tcr_spec_new f)) b)) b1)) b2)) b3)) b4)).
Proof.
  intros Hf Hb. destruct b1, b2, b3, b4; unfold tcr_spec_of;
    cbn [ad_t_fg ad_t_bg ad_t_ul ad_t_flag ad_t_attr ad_t_set_fg ad_t_set_bg ad_t_new]; rewrite Hf, Hb; reflexivity.
Qed.

Theorem tcr_meaning_rendered t m : tcr_tstyle_ok t -> ad_meaning AdTermcolor t = Some m ->
  exists bytes, tcr_render_tstyle t = Some bytes /\ ad_interp_x bytes = Some m /\ ad_render_ok m bytes = true.
Proof.
  intros Ht Hm. destruct (tcr_meaning_shown t m Ht Hm) as (sp & Es & Ok & Sh).
  destruct (tcr_render_shown sp Ok) as [R I].
  exists (tcr_bytes sp). unfold tcr_render_tstyle. rewrite Es, R, <- Sh. split; [reflexivity|]. split; [exact I|].
  unfold ad_render_ok. rewrite I. apply sstyle_eqb_refl.
Qed.

Lemma tcr_converted_ok s : tcr_src_u8 s -> tcr_tstyle_ok (ad_to_termcolor s).
Proof.
  intros [Hf Hb]. unfold tcr_tstyle_ok, ad_to_termcolor. cbn [ad_t_fg ad_t_bg].
  split.
  - destruct (s_fg s) as [[i|n|r g b]|]; cbn in *; auto.
  - destruct (s_bg s) as [[i|n|r g b]|]; cbn in *; auto.
Qed.

(* for every anstyle style with u8 components: the translated adapter returns a target style,
   that style is a ColorSpec, the translated library renders it without panic, and a terminal
   shows the text in exactly the rendition the property expects (hue kept, brightness dropped,
   indexed / RGB exact, bold / dimmed / italic / underline and nothing else) *)
Theorem tcr_convert_rendered s : ad_src_ok s -> tcr_src_u8 s ->
  exists bytes, (t <- g_to_termcolor_spec s ;; tcr_render_tstyle t) = Some bytes /\
                ad_interp_x bytes = Some (ad_project AdTermcolor s) /\
                ad_render_ok (ad_project AdTermcolor s) bytes = true.
Proof.
  intros Hs Hu. rewrite (g_to_termcolor_spec_eq s Hs).
  exact (tcr_meaning_rendered (ad_to_termcolor s) (ad_project AdTermcolor s) (tcr_converted_ok s Hu)
           (ad_convert_meaning AdTermcolor s Hs)).
Qed.

(* Spec/Targets reads termcolor's named colours "with intense off" (hue only).  The library CAN
   show a bright named colour -- for both slots at once: with the flag set every named colour is
   written as the 256-palette entry 8 + hue.  The adapter never sets the flag. *)
Theorem tcr_intense_shown sp : tcr_spec_ok sp -> tcs_intense sp = true ->
  exists bytes, g_tcr_render sp = Some bytes /\
    ad_interp_x bytes = Some (mkStyle (option_map (tcr_colour true) (tcs_fg_color sp))
                                      (option_map (tcr_colour true) (tcs_bg_color sp)) None (tcr_eff sp)).
Proof.
  intros H Hi. destruct (tcr_render_shown sp H) as [R I]. exists (tcr_bytes sp). split; [exact R|].
  rewrite I. unfold tcr_shown. now rewrite Hi.
Qed.

(* witness: red foreground + set_intense is shown as bright red (palette entry 9), which the
   meaning table of Spec/Targets (Red = CAnsi 1) does not say; after the documented identification
   of palette entries 0-15 with the 16 ANSI colours it is CAnsi 9 *)
Theorem tcr_intense_witness :
  let sp := fst (g_tcr_set_intense (fst (g_tcr_set_fg g_tcr_spec_new (Some TcRed))) true) in
  option_map (fun bs => option_map ad_norm_style (ad_interp_x bs)) (g_tcr_render sp)
  = Some (Some (mkStyle (Some (CAnsi 9)) None None 0)).
Proof. vm_compute. reflexivity. Qed.
