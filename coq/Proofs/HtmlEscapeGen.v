(* The translated `html_escape::encode_text` (third-party crate html-escape, the expansion of its
   macro_rules tables: Generated/HtmlEscapeFn.v) is the escaping function of the hand model, Model/Svg.v [svg_encode_text]:
   on every byte string, and -- a Rust &str being the UTF-8 encoding of its chars, the hand model acting on code points --
   on the encoding of every code-point string.  It never panics. *)
From Coq Require Import NArith Arith List Bool Lia.
From AV Require Import Model.Base Model.Imp Model.Text Model.Svg Generated.HtmlEscapeFn Proofs.BaseFacts.
Import ListNotations.
Local Open Scope N_scope.

(* what [svg_encode_text] writes for one character (Proofs/Svg.v svg_text_piece with the entities written out as the
   translated code has them; this file needs Model/Svg.v only) *)
Definition he_esc (c : N) : list N :=
  if c =? 38 then [38; 97; 109; 112; 59] else if c =? 60 then [38; 108; 116; 59] else if c =? 62 then [38; 103; 116; 59] else [c].
Definition he_special (c : N) : bool := (c =? 38) || (c =? 60) || (c =? 62).

Lemma enc_cons : forall c r, svg_encode_text (c :: r) = he_esc c ++ svg_encode_text r.
Proof. reflexivity. Qed.

Lemma enc_app : forall a b, svg_encode_text (a ++ b) = svg_encode_text a ++ svg_encode_text b.
Proof. induction a as [|c a IH]; intro b; [reflexivity|]. cbn [app]. rewrite !enc_cons, IH, app_assoc. reflexivity. Qed.

Lemma he_esc_plain : forall c, he_special c = false -> he_esc c = [c].
Proof.
  intros c. unfold he_special, he_esc. destruct (c =? 38), (c =? 60), (c =? 62); (discriminate || reflexivity).
Qed.

(* the three tests of a translated chain, in whatever order the arms are written: decide all three, drop the impossible
   combinations *)
Ltac he_tests x :=
  let E1 := fresh "E1" in let E2 := fresh "E2" in let E3 := fresh "E3" in
  destruct (x =? 38) eqn:E1; destruct (x =? 60) eqn:E2; destruct (x =? 62) eqn:E3;
  try (exfalso; tests_to_props; lia).

(* appends the escaped text to the vector; the slice it returns is the part appended *)
Lemma g_he_encode_text_to_vec_eq : forall text out,
  g_he_encode_text_to_vec text out = Some (out ++ svg_encode_text text, svg_encode_text text).
Proof.
  intros text out. unfold g_he_encode_text_to_vec. cbv zeta.
  match goal with |- context [for_list0 ?f text _] => set (F := f) end.
  (* the loop, observed through what is done with its final state: [pend] is the run of plain bytes seen since
     the last escape, not yet copied *)
  assert (L : forall l pre pend output s e,
             text = pre ++ pend ++ l -> s = len pre -> e = len pre + len pend ->
             (st <- for_list0 F l (output, s, e) ;; let '(o, s1, e1) := st in sl <- slice text s1 e1 ;; Some (o ++ sl))
             = Some (output ++ pend ++ svg_encode_text l)).
  { induction l as [|x l IH]; intros pre pend output s e Ht Hs He;
      pose proof (slice_mid_eq text pre pend _ s e Ht Hs He) as Hsl; cbn [for_list0].
    - rewrite Hsl, app_nil_r. reflexivity.
    - unfold F at 1. rewrite enc_cons. unfold he_esc. he_tests x; rewrite ?Hsl; cbv beta iota zeta.
      (* a plain byte (the last case) joins the pending run *)
      4: rewrite (IH pre (pend ++ [x])).
      (* an escaped byte: the pending run and the entity are appended, the next run starts behind the byte *)
      1-3: rewrite (IH (pre ++ pend ++ [x]) []).
      (* in each case the appends regroup, and the three conditions of [IH] hold: the split of [text] by
         associativity, the two offsets by arithmetic on lengths *)
      all: subst; rewrite ?len_app, <- ?app_assoc; reflexivity || (cbn; lia). }
  specialize (L text [] [] out 0 0 eq_refl eq_refl eq_refl).
  destruct (for_list0 F text (out, 0, 0)) as [[[o s] e]|]; [|discriminate L]. cbv beta iota zeta in L |- *.
  destruct (slice text s e) as [sl|]; [|discriminate L]. injection L as ->. cbn [app].
  rewrite (slice_mid_eq (out ++ svg_encode_text text) out (svg_encode_text text) [] (len out) (len (out ++ svg_encode_text text)))
    by (rewrite ?app_nil_r, ?len_app; auto).
  reflexivity.
Qed.

(* the first byte that needs escaping: (plain prefix, that byte, the rest) *)
Fixpoint he_first (l : list N) : option (list N * N * list N) :=
  match l with
  | [] => None
  | c :: r =>
      if he_special c then Some ([], c, r)
      else match he_first r with Some (a, x, r') => Some (c :: a, x, r') | None => None end
  end.

Lemma he_first_none : forall l, he_first l = None -> svg_encode_text l = l.
Proof.
  induction l as [|c r IH]; [reflexivity|]. cbn [he_first]. destruct (he_special c) eqn:S; [discriminate|].
  destruct (he_first r) as [[[a x] r']|]; [discriminate|]. intros _. rewrite enc_cons, he_esc_plain, IH by auto. reflexivity.
Qed.

Lemma he_first_some : forall l a x r, he_first l = Some (a, x, r) ->
  l = a ++ x :: r /\ he_special x = true /\ svg_encode_text l = a ++ he_esc x ++ svg_encode_text r.
Proof.
  induction l as [|c l IH]; intros a x r H; [discriminate|]. cbn [he_first] in H. destruct (he_special c) eqn:S.
  - injection H as <- <- <-. rewrite enc_cons. auto.
  - destruct (he_first l) as [[[a' x'] r']|] eqn:F; [|discriminate]. injection H as <- <- <-.
    destruct (IH _ _ _ eq_refl) as (-> & Sx & E). rewrite enc_cons, he_esc_plain, E by auto. auto.
Qed.

Theorem g_he_encode_text_eq : forall text, g_he_encode_text text = Some (svg_encode_text text).
Proof.
  intros text. unfold g_he_encode_text. cbv zeta.
  match goal with |- context [while_fuel _ ?f _] => set (step := f) end.
  (* the scan: nothing to escape = the text itself is returned; else the loop breaks AT the first special byte with its entity *)
  assert (L : forall fuel l pre e0,
             text = pre ++ l -> (length l < fuel)%nat ->
             while_fuel fuel step (len pre, e0, None) =
             match he_first l with
             | None => Some (inr text)
             | Some (a, x, _) => Some (inl (len (pre ++ a), x, Some (he_esc x)))
             end).
  { induction fuel as [|fuel IH]; intros l pre e0 Ht Hf; [inversion Hf|].
    cbn [while_fuel]. unfold step at 1.
    destruct l as [|c l].
    - rewrite app_nil_r in Ht. subst pre. rewrite N.eqb_refl. reflexivity.
    - replace (len pre =? len text) with false
        by (symmetry; apply N.eqb_neq; rewrite Ht, len_app; unfold len; cbn [length]; lia).
      rewrite Ht at 1. rewrite aget_mid. cbv beta iota zeta.
      cbn [he_first]. unfold he_special.
      he_tests c; cbn [orb]; rewrite ?app_nil_r; try (unfold he_esc; rewrite ?E1, ?E2, ?E3; reflexivity).
      replace (len pre + 1) with (len (pre ++ [c])) by (rewrite len_app; reflexivity).
      rewrite (IH l (pre ++ [c]) c) by (rewrite <- ?app_assoc; cbn in *; auto; lia).
      destruct (he_first l) as [[[a x] r']|]; [|reflexivity]. rewrite <- app_assoc. reflexivity. }
  pose proof (L (S (length text)) text [] 0 eq_refl (Nat.lt_succ_diag_r _)) as L0.
  change (@len N []) with 0 in L0. rewrite L0. clear L0.
  destruct (he_first text) as [[[a x] r]|] eqn:F.
  - destruct (he_first_some _ _ _ _ F) as (Ht & Sx & E).
    cbv beta iota zeta. cbn [app].
    rewrite (slice_mid_eq text [] a (x :: r) (len []) (len a)) by auto.
    cbv beta iota zeta.
    rewrite (slice_mid_eq text (a ++ [x]) r [] (len a + 1) (len text))
      by (rewrite ?app_nil_r, <- ?app_assoc; auto; rewrite ?Ht, ?len_app; cbn; unfold len; cbn [length]; lia).
    cbv beta iota zeta. rewrite g_he_encode_text_to_vec_eq. cbv beta iota zeta.
    rewrite E. cbn [app]. rewrite <- app_assoc. reflexivity.
  - rewrite (he_first_none _ F). reflexivity.
Qed.

(* UTF-8: the hand model acts on code points, the crate on bytes *)

Lemma he_high_plain : forall b, 128 <= b -> he_special b = false.
Proof.
  intros b H. unfold he_special. apply orb_false_iff; split; [apply orb_false_iff; split|]; apply N.eqb_neq; lia.
Qed.

(* every byte of the encoding of a code point >= 128 is >= 128 *)
Lemma enc_utf8_high : forall c, 128 <= c -> svg_encode_text (utf8_encode c) = utf8_encode c.
Proof.
  intros c H. unfold utf8_encode.
  replace (c <? 128) with false by (symmetry; apply N.ltb_ge; exact H).
  destruct (c <? 2048); [|destruct (c <? 65536)];
  repeat (rewrite enc_cons, he_esc_plain;
          [| apply he_high_plain; match goal with |- 128 <= ?k + ?q => apply (N.le_trans _ k); [lia | apply N.le_add_r] end ]);
  reflexivity.
Qed.

(* the entities are ASCII: their encoding is themselves *)
Lemma str_bytes_esc : forall c, c < 128 -> str_bytes (he_esc c) = he_esc c.
Proof.
  intros c H. unfold he_esc. destruct (c =? 38); [reflexivity|]. destruct (c =? 60); [reflexivity|]. destruct (c =? 62); [reflexivity|].
  unfold str_bytes. cbn [flat_map]. unfold utf8_encode. replace (c <? 128) with true by (symmetry; apply N.ltb_lt; exact H). reflexivity.
Qed.

Lemma str_bytes_app : forall a b, str_bytes (a ++ b) = str_bytes a ++ str_bytes b.
Proof. intros. unfold str_bytes. apply flat_map_app. Qed.

Theorem enc_str_bytes : forall w, svg_encode_text (str_bytes w) = str_bytes (svg_encode_text w).
Proof.
  induction w as [|c w IH]; [reflexivity|].
  change (str_bytes (c :: w)) with (utf8_encode c ++ str_bytes w).
  rewrite enc_app, IH, enc_cons, str_bytes_app.
  destruct (c <? 128) eqn:A.
  - apply N.ltb_lt in A. rewrite str_bytes_esc by exact A.
    unfold utf8_encode. replace (c <? 128) with true by (symmetry; apply N.ltb_lt; exact A).
    rewrite enc_cons. cbn [svg_encode_text]. rewrite app_nil_r. reflexivity.
  - apply N.ltb_ge in A. rewrite enc_utf8_high by exact A.
    rewrite he_esc_plain.
    + unfold str_bytes at 2. cbn [flat_map]. rewrite app_nil_r. reflexivity.
    + apply he_high_plain. exact A.
Qed.

(* what the svg translation's vocabulary assumes of `html_escape::encode_text(fragment)`: on the &str that holds the chars
   [w], the translated crate function returns the &str that holds the chars [svg_encode_text w] *)
Theorem translated_encode_text_utf8 : forall w, g_he_encode_text (str_bytes w) = Some (str_bytes (svg_encode_text w)).
Proof. intros w. rewrite g_he_encode_text_eq, enc_str_bytes. reflexivity. Qed.

Theorem translated_encode_text_to_vec_utf8 : forall w out,
  g_he_encode_text_to_vec (str_bytes w) out = Some (out ++ str_bytes (svg_encode_text w), str_bytes (svg_encode_text w)).
Proof. intros w out. rewrite g_he_encode_text_to_vec_eq, enc_str_bytes. reflexivity. Qed.

(* Cow::Borrowed: a text without '&', '<', '>' comes back unchanged *)
Theorem translated_encode_text_plain : forall text, forallb (fun c => negb (he_special c)) text = true -> g_he_encode_text text = Some text.
Proof.
  intros text H. rewrite g_he_encode_text_eq. f_equal.
  induction text as [|c r IH]; [reflexivity|]. cbn [forallb] in H. apply andb_true_iff in H. destruct H as [Hc Hr].
  assert (Sc : he_special c = false) by (destruct (he_special c); [discriminate|reflexivity]).
  rewrite enc_cons, (he_esc_plain c Sc), (IH Hr). reflexivity.
Qed.
