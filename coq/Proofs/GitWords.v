(* C11, the lexical layer: white space, tokenisation, lower-casing, and UTF-8
   bytes of ASCII-class strings. *)
From Coq Require Import NArith List Bool Lia.
From AV Require Import Spec.StyleRec Spec.SgrCodes Spec.GitSyntax Model.Base Model.Text Proofs.Text Proofs.LsParse.
Import ListNotations.
Local Open Scope N_scope.

Lemma existsb_range : forall n a c, existsb (N.eqb c) (range_from a (S n)) = between a c (a + N.of_nat n).
Proof.
  induction n as [|n IH]; intros a c.
  - apply eq_true_iff_eq. unfold between. cbn. rewrite orb_false_r, andb_true_iff, N.eqb_eq, !N.leb_le. lia.
  - change (range_from a (S (S n))) with (a :: range_from (a + 1) (S n)). cbn [existsb].
    rewrite IH, Nat2N.inj_succ. apply eq_true_iff_eq. unfold between.
    rewrite orb_true_iff, !andb_true_iff, N.eqb_eq, !N.leb_le. lia.
Qed.

Lemma whitespace_agree : forall c, is_whitespace c = is_white_space c.
Proof.
  intros c. unfold is_whitespace.
  change white_space
    with (range_from 9 5 ++ [32; 133; 160; 5760] ++ range_from 8192 11 ++ [8232; 8233; 8239; 8287; 12288]).
  rewrite !existsb_app, !existsb_range. cbn [existsb]. rewrite !orb_false_r, !orb_assoc. reflexivity.
Qed.

Lemma split_pred_ext : forall p q s, (forall c, p c = q c) -> split_pred p s = split_pred q s.
Proof. intros p q s H. induction s as [|c s IH]; cbn; [reflexivity|]. now rewrite H, IH. Qed.

Definition ne (w : list N) : bool := negb (is_nil w).

Lemma is_nil_rev_app : forall (cur f : list N), is_nil (rev cur ++ f) = is_nil cur && is_nil f.
Proof.
  intros cur f. destruct cur as [|c cur]; [reflexivity|]. cbn [rev is_nil andb].
  destruct (rev cur); reflexivity.
Qed.

Lemma ne_rev : forall cur : list N, ne (rev cur) = ne cur.
Proof. intros cur. unfold ne. rewrite <- (app_nil_r (rev cur)), is_nil_rev_app. cbn [is_nil]. now rewrite andb_true_r. Qed.

Lemma filter_flush : forall (cur : list N) rest, filter ne (rev cur :: rest) = flush cur (filter ne rest).
Proof.
  intros cur rest. cbn [filter]. rewrite ne_rev. destruct cur; reflexivity.
Qed.

Lemma words_acc_split : forall s cur,
  words_acc cur s =
  filter ne (match split_pred is_white_space s with f :: fs => (rev cur ++ f) :: fs | [] => [] end).
Proof.
  induction s as [|c s IH]; intros cur.
  - cbn [words_acc split_pred]. rewrite app_nil_r, filter_flush. reflexivity.
  - cbn [words_acc split_pred]. rewrite !IH. destruct (split_pred_cons is_white_space s) as (f & fs & ->).
    destruct (is_white_space c).
    + now rewrite app_nil_r, filter_flush.
    + cbn [rev]. now rewrite <- app_assoc.
Qed.

Lemma words_split_whitespace : forall s, words s = split_whitespace s.
Proof.
  intros s. unfold words, split_whitespace. rewrite words_acc_split.
  rewrite (split_pred_ext is_whitespace is_white_space s whitespace_agree).
  destruct (split_pred is_white_space s); reflexivity.
Qed.

Definition ws_only (l : list N) : bool := forallb is_white_space l.
Definition ws_free (l : list N) : bool := forallb (fun c => negb (is_white_space c)) l.
Definition is_word (w : list N) : Prop := w <> [] /\ ws_free w = true.

Lemma words_acc_skip : forall l rest, ws_only l = true -> words_acc [] (l ++ rest) = words_acc [] rest.
Proof.
  induction l as [|c l IH]; intros rest H; [reflexivity|].
  cbn in H. apply andb_true_iff in H as [Hc Hl]. cbn [app words_acc]. rewrite Hc. cbn [flush]. now apply IH.
Qed.

Lemma words_acc_word : forall w cur rest, ws_free w = true -> words_acc cur (w ++ rest) = words_acc (rev w ++ cur) rest.
Proof.
  induction w as [|c w IH]; intros cur rest H; [reflexivity|].
  cbn in H. apply andb_true_iff in H as [Hc Hw]. apply negb_true_iff in Hc.
  cbn [app words_acc]. rewrite Hc. rewrite IH by assumption. cbn [rev]. now rewrite <- app_assoc.
Qed.

Lemma flush_word : forall (w : list N) rest, w <> [] -> flush (rev w) rest = w :: rest.
Proof.
  intros w rest Hw. unfold flush. rewrite rev_involutive.
  destruct (rev w) eqn:E; [|reflexivity].
  apply (f_equal (@rev N)) in E. rewrite rev_involutive in E. cbn in E. contradiction.
Qed.

Lemma words_acc_step : forall w sep rest,
  is_word w -> ws_only sep = true -> (sep <> [] \/ rest = []) ->
  words_acc [] (w ++ sep ++ rest) = w :: words_acc [] rest.
Proof.
  intros w sep rest [Hne Hfree] Hsep Hlast. rewrite words_acc_word, app_nil_r by assumption.
  destruct sep as [|c sep].
  - destruct Hlast as [Hlast | ->]; [contradiction|]. cbn [app words_acc]. now apply flush_word.
  - cbn in Hsep. apply andb_true_iff in Hsep as [Hc Hsep].
    cbn [app words_acc]. rewrite Hc, flush_word by assumption. f_equal. now apply words_acc_skip.
Qed.

(* a description: leading white space, then every word followed by its separator;
   only the last separator may be empty *)
Definition layout (lead : list N) (wss : list (list N * list N)) : list N :=
  lead ++ flat_map (fun ws => fst ws ++ snd ws) wss.

Fixpoint good_seps (wss : list (list N * list N)) : Prop :=
  match wss with
  | [] => True
  | (w, sep) :: rest => ws_only sep = true /\ (rest <> [] -> sep <> []) /\ good_seps rest
  end.

Lemma words_layout : forall lead wss,
  ws_only lead = true -> Forall is_word (map fst wss) -> good_seps wss ->
  words (layout lead wss) = map fst wss.
Proof.
  intros lead wss Hl Hw Hs. unfold words, layout. rewrite words_acc_skip by assumption. clear lead Hl.
  induction wss as [|[w sep] wss IH]; [reflexivity|].
  cbn [map fst] in Hw. apply Forall_cons_iff in Hw as [Hw Hw']. destruct Hs as (Hsep & Hlast & Hs').
  cbn [flat_map fst snd map]. rewrite <- app_assoc, words_acc_step; [now rewrite IH | assumption..|].
  destruct wss; [now right | left; now apply Hlast].
Qed.

Lemma words_join : forall ws, Forall is_word ws -> words (join SPACE ws) = ws.
Proof.
  unfold words. induction ws as [|w ws IH]; intros H; [reflexivity|].
  apply Forall_cons_iff in H as [Hw H]. destruct ws as [|w2 ws].
  - pose proof (words_acc_step w [] [] Hw eq_refl (or_intror eq_refl)) as E. rewrite !app_nil_r in E. exact E.
  - change (join SPACE (w :: w2 :: ws)) with (w ++ [SPACE] ++ join SPACE (w2 :: ws)).
    rewrite words_acc_step; [now rewrite IH | assumption | reflexivity | left; discriminate].
Qed.

Lemma to_lowercase_ascii_lower : forall w, to_lowercase w = map ascii_lower w.
Proof. reflexivity. Qed.

Lemma utf8_encode_ascii : forall c, c < 128 -> utf8_encode c = [c].
Proof. intros c H. unfold utf8_encode. apply N.ltb_lt in H. now rewrite H. Qed.

Lemma utf8_encode_high : forall c, 128 <= c -> exists b0 bs, utf8_encode c = b0 :: bs /\ 128 <= b0.
Proof.
  intros c H. unfold utf8_encode. destruct (N.ltb_spec c 128); [lia|].
  assert (L : forall k x, 128 <= k -> 128 <= k + x) by (intros k x Hk; apply (N.le_trans _ k); [exact Hk | apply N.le_add_r]).
  destruct (c <? 2048); [eexists; eexists; split; [reflexivity | apply L; lia]|].
  destruct (c <? 65536); eexists; eexists; (split; [reflexivity | apply L; lia]).
Qed.

Lemma utf8_encode_nonempty : forall c, utf8_encode c <> [].
Proof.
  intros c. destruct (N.lt_ge_cases c 128) as [H|H].
  - rewrite utf8_encode_ascii by assumption. discriminate.
  - destruct (utf8_encode_high c H) as (b0 & bs & E & _). rewrite E. discriminate.
Qed.

Section AsciiClass.
  Variable p : N -> bool.
  Hypothesis p_ascii : forall c, p c = true -> c < 128.

  Lemma class_char : forall c, forallb p (utf8_encode c) = p c.
  Proof.
    intros c. destruct (N.lt_ge_cases c 128) as [H|H].
    - rewrite utf8_encode_ascii by assumption. cbn. now rewrite andb_true_r.
    - destruct (utf8_encode_high c H) as (b0 & bs & E & Hb). rewrite E. cbn [forallb].
      assert (p b0 = false) as ->. { destruct (p b0) eqn:X; [apply p_ascii in X; lia | reflexivity]. }
      destruct (p c) eqn:X; [apply p_ascii in X; lia | reflexivity].
  Qed.

  Lemma class_bytes : forall w, forallb p (str_bytes w) = forallb p w.
  Proof.
    induction w as [|c w IH]; [reflexivity|].
    unfold str_bytes in *. cbn [flat_map forallb]. rewrite forallb_app, class_char, IH. reflexivity.
  Qed.

  Lemma class_bytes_id : forall w, forallb p w = true -> str_bytes w = w.
  Proof.
    induction w as [|c w IH]; intros H; [reflexivity|].
    cbn in H. apply andb_true_iff in H as [Hc Hw]. unfold str_bytes in *. cbn [flat_map].
    rewrite utf8_encode_ascii by (now apply p_ascii). cbn [app]. f_equal. now apply IH.
  Qed.
End AsciiClass.

Lemma str_bytes_nil : forall w, str_bytes w = [] -> w = [].
Proof.
  intros [|c w] H; [reflexivity|]. unfold str_bytes in H. cbn [flat_map] in H.
  apply app_eq_nil in H as [H _]. now apply utf8_encode_nonempty in H.
Qed.

Lemma is_digit_ascii : forall c, is_digit c = true -> c < 128.
Proof. intros c H. apply is_digit_range in H. lia. Qed.

Lemma is_hex_ascii : forall c, is_hex c = true -> c < 128.
Proof.
  intros c H. unfold is_hex, between in H.
  rewrite !orb_true_iff, !andb_true_iff, !N.leb_le in H. lia.
Qed.

Lemma hexdigit_agree : forall c, is_ascii_hexdigit c = is_hex c.
Proof.
  intros c. apply eq_true_iff_eq. unfold is_ascii_hexdigit, is_hex, between.
  rewrite !orb_true_iff, !andb_true_iff, !N.leb_le. lia.
Qed.

Lemma forallb_ext' {A} (p q : A -> bool) : (forall x, p x = q x) -> forall l, forallb p l = forallb q l.
Proof. intros H l. induction l as [|x l IH]; cbn; [reflexivity|]. now rewrite H, IH. Qed.

Lemma strict_u8_bytes : forall w, strict_u8 (str_bytes w) = strict_u8 w.
Proof.
  intros w. unfold strict_u8.
  destruct (str_bytes w) as [|b bs] eqn:E.
  - apply str_bytes_nil in E. now subst.
  - destruct w as [|c w]; [discriminate E|]. rewrite <- E. clear b bs E.
    rewrite (class_bytes is_digit is_digit_ascii).
    destruct (forallb is_digit (c :: w)) eqn:D; [|reflexivity].
    now rewrite (class_bytes_id is_digit is_digit_ascii _ D).
Qed.

Lemma open_field_bytes : forall w, open_field (str_bytes w) = open_field w.
Proof.
  intros [|c w]; [reflexivity|].
  unfold str_bytes. cbn [flat_map]. fold (str_bytes w).
  destruct (N.lt_ge_cases c 128) as [H|H].
  - rewrite utf8_encode_ascii by assumption. cbn [app open_field]. now rewrite strict_u8_bytes.
  - destruct (utf8_encode_high c H) as (b0 & bs & E & Hb). rewrite E. cbn [app open_field].
    assert ((b0 =? 43) = false) as -> by (apply N.eqb_neq; lia).
    assert ((c =? 43) = false) as -> by (apply N.eqb_neq; lia). reflexivity.
Qed.
