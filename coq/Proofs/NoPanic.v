(* Proofs/NoPanic.v -- C04: the totality ("never the panic value") facts that no other
   property needed on their own: the strip adapters, the styled-run extractor, StripStream /
   AutoStream (every sequence of operations over every scripted inner writer, from every
   reachable stream state -- the state stays reachable also after an error), the fixed-buffer
   parser configuration, Style / Color Display, the SVG converter. *)
From Coq Require Import NArith Arith List Bool Lia.
From AV Require Import Generated.Table Generated.Style Generated.Palette Generated.Svg Generated.ParseCfg
  Spec.Utf8 Spec.Vt Spec.Sgr Spec.Io Spec.Strip Spec.Lossy
  Model.Base Model.Utf8parse Model.Parser Model.Strip Model.Wincon Model.Stream Model.Lossy Model.Svg Model.ParseCfg
  Proofs.BaseFacts Proofs.TableFacts Proofs.ParserSim Proofs.StripMachine Proofs.StripSim Proofs.StripStr Proofs.StripPieces
  Proofs.WinconRuns Proofs.WinconConsole Proofs.StreamIo Proofs.Stream Proofs.StreamAuto
  Proofs.Lossy Proofs.Svg Proofs.ParseCfg.
Import ListNotations.
Local Open Scope N_scope.

Lemma strip_bytes_pieces_total : forall input, bytes_ok input -> exists ps, strip_bytes_pieces input = Some ps.
Proof.
  intros input Hok. unfold strip_bytes_pieces.
  destruct (strip_next_bytes_run input Ground u8_new Hok Inv_init) as (ps & st1 & u1 & -> & _). eauto.
Qed.

Lemma strip_bytes_model_total : forall input, bytes_ok input -> exists out, strip_bytes_model input = Some out.
Proof.
  intros input Hok. unfold strip_bytes_model. destruct (strip_bytes_pieces_total input Hok) as [ps ->]. eauto.
Qed.

(* no UTF-8 hypothesis: the text scanner's MODEL answers for every byte string (the Rust
   type &str only ever hands it valid UTF-8) *)
Lemma strip_str_pieces_total : forall input, bytes_ok input -> exists ps, strip_str_pieces input = Some ps.
Proof.
  intros input Hok. unfold strip_str_pieces, strip_next_str.
  destruct (str_iter_total (S (length input)) input 0 Ground (Nat.lt_succ_diag_r _) Hok) as [[[ps bs'] st'] H].
  rewrite H. eauto.
Qed.

Lemma strip_str_model_total : forall input, bytes_ok input -> exists out, strip_str_model input = Some out.
Proof.
  intros input Hok. unfold strip_str_model. destruct (strip_str_pieces_total input Hok) as [ps ->]. eauto.
Qed.

(* the from_utf8_unchecked obligation in one statement: for valid UTF-8 the text adapter
   answers, and every piece it returns is a non-empty in-order substring of the input at
   the offset it reports and is itself valid UTF-8 *)
Lemma strip_str_pieces_sound : forall input,
  bytes_ok input -> valid_utf8 input = true ->
  exists ps, strip_str_pieces input = Some ps /\ pieces_in 0 input ps /\ pieces_valid ps.
Proof.
  intros input Hok Hv. destruct (strip_str_pieces_total input Hok) as [ps H].
  exists ps. split; [exact H|]. split; [apply strip_str_pieces_wf, H | eapply strip_str_pieces_utf8; eauto].
Qed.

Lemma extract_next_total : forall bs p v c,
  bytes_lt bs -> R p v -> exists its p' c', extract_next bs p c = Some (its, p', c') /\ (exists v', R p' v').
Proof.
  intros bs p v c Hbs HR. destruct (extract_next_spec bs p v c Hbs HR) as (its & p' & H & _ & HR' & _).
  do 3 eexists. split; [exact H|]. eauto.
Qed.

(* StripStream: every operation keeps the stream state reachable *)

Lemma ss_write_all_inv s buf w :
  bytes_ok buf -> SInv s -> exists s' w' r, ss_write_all s buf w = Some (s', w', r) /\ SInv s'.
Proof.
  intros Hok HI. destruct (ss_write_all_spec s buf w Hok HI) as (s' & w' & r & H & HI' & _). eauto.
Qed.

Lemma ss_write_inv s buf w :
  bytes_ok buf -> SInv s -> exists s' w' r, ss_write s buf w = Some (s', w', r) /\ SInv s'.
Proof.
  intros Hok HI. destruct (ss_write_spec s buf w Hok HI) as (s' & w' & r & H & Hpost).
  exists s', w', r. split; [exact H|]. destruct r as [n| |k]; cbn [write_post] in Hpost.
  - destruct Hpost as (_ & _ & -> & _). apply after_inv; [apply bytes_ok_firstn, Hok|exact HI].
  - contradiction.
  - destruct Hpost as [-> _]. exact HI.
Qed.

Lemma ss_write_fmt_inv : forall frags s w,
  Forall bytes_lt frags -> SInv s -> exists s' w' r, ss_write_fmt s frags w = Some (s', w', r) /\ SInv s'.
Proof.
  intros frags s w Hok HI. apply Forall_concat in Hok.
  destruct (ss_write_fmt_spec frags s w Hok HI) as (s' & w' & r & H & HI' & _). eauto.
Qed.

Lemma ss_op_inv s w o :
  SInv s -> op_bytes_lt o -> exists s' w' r, ss_op s w o = Some (s', w', r) /\ SInv s'.
Proof.
  intros HI Ho. destruct o; cbn [ss_op op_bytes_lt] in *.
  - apply ss_write_inv; assumption.
  - apply ss_write_all_inv; assumption.
  - apply ss_write_inv; [apply first_nonempty_lt, Ho | exact HI].
  - apply ss_write_fmt_inv; assumption.
  - do 3 eexists. split; [reflexivity|exact HI].
Qed.

Theorem ss_run_total : forall ops s w,
  SInv s -> Forall op_bytes_lt ops -> exists s' w' rs, ss_run s w ops = Some (s', w', rs) /\ SInv s'.
Proof.
  induction ops as [|o ops IH]; intros s w HI Hops; cbn [ss_run].
  - do 3 eexists. split; [reflexivity|exact HI].
  - inversion Hops as [|? ? Ho Hrest]; subst.
    destruct (ss_op_inv s w o HI Ho) as (s1 & w1 & r & H1 & HI1). rewrite H1.
    destruct (IH s1 w1 HI1 Hrest) as (s2 & w2 & rs & H2 & HI2). rewrite H2.
    do 3 eexists. split; [reflexivity|exact HI2].
Qed.

(* AutoStream in either arm *)
Theorem run_ops_total : forall b m ops s w,
  SInv s -> Forall op_bytes_lt ops -> exists s' w' rs, run_ops b m s w ops = Some (s', w', rs) /\ SInv s'.
Proof.
  intros b m ops s w HI Hops. destruct m.
  - rewrite run_ops_pass. do 3 eexists. split; [reflexivity|exact HI].
  - rewrite run_ops_strip. apply ss_run_total; assumption.
Qed.

(* the fixed-buffer parser configuration (feature `core`) with `utf8` *)

Theorem pc_fixed_total : forall cap bs,
  Forall (fun b => b < 256) bs -> exists p e, run (mkCfg (Some cap) true) parser_new bs = Some (p, e).
Proof.
  intros cap bs Hbs. rewrite pc_run_trunc.
  destruct (run_sim (pc_trunc cap true parser_new bs) parser_new vt_init (pc_trunc_sub _ cap true bs parser_new Hbs) R_init)
    as (p' & Hr & _).
  change (mkCfg None true) with cfg_default. rewrite Hr. eauto.
Qed.

Lemma svg_ansi_name_total_all :
  forallb (fun a => match svg_ansi_name a with Some _ => true | None => false end) (range_from 0 16) = true.
Proof. vm_compute. reflexivity. Qed.

Lemma svg_color_name_total prefix c : svg_colour_ok c = true -> exists k, svg_color_name prefix c = Some k.
Proof.
  destruct c as [a|i|r g b]; cbn [svg_colour_ok svg_color_name]; intros H; [|eauto|eauto].
  apply N.ltb_lt in H.
  pose proof (forall_range _ 16 svg_ansi_name_total_all a H) as K. cbv beta in K.
  unfold svg_ansi_name in K. destruct (from_ansi a) as [index|]; [|discriminate].
  destruct (aget svg_ansi_names index) as [name|]; [|discriminate]. eauto.
Qed.

Lemma svg_rgb_value_total pal c : palette_ok pal -> svg_colour_ok c = true -> exists v, svg_rgb_value c pal = Some v.
Proof.
  intros Hp Hc. unfold svg_rgb_value.
  destruct (conversions_total _ _ (svg_colour_ok_color _ Hc) Hp) as ((r & Er & _) & _). rewrite Er. eauto.
Qed.

Lemma svg_insert_colour_total pal prefix c m :
  palette_ok pal -> svg_ocol_ok c = true -> exists m', svg_insert_colour pal prefix c m = Some m'.
Proof.
  intros Hp Hc. destruct c as [col|]; cbn [svg_insert_colour svg_ocol_ok] in *; [|eauto].
  destruct (svg_color_name_total prefix col Hc) as [k ->]. destruct (svg_rgb_value_total pal col Hp Hc) as [v ->]. eauto.
Qed.

Lemma svg_color_styles_total pal : forall styled m,
  palette_ok pal -> Forall (fun p => svg_style_ok (fst p) = true) styled ->
  exists m', svg_color_styles styled pal m = Some m'.
Proof.
  induction styled as [|[s t] rest IH]; intros m Hp H; cbn [svg_color_styles]; [eauto|].
  inversion H as [|? ? Hs Hrest]; subst. cbn [fst] in Hs.
  apply svg_style_ok_elim in Hs. destruct Hs as (A & B & C).
  destruct (svg_insert_colour_total pal svg_fg_prefix (s_fg s) m Hp A) as [m1 ->].
  destruct (svg_insert_colour_total pal svg_bg_prefix (s_bg s) m1 Hp B) as [m2 ->].
  destruct (svg_insert_colour_total pal svg_underline_prefix (s_ul s) m2 Hp C) as [m3 ->].
  apply IH; assumption.
Qed.

Lemma svg_opt_class_total prefix c : svg_ocol_ok c = true -> exists cl, svg_opt_class prefix c = Some cl.
Proof.
  destruct c as [col|]; cbn [svg_opt_class svg_ocol_ok]; intros H; [|eauto].
  destruct (svg_color_name_total prefix col H) as [k ->]. eauto.
Qed.

Lemma svg_fg_classes_total s : svg_style_ok s = true -> exists cl, svg_fg_classes s = Some cl.
Proof.
  intros Hs. apply svg_style_ok_elim in Hs. destruct Hs as (A & _ & C). unfold svg_fg_classes.
  destruct (svg_opt_class_total svg_fg_prefix _ A) as [x ->]. destruct (svg_opt_class_total svg_underline_prefix _ C) as [y ->]. eauto.
Qed.

Lemma svg_bg_classes_total s : svg_style_ok s = true -> exists cl, svg_bg_classes s = Some cl.
Proof.
  intros Hs. apply svg_style_ok_elim in Hs. destruct Hs as (_ & B & _). apply svg_opt_class_total, B.
Qed.

Lemma svg_spans_total cls : forall line,
  Forall (fun p => exists cl, cls (fst p) = Some cl) line -> exists sp, svg_spans cls line = Some sp.
Proof.
  induction line as [|[s t] rest IH]; intros H; cbn [svg_spans]; [eauto|].
  inversion H as [|? ? Hs Hrest]; subst. destruct (IH Hrest) as [r Hr]. rewrite Hr.
  destruct (svg_is_nil t); [eauto|]. cbn [fst] in Hs. destruct Hs as [cl ->]. eauto.
Qed.

Lemma svg_line_of_total line :
  Forall (fun p => svg_style_ok (fst p) = true) line -> exists l, svg_line_of line = Some l.
Proof.
  intros H. unfold svg_line_of.
  destruct (svg_spans_total svg_fg_classes line) as [fg ->].
  { eapply Forall_impl; [|exact H]. intros p Hp. apply svg_fg_classes_total, Hp. }
  destruct (svg_has_bg line); [|eauto].
  destruct (svg_spans_total svg_bg_classes line) as [bg ->]; [|eauto].
  eapply Forall_impl; [|exact H]. intros p Hp. apply svg_bg_classes_total, Hp.
Qed.

Lemma svg_lines_of_total : forall lines,
  Forall (Forall (fun p => svg_style_ok (fst p) = true)) lines -> exists ls, svg_lines_of lines = Some ls.
Proof.
  induction lines as [|l rest IH]; intros H; cbn [svg_lines_of]; [eauto|].
  inversion H as [|? ? Hl Hrest]; subst.
  destruct (svg_line_of_total l Hl) as [x ->]. destruct (IH Hrest) as [r ->]. eauto.
Qed.

(* a fragment of a split line carries the style of a run it was cut from *)
Lemma svg_split_lines_ok styled :
  Forall (fun p => svg_style_ok (fst p) = true) styled ->
  Forall (Forall (fun p => svg_style_ok (fst p) = true)) (svg_split_lines styled).
Proof.
  intros H. eapply Forall_impl; [|apply svg_split_lines_from].
  intros line Hline. eapply Forall_impl; [|exact Hline].
  intros f (t0 & Hin & _). apply (proj1 (Forall_forall _ _) H _ Hin).
Qed.

Theorem svg_doc_total : forall t input,
  palette_ok (svg_t_palette t) -> svg_colour_ok (svg_t_fg t) = true -> svg_colour_ok (svg_t_bg t) = true ->
  Forall (fun b => b < 256) input ->
  exists d, svg_doc t input = Some d.
Proof.
  intros t input Hp Hf Hb Hin.
  destruct (extract_next_total input parser_new vt_init capture_default Hin R_init) as (runs & p' & c' & He & _).
  pose proof (svg_extract_next_ok _ _ _ _ He) as Hruns.
  unfold svg_doc, svg_styled. rewrite He. fold (svg_inverted t runs).
  assert (Hinv : Forall (fun p => svg_style_ok (fst p) = true) (svg_inverted t runs)).
  { unfold svg_inverted. apply Forall_forall. intros x Hx. apply in_map_iff in Hx. destruct Hx as (y & <- & Hy).
    cbn [fst]. apply svg_invert_ok; [exact Hf|exact Hb|]. apply (proj1 (Forall_forall _ _) Hruns y Hy). }
  destruct (svg_rgb_value_total _ _ Hp Hf) as [fgc ->]. destruct (svg_rgb_value_total _ _ Hp Hb) as [bgc ->].
  destruct (svg_color_styles_total (svg_t_palette t) (svg_inverted t runs) [] Hp Hinv) as [sheet ->].
  destruct (svg_lines_of_total _ (svg_split_lines_ok _ Hinv)) as [ls ->].
  eauto.
Qed.

(* the printed document is a plain function of [svg_doc]'s answer (svg_print is total by type) *)

(* imported here, after everything above: Model/Style.v and Spec/Sgr.v both have a mkStyle *)
From AV Require Import Spec.Render Model.Style Model.Render Proofs.Render.

(* `format!("{:<flags>}", style)` and `{:#<flags>}` for every style value and every width /
   fill / alignment / precision: the DisplayBuffer writes stay inside the buffer *)
Lemma rn_display_total : forall alternate flags s,
  rn_wf (rn_sstyle s) -> exists bs, rn_display alternate flags s = Some bs.
Proof.
  intros alternate flags s H. destruct (display_forms flags s) as [A B]. destruct alternate.
  - rewrite B. eauto.
  - rewrite A. destruct (render_is_sgr_only s H) as (bs & E & _). rewrite E. eauto.
Qed.

(* the io::Write path (Style::write_to) *)
Lemma rn_write_to_total : forall s, rn_wf (rn_sstyle s) -> exists bufs, rn_write_to s = Some bufs.
Proof.
  intros s H. destruct (render_is_sgr_only s H) as (bs & E & _).
  pose proof (paths_agree s) as P. rewrite E in P. destruct (rn_write_to s) as [bufs|]; [eauto|discriminate].
Qed.
