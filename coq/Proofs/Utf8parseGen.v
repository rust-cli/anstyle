(* The utf8parse decoder TRANSLATED from the registry source
   (Generated/Utf8parseFn.v, tools/gen_fn_utf8parse.py) is the hand model Model/Utf8parse.v
   the theorems of C01 / C02 / C03 / C04 / C20 are about: for every state, every accumulated
   code point and every byte (no bound on the numbers is needed).
   Also: the callers inside anstyle-parse (`CharAccumulator::add`) are the hand model's
   `char_add`, and the argument of `char::from_u32_unchecked` is a Unicode scalar value for
   every decoder reachable from `Parser::new()` (the precondition of the unsafe call). *)
From Coq Require Import NArith List Bool Lia.
From AV Require Import Model.Base Model.Imp Model.Utf8parse Model.Parser Generated.Utf8parseFn Proofs.BaseFacts Proofs.Utf8Sim.
Import ListNotations.
Local Open Scope N_scope.

Lemma g_CONTINUATION_MASK_eq : g_CONTINUATION_MASK = CONTINUATION_MASK.
Proof. reflexivity. Qed.

Lemma g_u8_parser_new_eq : g_u8_parser_new = u8_new.
Proof. reflexivity. Qed.

Lemma g_u8_parser_default_eq : g_u8_parser_default = u8_new.
Proof. reflexivity. Qed.

(* split every test of the goal, innermost first *)
Ltac split_tests :=
  repeat match goal with
  | |- context [if ?c then _ else _] =>
      match c with context [if _ then _ else _] => fail 1 | _ => idtac end;
      destruct c eqn:?
  end.

(* both sides are chains of range tests on the byte: split every test, close a leaf by
   computation, or -- when the arms were tested in another order -- by arithmetic on the
   recorded outcomes *)
Lemma g_u8_state_advance_eq : forall s b, g_u8_state_advance s b = Some (u8_advance s b).
Proof.
  intros s b. unfold g_u8_state_advance, u8_advance, rng.
  destruct s; split_tests; try reflexivity; exfalso; tests_to_props; lia.
Qed.

(* the hand model's second half: what `u8_parser_advance` does once the table has answered
   (st, a) -- the code point it keeps and what the receiver is told *)
Definition u8_perform (p : u8parser) (b : N) (a : u8action) : N * u8out :=
  match a with
  | InvalidSequence => (0, U8Invalid)
  | EmitByte => (u8point p, U8Codepoint b)
  | SetByte1 => (0, U8Codepoint (N.lor (u8point p) (N.land b CONTINUATION_MASK)))
  | SetByte2 => (N.lor (u8point p) (N.shiftl (N.land b CONTINUATION_MASK) 6), U8None)
  | SetByte2Top => (N.lor (u8point p) (N.shiftl (N.land b 31) 6), U8None)
  | SetByte3 => (N.lor (u8point p) (N.shiftl (N.land b CONTINUATION_MASK) 12), U8None)
  | SetByte3Top => (N.lor (u8point p) (N.shiftl (N.land b 15) 12), U8None)
  | SetByte4 => (N.lor (u8point p) (N.shiftl (N.land b 7) 18), U8None)
  end.

Lemma u8_parser_advance_perform : forall p b,
  u8_parser_advance p b =
  (mkU8 (fst (u8_perform p b (snd (u8_advance (u8st p) b)))) (fst (u8_advance (u8st p) b)),
   snd (u8_perform p b (snd (u8_advance (u8st p) b)))).
Proof.
  intros p b. unfold u8_parser_advance.
  destruct (u8_advance (u8st p) b) as [st a]. destruct a; reflexivity.
Qed.

(* a masked byte shifted into place stays inside the u32: the checked shift answers, and the
   reduction modulo 2^32 is the identity *)
Lemma land_ones_lt : forall b k, N.land b (N.ones k) < 2 ^ k.
Proof. intros b k. rewrite N.land_ones. apply N.mod_lt. apply N.pow_nonzero. discriminate. Qed.

Lemma cshl_masked : forall b k i, k + i <= 32 -> i < 32 ->
  u8_cshl 32 (N.land b (N.ones k)) i = Some (N.shiftl (N.land b (N.ones k)) i).
Proof.
  intros b k i Hk Hi. unfold u8_cshl.
  apply N.ltb_lt in Hi. rewrite Hi. f_equal.
  apply N.mod_small. rewrite N.shiftl_mul_pow2.
  pose proof (land_ones_lt b k) as Hlt.
  apply N.lt_le_trans with (2 ^ k * 2 ^ i).
  - apply N.mul_lt_mono_pos_r; [|exact Hlt].
    apply N.neq_0_lt_0, N.pow_nonzero. discriminate.
  - rewrite <- N.pow_add_r. apply N.pow_le_mono_r; [discriminate | exact Hk].
Qed.

Lemma cshl_63_6 b : u8_cshl 32 (N.land b 63) 6 = Some (N.shiftl (N.land b 63) 6).
Proof. exact (cshl_masked b 6 6 ltac:(lia) ltac:(lia)). Qed.
Lemma cshl_31_6 b : u8_cshl 32 (N.land b 31) 6 = Some (N.shiftl (N.land b 31) 6).
Proof. exact (cshl_masked b 5 6 ltac:(lia) ltac:(lia)). Qed.
Lemma cshl_63_12 b : u8_cshl 32 (N.land b 63) 12 = Some (N.shiftl (N.land b 63) 12).
Proof. exact (cshl_masked b 6 12 ltac:(lia) ltac:(lia)). Qed.
Lemma cshl_15_12 b : u8_cshl 32 (N.land b 15) 12 = Some (N.shiftl (N.land b 15) 12).
Proof. exact (cshl_masked b 4 12 ltac:(lia) ltac:(lia)). Qed.
Lemma cshl_7_18 b : u8_cshl 32 (N.land b 7) 18 = Some (N.shiftl (N.land b 7) 18).
Proof. exact (cshl_masked b 3 18 ltac:(lia) ltac:(lia)). Qed.

Lemma g_u8_perform_action_eq : forall p r b a,
  g_u8_perform_action p r b a =
  Some (set_u8point p (fst (u8_perform p b a)), r ++ u8_events (snd (u8_perform p b a))).
Proof.
  intros p r b a. unfold g_u8_perform_action, u8_perform.
  change g_CONTINUATION_MASK with 63. change CONTINUATION_MASK with 63.
  destruct a; cbn [fst snd u8_events];
    rewrite ?cshl_63_6, ?cshl_31_6, ?cshl_63_12, ?cshl_15_12, ?cshl_7_18;
    rewrite ?app_nil_r; try reflexivity.
  (* EmitByte: the code point is untouched *)
  destruct p; reflexivity.
Qed.

Theorem g_u8_parser_advance_eq : forall p r b,
  g_u8_parser_advance p r b =
  Some (fst (u8_parser_advance p b), r ++ u8_events (snd (u8_parser_advance p b))).
Proof.
  intros p r b. unfold g_u8_parser_advance.
  rewrite g_u8_state_advance_eq, u8_parser_advance_perform.
  destruct (u8_advance (u8st p) b) as [st a].
  rewrite g_u8_perform_action_eq. reflexivity.
Qed.

(* the reading tools/gen_fn_strip.py's `m_u8_advance` and Model/Parser.v's `char_add` use: one call of
   `advance` on a receiver that has seen nothing tells it exactly what the hand model answers *)
Corollary translated_advance_is_model : forall p b,
  g_u8_parser_advance p [] b =
  Some (fst (u8_parser_advance p b), u8_events (snd (u8_parser_advance p b))).
Proof. intros p b. rewrite g_u8_parser_advance_eq. reflexivity. Qed.

Lemma u8_deliver_events : forall (R : Type) (cp : R -> N -> R) (inv : R -> R) o r,
  u8_deliver cp inv (u8_events o) r =
  match o with U8None => r | U8Codepoint c => cp r c | U8Invalid => inv r end.
Proof. intros R cp inv o r. destruct o; reflexivity. Qed.

Fixpoint u8_model_run (p : u8parser) (bs : list N) : u8parser * list u8out :=
  match bs with
  | [] => (p, [])
  | b :: rest =>
      let '(p1, o) := u8_parser_advance p b in
      let '(p2, evs) := u8_model_run p1 rest in
      (p2, u8_events o ++ evs)
  end.

Fixpoint g_u8_run (p : u8parser) (r : list u8out) (bs : list N) : option (u8parser * list u8out) :=
  match bs with
  | [] => Some (p, r)
  | b :: rest => '(p1, r1) <- g_u8_parser_advance p r b ;; g_u8_run p1 r1 rest
  end.

Theorem translated_run_is_model : forall bs p r,
  g_u8_run p r bs = Some (fst (u8_model_run p bs), r ++ snd (u8_model_run p bs)).
Proof.
  induction bs as [|b rest IH]; intros p r; cbn [g_u8_run u8_model_run].
  - rewrite app_nil_r. reflexivity.
  - rewrite g_u8_parser_advance_eq.
    destruct (u8_parser_advance p b) as [p1 o]. cbn [fst snd].
    rewrite IH. destruct (u8_model_run p1 rest) as [p2 evs]. cbn [fst snd].
    rewrite app_assoc. reflexivity.
Qed.

(* the callers inside anstyle-parse *)

Lemma g_pa_utf8_add_eq : forall c u b, utf8_on c = true -> g_pa_utf8_add u b = char_add c u b.
Proof.
  intros c u b Hc. unfold g_pa_utf8_add, char_add, u8acc_inner, set_u8acc_inner. rewrite Hc.
  rewrite translated_advance_is_model, u8_deliver_events.
  destruct (u8_parser_advance u b) as [u' o]. destruct o; reflexivity.
Qed.

Lemma g_pa_ascii_add_eq : forall c a u b, utf8_on c = false ->
  option_map snd (g_pa_ascii_add a b) = option_map snd (char_add c u b).
Proof. intros c a u b Hc. unfold g_pa_ascii_add, char_add. rewrite Hc. reflexivity. Qed.

Theorem translated_char_add_is_model : forall c u b,
  (if utf8_on c then g_pa_utf8_add u b
   else option_map (fun '(_, o) => (u, o)) (g_pa_ascii_add tt b)) = char_add c u b.
Proof.
  intros c u b. destruct (utf8_on c) eqn:Hc.
  - apply g_pa_utf8_add_eq, Hc.
  - unfold g_pa_ascii_add, char_add. rewrite Hc. reflexivity.
Qed.

Theorem translated_advance_never_panics : forall p r b, g_u8_parser_advance p r b <> None.
Proof. intros p r b. rewrite g_u8_parser_advance_eq. discriminate. Qed.

Theorem translated_run_never_panics : forall bs p r, g_u8_run p r bs <> None.
Proof. intros bs p r. rewrite translated_run_is_model. discriminate. Qed.

(* the precondition of `unsafe { char::from_u32_unchecked(point) }`
   The translation reads the unsafe call as the identity on the number.  That is what the call does
   when its argument is a Unicode scalar value, which is the case for every decoder that was started
   from `Parser::new()` and fed bytes: the invariant below (per automaton state, which partial code
   points can have been accumulated) is kept by every step and makes every code point handed to the
   receiver a scalar value. *)

(* [k] counts in units of the place value still to come: 17408 = 0x110000 / 64, 864 =
   0xD800 / 64 and 896 = 0xE000 / 64 (the surrogate gap), 272 = 0x110000 / 4096; k = 13 is
   lead byte ED, which has its own state; E0 / F0 have accumulated 0, F4 has 4 * 2^18 *)
Definition u8_inv (p : u8parser) : Prop :=
  let x := u8point p in
  match u8st p with
  | U8Ground => x = 0
  | U8Tail1 => exists k, x = k * 64 /\ 2 <= k /\ k < 17408 /\ (k < 864 \/ 896 <= k)
  | U8Tail2 => exists k, x = k * 4096 /\ 1 <= k /\ k < 272 /\ k <> 13
  | U8Tail3 => exists k, x = k * 262144 /\ 1 <= k /\ k <= 3
  | U8_3_2_e0 => x = 0
  | U8_3_2_ed => x = 13 * 4096
  | U8_4_3_f0 => x = 0
  | U8_4_3_f4 => x = 4 * 262144
  end.

Definition u8_out_scalar (o : u8out) : Prop :=
  match o with U8Codepoint c => u8_is_scalar c = true | _ => True end.

Lemma u8_is_scalar_intro : forall c, c < 55296 \/ (57343 < c /\ c < 1114112) -> u8_is_scalar c = true.
Proof.
  intros c [H | [H1 H2]]; unfold u8_is_scalar.
  - apply N.ltb_lt in H. rewrite H. reflexivity.
  - apply N.ltb_lt in H1, H2. rewrite H1, H2. apply orb_true_r.
Qed.

Lemma mod_parts : forall b m, m <> 0 -> b = m * (b / m) + b mod m /\ b mod m < m.
Proof. intros b m Hm. split; [apply N.div_mod, Hm | apply N.mod_lt, Hm]. Qed.

(* [b mod m] for the masks in use, as linear facts over fresh variables ([lia] does not look
   inside [b / m], [b mod m]) *)
Ltac mod_fact b m :=
  let q := fresh "q" in let r := fresh "r" in
  pose proof (mod_parts b m ltac:(discriminate)) as [? ?];
  set (q := b / m) in *; set (r := b mod m) in *; clearbody q r.

(* the tests that held on the way to a leaf, as propositions; the failed ones are not needed *)
Ltac held_tests :=
  repeat match goal with
  | H : rng _ _ _ = true |- _ =>
      unfold rng in H; apply andb_true_iff in H; destruct H as [?%N.leb_le ?%N.leb_le]
  | H : (_ =? _) = true |- _ => apply N.eqb_eq in H
  | H : _ = false |- _ => clear H
  end.

Ltac to_arith :=
  rewrite ?N.lor_0_l;
  try (rewrite lor64 by lia); try (rewrite lor4096 by lia); try (rewrite lor262144 by lia).

(* the new partial code point is [k' * unit] for one of these k' *)
Ltac new_point :=
  first [ reflexivity | lia
        | eexists; split; [reflexivity | lia]
        | match goal with |- exists _, ?k * _ + ?r * _ = _ /\ _ => exists (k * 64 + r); lia end ].

Theorem u8_inv_step : forall p b, b < 256 -> u8_inv p ->
  u8_inv (fst (u8_parser_advance p b)) /\ u8_out_scalar (snd (u8_parser_advance p b)).
Proof.
  intros [x s] b Hb Hinv. unfold u8_inv in Hinv. cbn [u8st u8point] in Hinv.
  unfold u8_parser_advance, u8_advance. cbn [u8st u8point].
  change CONTINUATION_MASK with 63.
  rewrite ?land63, ?land31, ?land15, ?land7, ?shl6, ?shl12, ?shl18.
  destruct s;
    try (destruct Hinv as (k & Hx & Hinv)); subst x;
    split_tests; held_tests;                  (* split the byte tests, keep those that held *)
    cbn [fst snd u8st u8point u8_out_scalar]; unfold u8_inv; cbn [u8st u8point];
    repeat match goal with |- context [b mod ?m] => mod_fact b m end;   (* name b mod m *)
    to_arith;                                                      (* lor -> + *)
    (* left: the invariant of the successor state; right: the emitted code point is a
       scalar value *)
    (split; [new_point | first [exact I | apply u8_is_scalar_intro; lia]]).
Qed.

Lemma u8_inv_new : u8_inv u8_new.
Proof. reflexivity. Qed.

Lemma u8_events_scalar : forall o, u8_out_scalar o -> Forall u8_out_scalar (u8_events o).
Proof. intros [| c |] H; cbn [u8_events]; repeat constructor; exact H. Qed.

Lemma u8_run_inv : forall bs p, Forall (fun b => b < 256) bs -> u8_inv p ->
  u8_inv (fst (u8_model_run p bs)) /\ Forall u8_out_scalar (snd (u8_model_run p bs)).
Proof.
  induction bs as [|b rest IH]; intros p Hbs Hp; cbn [u8_model_run].
  - split; [exact Hp | constructor].
  - inversion Hbs as [|? ? Hb Hrest]; subst.
    destruct (u8_inv_step p b Hb Hp) as [Hp1 Ho].
    destruct (u8_parser_advance p b) as [p1 o]. cbn [fst snd] in Hp1, Ho.
    destruct (IH p1 Hrest Hp1) as [Hp2 Hevs].
    destruct (u8_model_run p1 rest) as [p2 evs]. cbn [fst snd] in *.
    split; [exact Hp2|]. apply Forall_app. split; [apply u8_events_scalar, Ho | exact Hevs].
Qed.

(* every code point the TRANSLATED decoder, started from Parser::new() / Parser::default(), hands to its
   receiver is a Unicode scalar value: the unsafe `char::from_u32_unchecked` is within its contract, and
   `byte as char` on the ASCII arm is below 128 *)
Theorem unchecked_char_is_scalar : forall bs p r,
  Forall (fun b => b < 256) bs ->
  g_u8_run g_u8_parser_new [] bs = Some (p, r) -> Forall u8_out_scalar r.
Proof.
  intros bs p r Hbs H. rewrite translated_run_is_model, g_u8_parser_new_eq in H.
  injection H as _ <-. cbn [app].
  exact (proj2 (u8_run_inv bs u8_new Hbs u8_inv_new)).
Qed.
