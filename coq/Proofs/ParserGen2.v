(* The remaining translated functions of crates/anstyle-parse (Generated/ParserFn.v):
   TryFrom<u8> for State / Action, the default bodies of trait Perform, <Params as Debug>::fmt, and what
   ParamsIter::size_hint reports.  (Proofs/ParserGen.v holds Parser::advance with what it calls, Params, ParamsIter,
   new / Default.) *)
From Coq Require Import NArith List Bool Lia.
From AV Require Import Generated.Table Spec.Vt Model.Base Model.Imp Model.Utf8parse Model.Parser Generated.ParserFn
  Proofs.TableFacts Proofs.VtCsi Proofs.ParserGen.
Import ListNotations.
Local Open Scope N_scope.

(* TryFrom<u8>: TABLE.get(raw as usize).ok_or(raw).copied() is the discriminant decoder of Generated/Table.v.
   The argument is the same for State and Action: a type with its `as u8` [disc], the decoder [of_disc] that inverts
   it, and a table; what is particular to each is two sweeps over the 256 bytes. *)
Section TryFrom.
  Context {T : Type} (disc : T -> N) (of_disc : N -> option T) (table : list T).
  Hypothesis of_disc_disc : forall x, of_disc (disc x) = Some x.

  Definition odisc_eqb (a b : option T) : bool :=
    match a, b with Some x, Some y => disc x =? disc y | None, None => true | _, _ => false end.

  (* equal discriminants, equal constructors *)
  Lemma odisc_eqb_eq a b : odisc_eqb a b = true -> a = b.
  Proof.
    destruct a as [x|], b as [y|]; try discriminate; try reflexivity.
    intros H. apply N.eqb_eq, (f_equal of_disc) in H.
    rewrite !of_disc_disc in H. exact H.
  Qed.

  Lemma table_get raw :
    forallb (fun r => odisc_eqb (aget table r) (of_disc r)) all_bytes = true ->
    raw < 256 -> aget table raw = of_disc raw.
  Proof. intros C H. apply odisc_eqb_eq. exact (forall_bytes _ C raw H). Qed.

  Lemma of_disc_high raw :
    forallb (fun r => if r <? 16 then true else odisc_eqb (of_disc r) None) all_bytes = true ->
    16 <= raw < 256 -> of_disc raw = None.
  Proof.
    intros C [Hlo Hhi]. apply odisc_eqb_eq.
    pose proof (forall_bytes _ C raw Hhi) as E. cbv beta in E.
    apply N.ltb_ge in Hlo. rewrite Hlo in E. exact E.
  Qed.
End TryFrom.

Lemma states_get raw : raw < 256 -> aget g_STATES raw = state_of_disc raw.
Proof. apply (table_get state_disc _ _ state_of_disc_disc). vm_compute. reflexivity. Qed.
Lemma actions_get raw : raw < 256 -> aget g_ACTIONS raw = action_of_disc raw.
Proof. apply (table_get action_disc _ _ action_of_disc_disc). vm_compute. reflexivity. Qed.

Lemma g_state_try_from_eq c raw : raw < 256 -> g_state_try_from c raw = opt_ok_or (state_of_disc raw) raw.
Proof. intros H. unfold g_state_try_from. rewrite (states_get raw H). reflexivity. Qed.
Lemma g_action_try_from_eq c raw : raw < 256 -> g_action_try_from c raw = opt_ok_or (action_of_disc raw) raw.
Proof. intros H. unfold g_action_try_from. rewrite (actions_get raw H). reflexivity. Qed.

Lemma g_state_try_from_disc c s : g_state_try_from c (state_disc s) = inl s.
Proof. destruct s; reflexivity. Qed.
Lemma g_action_try_from_disc c a : g_action_try_from c (action_disc a) = inl a.
Proof. destruct a; reflexivity. Qed.

Lemma g_state_try_from_err c raw : 16 <= raw < 256 -> g_state_try_from c raw = inr raw.
Proof.
  intros H. rewrite (g_state_try_from_eq c raw (proj2 H)).
  rewrite (of_disc_high state_disc _ state_of_disc_disc raw ltac:(vm_compute; reflexivity) H). reflexivity.
Qed.
Lemma g_action_try_from_err c raw : 16 <= raw < 256 -> g_action_try_from c raw = inr raw.
Proof.
  intros H. rewrite (g_action_try_from_eq c raw (proj2 H)).
  rewrite (of_disc_high action_disc _ action_of_disc_disc raw ltac:(vm_compute; reflexivity) H). reflexivity.
Qed.

(* the hand model's unpack is try_from on the two nibbles (what the transmute relies on) *)
Lemma unpack_is_try_from c delta : delta < 256 ->
  unpack delta =
  match g_state_try_from c (N.land delta 15), g_action_try_from c (N.shiftr delta 4) with
  | inl s, inl a => Some (s, a)
  | _, _ => None
  end.
Proof.
  intros H. unfold unpack.
  assert (H1 : N.land delta 15 < 256).
  { change 15 with (N.ones 4). rewrite N.land_ones. pose proof (N.mod_lt delta (2 ^ 4)). lia. }
  assert (H2 : N.shiftr delta 4 < 256).
  { rewrite N.shiftr_div_pow2. change (2 ^ 4) with 16.
    assert (delta / 16 <= delta) by (apply N.div_le_upper_bound; lia). lia. }
  rewrite (g_state_try_from_eq c _ H1), (g_action_try_from_eq c _ H2).
  destruct (state_of_disc (N.land delta 15)); cbn [opt_ok_or]; [|reflexivity].
  destruct (action_of_disc (N.shiftr delta 4)); reflexivity.
Qed.

Lemma g_perform_defaults_noop (T : Type) (pf : T) :
  (forall ch, g_perform_default_print T pf ch = pf) /\
  (forall b, g_perform_default_execute T pf b = pf) /\
  (forall q is ig b, g_perform_default_hook T pf q is ig b = pf) /\
  (forall b, g_perform_default_put T pf b = pf) /\
  g_perform_default_unhook T pf = pf /\
  (forall fs bell, g_perform_default_osc_dispatch T pf fs bell = pf) /\
  (forall q is ig b, g_perform_default_csi_dispatch T pf q is ig b = pf) /\
  (forall is ig b, g_perform_default_esc_dispatch T pf is ig b = pf).
Proof. repeat split. Qed.

(* a performer that overrides nothing, run over the events of the (translated) parser, is unchanged: the
   hand-written dispatcher from events to callbacks, as in Proofs/WinconGen.v g_perform *)
Definition g_perform_default_event (T : Type) (c : cfg) (pf : T) (e : event) : T :=
  match e with
  | EPrint ch => g_perform_default_print T pf ch
  | EExecute b => g_perform_default_execute T pf b
  | EHook _ is ig b => g_perform_default_hook T pf (g_params_default c) is ig b
  | EPut b => g_perform_default_put T pf b
  | EUnhook => g_perform_default_unhook T pf
  | EOsc fs bell => g_perform_default_osc_dispatch T pf fs bell
  | ECsi _ is ig b => g_perform_default_csi_dispatch T pf (g_params_default c) is ig b
  | EEsc is ig b => g_perform_default_esc_dispatch T pf is ig b
  end.

Lemma g_perform_default_events (T : Type) c (pf : T) evs :
  fold_left (g_perform_default_event T c) evs pf = pf.
Proof. induction evs as [|e t IH]; [reflexivity|]. cbn [fold_left]. destruct e; exact IH. Qed.

(* ParamsIter::size_hint: both bounds are the number of VALUES left, not of groups (items) *)

(* on the iterator of a well-formed parameter list the hint is exact only when no group has sub-parameters:
   [1:2] holds two values in ONE group, the hint is (2, Some 2), the iterator yields one item *)
Example size_hint_overcounts :
  let q := mkParams (2 :: 0 :: repeat 0 30) (1 :: 2 :: repeat 0 30) 0 2 in
  params_groups q = Some [[1; 2]] /\
  g_params_iter_size_hint cfg_default (g_params_iter cfg_default q) = Some (2, Some 2).
Proof. vm_compute. split; reflexivity. Qed.

(* <Params as Debug>::fmt: "[" ++ the groups, ':' inside a group, ';' between groups ++ "]" -- the textual form
   print_params of Proofs/VtCsi.v (the CSI round-trip theorem is about) *)

Lemma pfmt_dec_is fuel : forall n acc, pfmt_dec fuel n acc = dec_digits fuel n acc.
Proof. induction fuel as [|k IH]; intros n acc; cbn [pfmt_dec dec_digits]; [reflexivity|]. rewrite IH. reflexivity. Qed.

Fixpoint dbg_sub (first : bool) (l : list N) : list N :=
  match l with
  | [] => []
  | v :: t => (if first then [] else [58]) ++ print_u16 v ++ dbg_sub false t
  end.
Fixpoint dbg_groups (first : bool) (G : list (list N)) : list N :=
  match G with
  | [] => []
  | g :: t => (if first then [] else [59]) ++ dbg_sub true g ++ dbg_groups false t
  end.

Lemma dbg_sub_false l : dbg_sub false l = match l with [] => [] | _ => 58 :: csi_join 58 (map print_u16 l) end.
Proof.
  induction l as [|v t IH]; [reflexivity|]. cbn [dbg_sub map csi_join app]. rewrite IH.
  destruct t; cbn [map]; [rewrite app_nil_r|]; reflexivity.
Qed.
Lemma dbg_sub_true l : dbg_sub true l = csi_join 58 (map print_u16 l).
Proof. destruct l as [|v t]; [reflexivity|]. cbn [dbg_sub map csi_join app]. rewrite dbg_sub_false. destruct t; cbn [map]; [rewrite app_nil_r|]; reflexivity. Qed.
Lemma dbg_groups_false G : dbg_groups false G = match G with [] => [] | _ => 59 :: print_params G end.
Proof.
  unfold print_params, print_digit_params.
  induction G as [|g t IH]; [reflexivity|]. cbn [dbg_groups map csi_join app]. rewrite IH, dbg_sub_true.
  destruct t; cbn [map]; [rewrite app_nil_r|]; reflexivity.
Qed.
Lemma dbg_groups_true G : dbg_groups true G = print_params G.
Proof.
  destruct G as [|g t]; [reflexivity|]. cbn [dbg_groups app]. rewrite dbg_groups_false, dbg_sub_true.
  unfold print_params, print_digit_params. destruct t; cbn [map csi_join]; [rewrite app_nil_r|]; reflexivity.
Qed.

Lemma succ_eqb_0 j : (j + 1 =? 0) = false.
Proof. apply N.eqb_neq. lia. Qed.

(* the two loops, for ANY body that does what one iteration of the Rust loop does *)
Lemma dbg_inner {R} (F : N * N -> list N -> option (lctl (list N) R)) :
  (forall i v f, F (i, v) f = Some (LNext (pfmt_u16 (if negb (i =? 0) then pfmt_write_str f [58] else f) v))) ->
  forall l j f, for_list F (penumerate_from j l) f = Some (inl (f ++ dbg_sub (j =? 0) l)).
Proof.
  intros HF. induction l as [|v t IH]; intros j f; cbn [penumerate_from for_list dbg_sub].
  - rewrite app_nil_r. reflexivity.
  - rewrite HF, IH, succ_eqb_0. unfold pfmt_u16, pfmt_write_str, print_u16. rewrite pfmt_dec_is.
    destruct (j =? 0); cbn [negb app]; rewrite <- ?app_assoc; reflexivity.
Qed.

Lemma dbg_outer {R} (F : N * list N -> list N -> option (lctl (list N) R)) :
  (forall i g f, F (i, g) f = Some (LNext ((if negb (i =? 0) then pfmt_write_str f [59] else f) ++ dbg_sub true g))) ->
  forall G j f, for_list F (penumerate_from j G) f = Some (inl (f ++ dbg_groups (j =? 0) G)).
Proof.
  intros HF. induction G as [|g t IH]; intros j f; cbn [penumerate_from for_list dbg_groups].
  - rewrite app_nil_r. reflexivity.
  - rewrite HF, IH, succ_eqb_0. unfold pfmt_write_str.
    destruct (j =? 0); cbn [negb app]; rewrite <- ?app_assoc; reflexivity.
Qed.

Lemma g_params_debug_fmt_eq c q f :
  g_params_debug_fmt c q f =
  (G <- params_groups q ;; Some (f ++ [91] ++ print_params G ++ [93], inl tt)).
Proof.
  unfold g_params_debug_fmt. cbv beta iota zeta.
  rewrite drain_params_iter, g_params_iter_eq. cbn [pit_params pit_index].
  change (params_iter (S (N.to_nat MAX_PARAMS)) q 0) with (params_groups q).
  destruct (params_groups q) as [G|]; [|reflexivity].
  match goal with |- context [for_list ?fo (penumerate G) _] => set (Fo := fo) end.
  assert (HFo : forall i g f0, Fo (i, g) f0 = Some (LNext ((if negb (i =? 0) then pfmt_write_str f0 [59] else f0) ++ dbg_sub true g))).
  { intros i g f0. unfold Fo. cbv beta iota zeta.
    destruct (i =? 0); cbn [negb];
      (match goal with |- context [for_list ?fi (penumerate g) _] =>
         rewrite (dbg_inner fi (fun i0 v f1 => ltac:(cbv beta iota zeta; destruct (i0 =? 0); reflexivity)) g 0)
       end); reflexivity. }
  unfold penumerate. rewrite (dbg_outer Fo HFo G 0). cbn [N.eqb]. rewrite dbg_groups_true.
  unfold pfmt_write_str. rewrite <- !app_assoc. reflexivity.
Qed.
