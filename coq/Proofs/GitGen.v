(* The functions translated from crates/anstyle-git/src/lib.rs
   (Generated/GitFn.v, written by tools/gen_fn_text.py: `parse_color` with
   its name arms, the '#' branch -- length test, hex-digit test, the three slices, the
   three from_str_radix -- and the number fall-back; `parse` with the `for` loop over
   split_whitespace, the lower-cased keyword arms, the colour-slot counter, both error
   returns and the final `style |= effects`) are extensionally equal to the hand model
   Model/Git.v that the theorems of C11 are about.  A change to the Rust functions
   changes the translation; if it changes their meaning, one of these proofs fails. *)
From Coq Require Import NArith List Bool Lia.
From AV Require Import Generated.Git Spec.StyleRec Model.Base Model.Imp Model.Text Model.Git Generated.GitFn Proofs.Text.
Import ListNotations.
Local Open Scope N_scope.

(* Result<Option<Color>, ()> as the hand model writes it: Err(()) = None *)
Definition git_color_res (r : result (option tcolor) unit) : option (option tcolor) :=
  match r with Ok c => Some c | Err _ => None end.

Ltac git_keys w keys tac :=
  lazymatch keys with
  | nil => idtac
  | cons ?k ?t => case (list_eqb w k); [tac | git_keys w t tac]
  end.

(* on ASCII text slicing a str is slicing its bytes *)
Lemma str_slice_hex b lo hi : forallb is_ascii_hexdigit b = true -> str_slice b lo hi = slice b lo hi.
Proof. intros H. apply str_slice_ascii, (forallb_Forall _ _ hexdigit_lt_128 _ H). Qed.

(* the '#' digits once their number is known: [b] is a list of that many variables.  The hex-digit test of the
   code (`all`, a loop, ..) is decided digit by digit on both sides; with every digit an ASCII hex digit each
   slice / split_at of the bytes computes *)
Ltac hex_side :=
  cbn [forallb]; repeat match goal with H : is_ascii_hexdigit _ = true |- _ => rewrite H end; reflexivity.
(* cbn leaves Pos.to_nat 3 etc. in firstn / skipn; evaluate those numerals so that the slices compute *)
Ltac hex_cbn :=
  cbn -[u8_from_str_radix is_ascii_hexdigit str_slice];
  repeat (progress (repeat match goal with |- context [Pos.to_nat ?p] =>
                      let v := eval vm_compute in (Pos.to_nat p) in change (Pos.to_nat p) with v end);
          cbn -[u8_from_str_radix is_ascii_hexdigit str_slice]).
Ltac hex_each :=
  hex_cbn;
  lazymatch goal with
  | |- context [is_ascii_hexdigit ?x] => let H := fresh "H" in destruct (is_ascii_hexdigit x) eqn:H; hex_each
  | _ => idtac
  end.
Ltac hex_slices :=
  repeat (hex_cbn;
          match goal with |- context [str_slice ?bb ?lo ?hi] => rewrite (str_slice_hex bb lo hi) by hex_side end);
  hex_cbn;
  repeat match goal with |- context [u8_from_str_radix ?r ?d] => destruct (u8_from_str_radix r d) end;
  reflexivity.
Ltac hex_digits := hex_each; first [reflexivity | hex_slices].

Lemma g_git_parse_color_eq : forall w,
  option_map git_color_res (g_git_parse_color w) = parse_color w.
Proof.
  intros w. unfold g_git_parse_color, parse_color, git_color_names. cbn [assoc]. cbv beta zeta.
  let keys := eval cbv in (map fst git_color_names) in git_keys w keys ltac:(reflexivity).
  destruct w as [|c hex]; cbn [str_strip_prefix].
  { destruct (parse_u8 (str_bytes [])); reflexivity. }
  unfold git_hex_prefix, git_hex_lens, git_hex_radix. cbn [existsb].
  destruct (c =? 35).
  2: { destruct (parse_u8 (str_bytes (c :: hex))); reflexivity. }
  unfold str_len, str_slice_cp, str_split_at_cp, str_split_at.
  change (fun b : N => is_ascii_hexdigit b) with is_ascii_hexdigit.
  change (3 =? 0) with false. cbv iota.
  generalize (str_bytes hex). clear c hex. intros b.
  destruct (N.of_nat (length b) =? 3) eqn:E3; [|destruct (N.of_nat (length b) =? 6) eqn:E6].
  - apply N.eqb_eq in E3. destruct b as [|? [|? [|? [|? ?]]]]; cbn [length] in E3; try lia. clear E3. hex_digits.
  - apply N.eqb_eq in E6. destruct b as [|? [|? [|? [|? [|? [|? [|? ?]]]]]]]; cbn [length] in E6; try lia. clear E3 E6. hex_digits.
  - cbn [negb andb orb option_map git_color_res]. reflexivity.
Qed.

(* what follows the loop: `style |= effects; Ok(style)`, or the error a `return` carried *)
Definition git_fin (lr : (tstyle * N * N) + result tstyle git_error) : option (result tstyle git_error) :=
  match lr with
  | inl st => let '(style, _, eff) := st in Some (Ok (style_or_effects style eff))
  | inr rv => Some rv
  end.

Theorem g_git_parse_eq : forall s, option_map git_result_of (g_git_parse s) = git_parse s.
Proof.
  intros s. unfold g_git_parse, git_parse. cbv zeta.
  match goal with |- context [for_list ?f _ _] => set (body := f) end.
  assert (L : forall ws style ncol eff, t_ul style = None -> t_eff style = 0 ->
            option_map git_result_of (lr <- for_list body ws (style, ncol, eff) ;; git_fin lr)
            = git_loop ws (t_fg style) (t_bg style) ncol eff).
  { induction ws as [|word rest IH]; intros style ncol eff Hu He.
    - destruct style as [fg bg ul e]. cbn in *. subst. reflexivity.
    - cbn [for_list git_loop]. unfold body at 1. clearbody body. cbv beta zeta.
      unfold git_keywords. cbn [assoc].
      let keys := eval cbv in (map fst git_keywords) in
        git_keys (to_lowercase word) keys ltac:(cbn [orb]; cbv iota; rewrite IH by assumption; reflexivity).
      cbn [orb]. cbv iota.
      rewrite <- g_git_parse_color_eq.
      destruct (g_git_parse_color (to_lowercase word)) as [[color|[]]|]; cbn [option_map git_color_res]; try reflexivity.
      destruct (ncol =? 0); [|destruct (ncol =? 1)]; cbv iota; try reflexivity.
      all: rewrite IH by (destruct style; assumption); destruct style; reflexivity. }
  specialize (L (split_whitespace s) t_default 0 fx_new eq_refl eq_refl).
  etransitivity; [|exact L].
  destruct (for_list body (split_whitespace s) (t_default, 0, fx_new)) as [[[[st n] e]|rv]|]; reflexivity.
Qed.

(* the `style` field of either error is the whole input *)
Theorem g_git_parse_error_style : forall s r,
  g_git_parse s = Some r -> match git_error_style r with Some s' => s' = s | None => True end.
Proof.
  intros s r. unfold g_git_parse. cbv zeta.
  match goal with |- context [for_list ?f _ _] => set (body := f) end.
  assert (L : forall ws st rv, for_list body ws st = Some (inr rv) -> git_error_style rv = Some s).
  { induction ws as [|word rest IH]; intros [[style ncol] eff] rv; cbn [for_list]; [discriminate|].
    unfold body at 1. clearbody body. cbv beta zeta.
    repeat match goal with
           | |- context [if ?c then _ else _] => case c
           | |- context [match g_git_parse_color ?w with _ => _ end] => destruct (g_git_parse_color w) as [[?|[]]|]
           end;
      try discriminate; try apply IH; intros E; injection E as <-; reflexivity. }
  destruct (for_list body (split_whitespace s) (t_default, 0, fx_new)) as [[[[st n] e]|rv]|] eqn:E; [| |discriminate].
  - intros H. injection H as <-. exact I.
  - intros H. injection H as <-. now rewrite (L _ _ _ E).
Qed.

(* impl std::fmt::Display for Error.
   The translated `fmt` appends the message to whatever the formatter already holds and answers Ok(()); it never
   panics.  The pieces of the format string are appended one by one (left-nested appends), the hand model is one
   right-nested concatenation: associativity, then the literal pieces are convertible. *)
Theorem g_git_error_fmt_eq : forall (e : git_error) (f : list N),
  g_git_error_fmt e f = Some (f ++ git_error_message e, Ok tt).
Proof.
  intros [style word | style word] f; unfold g_git_error_fmt, git_error_message, git_fmt_write; cbv zeta;
    rewrite <- !app_assoc; reflexivity.
Qed.

(* `e.to_string()`: Display into an empty String *)
Theorem g_git_error_to_string : forall e : git_error,
  option_map fst (g_git_error_fmt e []) = Some (git_error_to_string e).
Proof. intros e. rewrite g_git_error_fmt_eq. reflexivity. Qed.
