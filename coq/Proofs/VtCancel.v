(* Proofs/VtCancel.v -- CAN (18) and SUB (1A) abandon whatever is in progress from
   every state of the specification parser [Spec/Vt], after which the rest of the
   stream is parsed as by a fresh parser.  Spec only: nothing here refers to
   Model/ or Generated/ beyond the enumeration helpers of VtFacts. *)
From Coq Require Import NArith List Bool Lia.
From AV Require Import Spec.Utf8 Spec.Vt Model.Base Proofs.TableFacts Proofs.VtFacts Proofs.VtSgrRead.
Import ListNotations. Local Open Scope N_scope.

Lemma vt_run_cons : forall s b bs,
  vt_run s (b :: bs) =
  (fst (vt_run (fst (vt_step s b)) bs),
   snd (vt_step s b) ++ snd (vt_run (fst (vt_step s b)) bs)).
Proof.
  intros s b bs. cbn [vt_run].
  destruct (vt_step s b) as [s1 e1]. cbn [fst snd].
  destruct (vt_run s1 bs) as [s2 e2]. reflexivity.
Qed.

Lemma vt_run_app : forall a s b,
  vt_run s (a ++ b) =
  (fst (vt_run (fst (vt_run s a)) b),
   snd (vt_run s a) ++ snd (vt_run (fst (vt_run s a)) b)).
Proof.
  intros a s b. rewrite VtSgrRead.vt_run_app. destruct (vt_run s a) as [s1 e1]. cbn [fst snd].
  destruct (vt_run s1 b); reflexivity.
Qed.

Lemma vt_run_single : forall s b, vt_run s [b] = (fst (vt_step s b), snd (vt_step s b) ++ []).
Proof. intros. rewrite vt_run_cons. reflexivity. Qed.

Lemma vt_run_inv (P : vt -> Prop) :
  (forall s b, b < 256 -> P s -> P (fst (vt_step s b))) ->
  forall bs s, Forall (fun b => b < 256) bs -> P s -> P (fst (vt_run s bs)).
Proof.
  intros Hstep. induction bs as [|b bs IH]; intros s Hbs Hs.
  - exact Hs.
  - rewrite vt_run_cons. cbn [fst]. inversion Hbs; subst. apply IH; auto.
Qed.

Lemma vt_step_none : forall s b, uni s = None ->
  vt_step s b =
  match fst (vt_trans (vs s) b) with
  | None => do_action s (snd (vt_trans (vs s) b)) b
  | Some t =>
      (fst (enter (fst (do_action s (snd (vt_trans (vs s) b)) b)) t b),
       exit_events s b ++ snd (do_action s (snd (vt_trans (vs s) b)) b)
         ++ snd (enter (fst (do_action s (snd (vt_trans (vs s) b)) b)) t b))
  end.
Proof.
  intros s b Hu. unfold vt_step. rewrite Hu.
  destruct (vt_trans (vs s) b) as [tgt a]. cbn [fst snd].
  destruct tgt as [t|]; [|reflexivity].
  destruct (do_action s a b) as [s1 e1]. cbn [fst snd].
  destruct (enter s1 t b) as [s2 e2]. reflexivity.
Qed.

(* two spec states are indistinguishable by any continuation when they agree on the
   "live" part: the state, the UTF-8 sub-state, the bookkeeping only in the states
   that read it, the OSC payload only inside an OSC string *)
Definition live_eq (s s' : vt) : Prop :=
  vs s = vs s' /\ uni s = uni s' /\
  (reads (vs s) = true -> ints s = ints s' /\ ign s = ign s' /\ closed s = closed s' /\ cur s = cur s' /\ pend s = pend s') /\
  (vs s = VOsc -> osc s = osc s').

Lemma live_eq_refl : forall s, live_eq s s.
Proof. intros s. unfold live_eq. repeat split; reflexivity. Qed.

Lemma live_eq_set_uni : forall s s' u, live_eq s s' -> live_eq (set_uni s u) (set_uni s' u).
Proof.
  intros s s' u (Hv & Hu & Hb & Ho). unfold live_eq, set_uni.
  cbn [vs uni ints ign closed cur pend osc]. auto.
Qed.

Lemma exit_events_live : forall s s' b, live_eq s s' -> exit_events s b = exit_events s' b.
Proof.
  intros s s' b (Hv & Hu & Hb & Ho). unfold exit_events. rewrite <- Hv.
  destruct (vs s); try reflexivity. rewrite Ho; reflexivity.
Qed.

Lemma do_action_vs : forall s a b, vs (fst (do_action s a b)) = vs s.
Proof.
  intros s a b. destruct a; cbn [do_action fst]; try reflexivity.
  - unfold collect. destruct (Nat.eqb _ _); reflexivity.
  - unfold param. repeat match goal with |- context [if ?c then _ else _] => destruct c end; reflexivity.
  - destruct (final_params s); reflexivity.
  - destruct (utf8_lead b); reflexivity.
Qed.

Lemma do_action_uni : forall s a b, a <> TUtf8 -> uni (fst (do_action s a b)) = uni s.
Proof.
  intros s a b Ha. destruct a; cbn [do_action fst]; try reflexivity.
  - unfold collect. destruct (Nat.eqb _ _); reflexivity.
  - unfold param. repeat match goal with |- context [if ?c then _ else _] => destruct c end; reflexivity.
  - destruct (final_params s); reflexivity.
  - congruence.
Qed.

Lemma do_action_osc : forall s a b, a <> TOscPut -> osc (fst (do_action s a b)) = osc s.
Proof.
  intros s a b Ha. destruct a; cbn [do_action fst]; try reflexivity.
  - unfold collect. destruct (Nat.eqb _ _); reflexivity.
  - unfold param. repeat match goal with |- context [if ?c then _ else _] => destruct c end; reflexivity.
  - destruct (final_params s); reflexivity.
  - congruence.
  - destruct (utf8_lead b); reflexivity.
Qed.

Lemma do_action_csi : forall s b,
  do_action s TCsiDispatch b = (s, [ECsi (fst (final_params s)) (ints s) (snd (final_params s)) b]).
Proof. intros s b. cbn [do_action]. destruct (final_params s); reflexivity. Qed.

Lemma enter_pass : forall s b,
  enter s VDcsPass b = (set_vs s VDcsPass, [EHook (fst (final_params s)) (ints s) (snd (final_params s)) b]).
Proof. intros s b. cbn [enter]. destruct (final_params s); reflexivity. Qed.

Lemma enter_vs : forall s t b, vs (fst (enter s t b)) = t.
Proof. intros s t b. destruct t; cbn [enter fst]; try reflexivity. destruct (final_params s); reflexivity. Qed.

Lemma enter_uni : forall s t b, uni (fst (enter s t b)) = uni s.
Proof. intros s t b. destruct t; cbn [enter fst]; try reflexivity. destruct (final_params s); reflexivity. Qed.

Lemma live_eq_book : forall s s', live_eq s s' -> reads (vs s) = true ->
  s' = mkVt (vs s) (ints s) (ign s) (closed s) (cur s) (pend s) (osc s') (uni s).
Proof.
  intros s [v' i' g' cl' cu' pe' os' un'] (Hv & Hu & Hb & _) Hr. cbn [vs uni ints ign closed cur pend osc] in *.
  destruct (Hb Hr) as (-> & -> & -> & -> & ->). rewrite Hv, Hu. reflexivity.
Qed.

Lemma live_eq_osc : forall s s', live_eq s s' -> reads (vs s) = true ->
  forall i g cl cu pe, live_eq (mkVt (vs s) i g cl cu pe (osc s) (uni s)) (mkVt (vs s) i g cl cu pe (osc s') (uni s)).
Proof.
  intros s s' (_ & _ & _ & Ho) Hr i g cl cu pe. repeat split. cbn [vs osc]. exact Ho.
Qed.

Lemma do_action_live : forall s s' a b, live_eq s s' ->
  (needs_book a = true -> reads (vs s) = true) ->
  (a = TOscPut -> vs s = VOsc) ->
  snd (do_action s a b) = snd (do_action s' a b) /\
  live_eq (fst (do_action s a b)) (fst (do_action s' a b)).
Proof.
  intros s s' a b H Hn Hosc.
  destruct a; cbn [do_action fst snd needs_book] in *; try (split; [reflexivity | exact H]).
  - (* TCollect *)
    rewrite (live_eq_book s s' H (Hn eq_refl)). unfold collect. cbn [vs uni ints ign closed cur pend osc].
    destruct (Nat.eqb _ _); (split; [reflexivity | apply (live_eq_osc s s' H (Hn eq_refl))]).
  - (* TParam *)
    rewrite (live_eq_book s s' H (Hn eq_refl)). unfold param, count_values. cbn [vs uni ints ign closed cur pend osc].
    destruct (Nat.eqb _ _); [|destruct (b =? 59); [|destruct (b =? 58)]];
      (split; [reflexivity | apply (live_eq_osc s s' H (Hn eq_refl))]).
  - (* TEscDispatch *)
    destruct (proj1 (proj2 (proj2 H)) (Hn eq_refl)) as (<- & <- & _). split; [reflexivity | exact H].
  - (* TCsiDispatch *)
    assert (E : final_params s' = final_params s)
      by (rewrite (live_eq_book s s' H (Hn eq_refl)); reflexivity).
    destruct (proj1 (proj2 (proj2 H)) (Hn eq_refl)) as (<- & _).
    rewrite E. destruct (final_params s). split; [reflexivity | exact H].
  - (* TOscPut *)
    destruct H as (Hv & Hu & Hb & Ho). split; [reflexivity|].
    refine (conj Hv (conj Hu (conj Hb (fun _ => _)))). cbn [osc_put osc]. rewrite (Ho (Hosc eq_refl)). reflexivity.
  - (* TUtf8 *)
    destruct (utf8_lead b); cbn [fst snd]; (split; [reflexivity|]); [|exact H].
    destruct H as (Hv & _ & Hb & Ho). exact (conj Hv (conj eq_refl (conj Hb Ho))).
Qed.

Lemma enter_live : forall s s' t b, live_eq s s' ->
  ((reads t = true /\ clears t = false) \/ t = VDcsPass -> reads (vs s) = true) ->
  snd (enter s t b) = snd (enter s' t b) /\
  live_eq (fst (enter s t b)) (fst (enter s' t b)).
Proof.
  intros s s' t b H Ht. pose proof H as (_ & Hu & Hb & _).
  (* the new state is [t] on both sides; the bookkeeping was just cleared, or was live before *)
  destruct t; cbn [enter fst snd];
    try (split; [reflexivity|]; refine (conj eq_refl (conj Hu (conj _ _)));
         cbn [set_vs clear osc_start vs uni ints ign closed cur pend osc reads];
         [ intros Hr; first [discriminate Hr | exact (Hb (Ht (or_introl (conj eq_refl eq_refl)))) | repeat split]
         | intros Eo; first [discriminate Eo | reflexivity] ]).
  (* VDcsPass: the hook reports the parameters *)
  pose proof (Ht (or_intror eq_refl)) as Hr.
  assert (E : final_params s' = final_params s) by (rewrite (live_eq_book s s' H Hr); reflexivity).
  destruct (Hb Hr) as (<- & _). rewrite E. destruct (final_params s).
  split; [reflexivity|]. refine (conj eq_refl (conj Hu (conj _ _))); discriminate.
Qed.

Lemma live_eq_step : forall s s' b, b < 256 -> live_eq s s' ->
    snd (vt_step s b) = snd (vt_step s' b) /\ live_eq (fst (vt_step s b)) (fst (vt_step s' b)).
Proof.
  intros s s' b Hlt H.
  destruct (uni s) as [[u acc]|] eqn:Eu.
  - (* inside a multi-byte character: only [uni] is read *)
    assert (Eu' : uni s' = Some (u, acc)) by (destruct H as (_ & <- & _); exact Eu).
    unfold vt_step. rewrite Eu, Eu'.
    destruct (utf8_cont u b); cbn [fst snd]; (split; [reflexivity | now apply live_eq_set_uni]).
  - assert (Eu' : uni s' = None) by (destruct H as (_ & <- & _); exact Eu).
    assert (Ev : vs s' = vs s) by (destruct H as (-> & _); reflexivity).
    rewrite (vt_step_none s b Eu), (vt_step_none s' b Eu'). rewrite Ev.
    destruct (vt_trans_facts (vs s) b Hlt) as [F1 _ F3 _ _ F6].
    destruct (vt_trans (vs s) b) as [tgt a]. cbn [fst snd] in *.
    pose proof (do_action_live s s' a b H F1 (fun Ho => proj1 (F3 Ho))) as [Da Dl].
    destruct tgt as [t|]; [|split; assumption].
    cbn [fst snd].
    assert (Ht : (reads t = true /\ clears t = false) \/ t = VDcsPass ->
                 reads (vs (fst (do_action s a b))) = true).
    { intros C. rewrite do_action_vs. exact (proj1 (F6 t eq_refl C)). }
    pose proof (enter_live _ _ t b Dl Ht) as [Ea El].
    split; [|exact El].
    rewrite (exit_events_live s s' b H), Da, Ea. reflexivity.
Qed.

Lemma live_eq_run : forall bs s s', Forall (fun b => b < 256) bs -> live_eq s s' ->
    snd (vt_run s bs) = snd (vt_run s' bs).
Proof.
  induction bs as [|b bs IH]; intros s s' Hbs H.
  - reflexivity.
  - inversion Hbs; subst. rewrite !vt_run_cons. cbn [snd].
    destruct (live_eq_step s s' b H2 H) as [E L].
    rewrite E. f_equal. apply IH; assumption.
Qed.

Definition uni_inv (s : vt) : Prop := uni s <> None -> vs s = VGround.

Lemma uni_inv_step : forall s b, b < 256 -> uni_inv s -> uni_inv (fst (vt_step s b)).
Proof.
  intros s b Hlt Hs. unfold uni_inv in *.
  destruct (uni s) as [[u acc]|] eqn:Eu.
  - unfold vt_step. rewrite Eu.
    assert (Hv : vs s = VGround) by (apply Hs; discriminate).
    destruct (utf8_cont u b); cbn [fst set_uni vs uni]; intros _; exact Hv.
  - rewrite (vt_step_none s b Eu).
    destruct (vt_trans_facts (vs s) b Hlt) as [_ _ _ _ F5 _].
    destruct (vt_trans (vs s) b) as [tgt a]. cbn [fst snd] in *.
    destruct tgt as [t|]; cbn [fst].
    + assert (Ha : a <> TUtf8).
      { intros ->. destruct (F5 eq_refl) as (_ & C & _). discriminate. }
      rewrite enter_uni, (do_action_uni s a b Ha), Eu. congruence.
    + rewrite do_action_vs. intros Hn.
      destruct a; try (rewrite do_action_uni in Hn by discriminate; congruence).
      exact (proj1 (F5 eq_refl)).
Qed.

Lemma uni_ground : forall bs, Forall (fun b => b < 256) bs ->
    uni (fst (vt_run vt_init bs)) <> None -> vs (fst (vt_run vt_init bs)) = VGround.
Proof.
  intros bs Hbs. apply (vt_run_inv uni_inv uni_inv_step bs vt_init Hbs).
  intros _. reflexivity.
Qed.

Lemma cancel_cont_bad : forall u c, (c = 24 \/ c = 26) -> utf8_cont u c = UBad.
Proof. intros u c [-> | ->]; destruct u; reflexivity. Qed.

Lemma cancel_trans : forall v c, (c = 24 \/ c = 26) -> vt_trans v c = (Some VGround, TExecute).
Proof. intros v c [-> | ->]; reflexivity. Qed.

Lemma cancel_events : forall s c, (c = 24 \/ c = 26) ->
    snd (vt_step s c) = match uni s with
                        | Some _ => [EPrint replacement]
                        | None => exit_events s c ++ [EExecute c]
                        end.
Proof.
  intros s c Hc. destruct (uni s) as [[u acc]|] eqn:Eu.
  - unfold vt_step. rewrite Eu, (cancel_cont_bad u c Hc). reflexivity.
  - rewrite (vt_step_none s c Eu), (cancel_trans (vs s) c Hc). reflexivity.
Qed.

Lemma cancel_step_ground : forall s c, (c = 24 \/ c = 26) -> uni_inv s ->
    vs (fst (vt_step s c)) = VGround /\ uni (fst (vt_step s c)) = None.
Proof.
  intros s c Hc Hs. destruct (uni s) as [[u acc]|] eqn:Eu.
  - unfold vt_step. rewrite Eu, (cancel_cont_bad u c Hc). cbn [fst set_uni vs uni].
    split; [|reflexivity]. apply Hs. rewrite Eu. discriminate.
  - rewrite (vt_step_none s c Eu), (cancel_trans (vs s) c Hc).
    cbn [fst snd do_action enter set_vs vs uni]. split; [reflexivity | exact Eu].
Qed.

Lemma cancel_lands_in_ground : forall bs c, (c = 24 \/ c = 26) -> Forall (fun b => b < 256) bs ->
    let s := fst (vt_run vt_init (bs ++ [c])) in vs s = VGround /\ uni s = None.
Proof.
  intros bs c Hc Hbs. cbv zeta.
  rewrite vt_run_app, vt_run_single. cbn [fst].
  apply cancel_step_ground; [exact Hc|].
  apply (vt_run_inv uni_inv uni_inv_step bs vt_init Hbs).
  intros _. reflexivity.
Qed.

Lemma ground_live_init : forall s, vs s = VGround -> uni s = None -> live_eq s vt_init.
Proof.
  intros s Hv Hu. unfold live_eq. rewrite Hv, Hu. cbn [vt_init vs uni reads].
  repeat split; discriminate.
Qed.

Theorem cancel_from_anywhere : forall prefix rest c, (c = 24 \/ c = 26) ->
    Forall (fun b => b < 256) prefix -> Forall (fun b => b < 256) rest ->
    snd (vt_run (fst (vt_run vt_init (prefix ++ [c]))) rest) = spec_events rest.
Proof.
  intros prefix rest c Hc Hp Hr. unfold spec_events.
  apply live_eq_run; [exact Hr|].
  destruct (cancel_lands_in_ground prefix c Hc Hp) as [Hv Hu].
  now apply ground_live_init.
Qed.

Corollary cancel_splits_stream : forall prefix rest c, (c = 24 \/ c = 26) ->
    Forall (fun b => b < 256) prefix -> Forall (fun b => b < 256) rest ->
    spec_events (prefix ++ [c] ++ rest) = spec_events (prefix ++ [c]) ++ spec_events rest.
Proof.
  intros prefix rest c Hc Hp Hr. rewrite app_assoc.
  unfold spec_events at 1. rewrite vt_run_app. cbn [snd].
  rewrite (cancel_from_anywhere prefix rest c Hc Hp Hr). reflexivity.
Qed.
