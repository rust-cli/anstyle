(* Lemmas about the Rust std operations of Model/Text.v (list equality, split,
   collect::<Option<_>>, the integer parser, slicing a str) and about effect bit sets; shared by the
   proofs of C11 and C12. *)
From Coq Require Import NArith List Bool Lia.
From AV Require Import Spec.StyleRec Model.Base Model.Text Proofs.BaseFacts.
Import ListNotations.
Local Open Scope N_scope.

Lemma forallb_Forall {A} (p : A -> bool) (Q : A -> Prop) : (forall x, p x = true -> Q x) ->
  forall l, forallb p l = true -> Forall Q l.
Proof. intros H l F. rewrite forallb_forall in F. apply Forall_forall. auto. Qed.

Lemma forallb_false_ex {A} (p : A -> bool) : forall l, forallb p l = false -> exists x, In x l /\ p x = false.
Proof.
  induction l as [|x l IH]; cbn [forallb]; [discriminate|]. destruct (p x) eqn:E.
  - intros H. destruct (IH H) as (y & Hy & Py). exists y. split; [now right | exact Py].
  - intros _. exists x. split; [now left | exact E].
Qed.

Lemma list_eqb_eq : forall a b, list_eqb a b = true <-> a = b.
Proof.
  induction a as [|x a IH]; intros [|y b]; cbn; split; intros H; try reflexivity; try discriminate.
  - apply andb_true_iff in H as [H1 H2]. apply N.eqb_eq in H1. apply IH in H2. now subst.
  - injection H as -> ->. rewrite N.eqb_refl. cbn. now apply IH.
Qed.

Lemma list_eqb_refl : forall a, list_eqb a a = true.
Proof. intros a. now apply list_eqb_eq. Qed.

Lemma list_eqb_neq : forall a b, list_eqb a b = false <-> a <> b.
Proof.
  intros a b. split.
  - intros H E. apply list_eqb_eq in E. congruence.
  - intros H. destruct (list_eqb a b) eqn:E; [apply list_eqb_eq in E; contradiction | reflexivity].
Qed.

Lemma insert_bit : forall e k i, N.testbit (eff_insert e k) i = N.testbit e i || (k =? i).
Proof. intros e k i. unfold eff_insert. now rewrite N.lor_spec, N.pow2_bits_eqb. Qed.

Lemma remove_bit : forall e k i, N.testbit (eff_remove e k) i = N.testbit e i && negb (k =? i).
Proof. intros e k i. unfold eff_remove. now rewrite N.ldiff_spec, N.pow2_bits_eqb. Qed.

Lemma collect_option_map_some {A B} (f : A -> option B) (g : A -> B) : forall l,
  (forall x, In x l -> f x = Some (g x)) -> collect_option (map f l) = Some (map g l).
Proof.
  induction l as [|x l IH]; intros H; cbn; [reflexivity|].
  rewrite (H x (or_introl eq_refl)). rewrite IH; [reflexivity|]. intros y Hy. apply H. now right.
Qed.

Lemma collect_option_map_none {A B} (f : A -> option B) : forall l x,
  In x l -> f x = None -> collect_option (map f l) = None.
Proof.
  induction l as [|y l IH]; intros x Hin Hx; [destruct Hin|].
  cbn. destruct Hin as [-> | Hin].
  - now rewrite Hx.
  - destruct (f y); [|reflexivity]. now rewrite (IH x Hin Hx).
Qed.

Lemma collect_option_some_all {A} : forall (l : list (option A)) r,
  collect_option l = Some r -> l = map Some r.
Proof.
  induction l as [|[x|] l IH]; intros r H; cbn in H.
  - injection H as <-. reflexivity.
  - destruct (collect_option l) as [t|] eqn:E; [|discriminate]. injection H as <-. cbn. f_equal. now apply IH.
  - discriminate.
Qed.

(* str::split always yields at least one piece *)
Lemma split_pred_cons : forall p s, exists f fs, split_pred p s = f :: fs.
Proof.
  intros p [|c s]; cbn; [now exists [], []|].
  destruct (p c); [now eexists; eexists|]. destruct (split_pred p s); now eexists; eexists.
Qed.

Lemma split_pred_clean : forall p f, (forall c, In c f -> p c = false) -> split_pred p f = [f].
Proof.
  intros p. induction f as [|c f IH]; intros H; cbn; [reflexivity|].
  rewrite (H c (or_introl eq_refl)). rewrite IH; [reflexivity|]. intros d Hd. apply H. now right.
Qed.

Lemma split_pred_app_sep : forall p f sep rest,
  (forall c, In c f -> p c = false) -> p sep = true ->
  split_pred p (f ++ sep :: rest) = f :: split_pred p rest.
Proof.
  intros p. induction f as [|c f IH]; intros sep rest H Hs; cbn.
  - now rewrite Hs.
  - rewrite (H c (or_introl eq_refl)). rewrite IH; [reflexivity| |assumption]. intros d Hd. apply H. now right.
Qed.

Lemma from_str_no_sign : forall r c rest, c <> 43 -> c <> 45 ->
  u8_from_str_radix r (c :: rest) = digits_u8 r (c :: rest) 0.
Proof.
  intros r c rest H1 H2. unfold u8_from_str_radix.
  apply N.eqb_neq in H1. apply N.eqb_neq in H2. rewrite H1, H2. now destruct rest.
Qed.

Lemma digits_u8_zeros : forall z ds, digits_u8 10 (repeat 48 z ++ ds) 0 = digits_u8 10 ds 0.
Proof. induction z as [|z IH]; intros ds; [reflexivity|]. cbn [repeat app digits_u8]. exact (IH ds). Qed.

Lemma digits_u8_bound : forall r ds acc v, digits_u8 r ds acc = Some v -> acc <= 255 -> v <= 255.
Proof.
  intros r. induction ds as [|c ds IH]; intros acc v H Ha; cbn in H.
  - injection H as <-. exact Ha.
  - destruct (to_digit r c) as [d|]; [|discriminate].
    destruct (acc * r + d <=? 255) eqn:E; [|discriminate]. apply N.leb_le in E. eapply IH; eauto.
Qed.

Lemma boundary_ascii : forall b i,
  Forall (fun x => x < 128) b -> i <= N.of_nat (length b) -> is_char_boundary b i = true.
Proof.
  intros b i Hb Hi. unfold is_char_boundary. destruct (i =? 0); [reflexivity|].
  destruct (nth_error b (N.to_nat i)) as [x|] eqn:E.
  - apply nth_error_In in E. rewrite Forall_forall in Hb. specialize (Hb x E).
    destruct (N.leb_spec 128 x); [lia | reflexivity].
  - apply nth_error_None in E. apply N.eqb_eq. lia.
Qed.

Lemma str_slice_ascii : forall b lo hi, Forall (fun x => x < 128) b -> str_slice b lo hi = slice b lo hi.
Proof.
  intros b lo hi Hb. unfold str_slice, slice.
  destruct (lo <=? hi) eqn:E1; [|reflexivity]. destruct (hi <=? N.of_nat (length b)) eqn:E2; cbn [andb].
  - apply N.leb_le in E1, E2. now rewrite !(boundary_ascii b) by (assumption || lia).
  - now destruct (is_char_boundary b lo && is_char_boundary b hi).
Qed.

Lemma hexdigit_lt_128 : forall c, is_ascii_hexdigit c = true -> c < 128.
Proof.
  intros c H. unfold is_ascii_hexdigit in H. rewrite !orb_true_iff, !andb_true_iff, !N.leb_le in H. lia.
Qed.
