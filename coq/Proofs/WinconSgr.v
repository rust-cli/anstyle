(* Proofs/WinconSgr.v -- the SGR decoder of the wincon adapter (csi_dispatch)
   computes the standard SGR semantics of Spec/Sgr on the grammar G of attribute
   groups (C07). *)
From Coq Require Import NArith Arith List Bool Lia.
From AV Require Import Generated.Table Spec.Vt Spec.Sgr Model.Base Model.Parser Model.Wincon Proofs.TableFacts Proofs.SgrRender.
Import ListNotations.
Local Open Scope N_scope.

Inductive gitem : Set :=
  | GCode (c : N)                          (* a single code *)
  | GUl (n : N)                            (* 4:n *)
  | GIdx (colon : bool) (c n : N)          (* 38/48/58 ; 5 ; n   or   38:5:n *)
  | GRgb (colon : bool) (c r g b : N).     (* 38/48/58 ; 2 ; r ; g ; b   or with ':' *)

Definition groups_of_item (i : gitem) : list (list N) :=
  match i with
  | GCode c => [[c]]
  | GUl n => [[4; n]]
  | GIdx true c n => [[c; 5; n]]
  | GIdx false c n => [[c]; [5]; [n]]
  | GRgb true c r g b => [[c; 2; r; g; b]]
  | GRgb false c r g b => [[c]; [2]; [r]; [g]; [b]]
  end.

Definition groups_of (items : list gitem) : list (list N) := flat_map groups_of_item items.

(* codes the style type could represent but the property does not list are
   outside the grammar in both directions: 5, 6 (blink), 22-29, 59; so are the
   extended-colour introducers on their own *)
Definition code_in_G (c : N) : bool :=
  negb ((c =? 5) || (c =? 6) || in_rng 22 29 c || (c =? 59) || (c =? 38) || (c =? 48) || (c =? 58)).

Definition is_ext (c : N) : bool := (c =? 38) || (c =? 48) || (c =? 58).

Definition item_in_G (i : gitem) : bool :=
  match i with
  | GCode c => code_in_G c
  | GUl n => n <=? 5
  | GIdx _ c n => is_ext c && (n <=? 255)
  | GRgb _ c r g b => is_ext c && (r <=? 255) && (g <=? 255) && (b <=? 255)
  end.

(* ul_simple: a group that changes the underline is applied only when no
   underline kind other than the one it selects is set *)
Definition only_kind (e : N) (k : N) : bool := N.land e (N.ldiff underline_mask (bit k)) =? 0.

Definition ul_ok (s : sstyle) (i : gitem) : bool :=
  match i with
  | GCode c => if c =? 4 then only_kind (s_eff s) UNDERLINE
               else if c =? 21 then only_kind (s_eff s) DOUBLE_UNDERLINE else true
  | GUl n => match underline_kind n with
             | Some (Some k) => only_kind (s_eff s) k
             | Some None => only_kind (s_eff s) UNDERLINE
             | None => true
             end
  | _ => true
  end.

Definition item_apply (s : sstyle) (i : gitem) : sstyle := sgr_apply s (groups_of_item i).

Fixpoint ul_simple (s : sstyle) (items : list gitem) : Prop :=
  match items with
  | [] => True
  | i :: rest => ul_ok s i = true /\ ul_simple (item_apply s i) rest
  end.

(* effect sets and residues stay symbolic under cbn / simpl, here and in the files built on this one *)
Arguments N.lor : simpl never.
Arguments N.ldiff : simpl never.
Arguments N.land : simpl never.
Arguments N.modulo : simpl never.

Lemma land_zero_bits e m : N.land e m = 0 -> forall n, N.testbit e n && N.testbit m n = false.
Proof. intros H n. rewrite <- N.land_spec, H. apply N.bits_0. Qed.

Lemma subset_bits u m : N.land u m = u -> forall n, N.testbit u n && N.testbit m n = N.testbit u n.
Proof. intros H n. rewrite <- N.land_spec, H. reflexivity. Qed.

Lemma lor_clear e m b : N.land e (N.ldiff m b) = 0 -> N.lor e b = N.lor (N.ldiff e m) b.
Proof.
  intros H. apply N.bits_inj. intros n. rewrite !N.lor_spec, N.ldiff_spec.
  pose proof (land_zero_bits _ _ H n) as Hn. rewrite N.ldiff_spec in Hn.
  destruct (N.testbit e n), (N.testbit m n), (N.testbit b n); cbn in *; congruence.
Qed.

Lemma ldiff_set e m u : N.land e (N.ldiff m u) = 0 -> N.land u m = u -> N.ldiff (N.lor e u) u = N.ldiff e m.
Proof.
  intros H Hu. apply N.bits_inj. intros n. rewrite !N.ldiff_spec, N.lor_spec.
  pose proof (land_zero_bits _ _ H n) as Hn. rewrite N.ldiff_spec in Hn.
  pose proof (subset_bits _ _ Hu n) as Hun.
  destruct (N.testbit e n), (N.testbit m n), (N.testbit u n); cbn in *; congruence.
Qed.

Lemma lor_reset e m u b :
  N.land e (N.ldiff m b) = 0 -> N.land u m = u -> N.lor (N.ldiff (N.lor e u) u) b = N.lor (N.ldiff e m) b.
Proof.
  intros H Hu. apply N.bits_inj. intros n. rewrite !N.lor_spec, !N.ldiff_spec, N.lor_spec.
  pose proof (land_zero_bits _ _ H n) as Hn. rewrite N.ldiff_spec in Hn.
  pose proof (subset_bits _ _ Hu n) as Hun.
  destruct (N.testbit e n), (N.testbit m n), (N.testbit u n), (N.testbit b n); cbn in *; congruence.
Qed.

Lemma only_kind_true e k : only_kind e k = true -> N.land e (N.ldiff underline_mask (bit k)) = 0.
Proof. unfold only_kind. intros H. now apply N.eqb_eq. Qed.

(* what the adapter does to the effects, against the specification's set_underline *)
Lemma insert_kind s k : only_kind (s_eff s) k = true -> st_insert s k = set_underline s (Some k).
Proof. intros H. unfold st_insert, set_underline, eff_on, eff_off_mask. cbn [s_fg s_bg s_ul s_eff]. f_equal. apply lor_clear, only_kind_true, H. Qed.

Lemma remove_underline s :
  only_kind (s_eff s) UNDERLINE = true -> st_remove (st_insert s UNDERLINE) UNDERLINE = set_underline s None.
Proof.
  intros H. unfold st_remove, st_insert, set_underline, eff_off_mask. cbn [s_fg s_bg s_ul s_eff]. f_equal.
  apply ldiff_set; [apply only_kind_true, H | reflexivity].
Qed.

Lemma switch_kind s k :
  only_kind (s_eff s) k = true ->
  st_insert (st_remove (st_insert s UNDERLINE) UNDERLINE) k = set_underline s (Some k).
Proof.
  intros H. unfold st_remove, st_insert, set_underline, eff_on, eff_off_mask. cbn [s_fg s_bg s_ul s_eff]. f_equal.
  apply lor_reset; [apply only_kind_true, H | reflexivity].
Qed.

Lemma rng_digit lo v : in_rng lo (lo + 7) v = true ->
  csub v lo = Some (v - lo) /\ to_ansi_color (v - lo) = Some (v - lo).
Proof.
  unfold in_rng, csub, to_ansi_color. intros H. apply andb_true_iff in H.
  destruct H as [A B]. rewrite A. apply N.leb_le in A, B. split; [reflexivity|].
  replace (v - lo <=? 7) with true; [reflexivity|]. symmetry. apply N.leb_le. lia.
Qed.

Definition code_goal (s : sstyle) (r g : option N) (t : target) (c : N) : Prop :=
  exists d', value_step (mkD s WNormal r g t) c = Some (d', true) /\ d_state d' = WNormal /\
             d_style d' = sgr_code s c.

(* The decoder's `match` in state Normal and sgr_code are chains over the same tests of [c]
   (in different orders, sgr_code with more of them).  An equality test that succeeds makes [c]
   a numeral, and both sides compute, or [c] is not in G; a range test that succeeds selects the
   same palette colour on both sides.  What is left is the last `else` of both. *)
Lemma value_step_code s r g t c :
  code_in_G c = true -> c <> 4 -> c <> 21 ->
  value_step (mkD s WNormal r g t) c = Some (mkD (sgr_code s c) WNormal r g t, true).
Proof.
  intros HG H4 H21. unfold value_step, sgr_code. cbn [d_state d_style].
  repeat match goal with
         | |- context [c =? ?k] =>
             destruct (N.eqb_spec c k) as [->|_]; [first [reflexivity | discriminate HG | congruence]|]
         end.
  repeat match goal with
         | |- context [in_rng ?lo ?hi c] =>
             let E := fresh in
             destruct (in_rng lo hi c) eqn:E; [destruct (rng_digit lo c E) as [-> ->]; reflexivity|]
         end.
  reflexivity.
Qed.

(* codes from 108 up are unknown to both sides *)
Lemma code_large s r g t c : 108 <= c -> code_goal s r g t c.
Proof.
  intros Hc. eexists. split; [apply value_step_code; try lia | split; reflexivity].
  unfold code_in_G, in_rng.
  rewrite negb_true_iff, !orb_false_iff, andb_false_iff, !N.eqb_neq, !N.leb_gt. lia.
Qed.

(* After the introducer has selected the target, the decoder leaves Normal until the colour is
   complete; no step in between breaks or passes through Underline, so it does not matter whether
   the values come as sub-parameters of one group or as groups of their own. *)
Lemma ext_idx s r g t0 c t colon n rest :
  value_step (mkD s WNormal r g t0) c = Some (mkD s WPrepareCustomColor r g t, false) ->
  params_loop (mkD s WNormal r g t0) (groups_of_item (GIdx colon c n) ++ rest)
  = params_loop (mkD (set_target t s (Some (CIdx (n mod 256)))) WNormal r g t) rest.
Proof. intros H. destruct colon; cbn [groups_of_item app params_loop values_loop]; rewrite H; reflexivity. Qed.

Lemma ext_rgb s r g t0 c t colon r0 g0 b0 rest :
  value_step (mkD s WNormal r g t0) c = Some (mkD s WPrepareCustomColor r g t, false) ->
  params_loop (mkD s WNormal r g t0) (groups_of_item (GRgb colon c r0 g0 b0) ++ rest)
  = params_loop (mkD (set_target t s (Some (CRgb (r0 mod 256) (g0 mod 256) (b0 mod 256)))) WNormal
                     (Some r0) (Some g0) t) rest.
Proof. intros H. destruct colon; cbn [groups_of_item app params_loop values_loop]; rewrite H; reflexivity. Qed.

Lemma is_ext_cases c : is_ext c = true -> c = 38 \/ c = 48 \/ c = 58.
Proof. unfold is_ext. rewrite !orb_true_iff, !N.eqb_eq. tauto. Qed.

Lemma code_not_ext c : code_in_G c = true -> ext_target c = None.
Proof.
  unfold code_in_G, ext_target. rewrite negb_true_iff, !orb_false_iff.
  intros (((_ & ->) & ->) & ->). reflexivity.
Qed.

Lemma sgr_groups_ul s n rest :
  sgr_groups s ([4; n] :: rest)
  = sgr_groups (match underline_kind n with Some k => set_underline s k | None => s end) rest.
Proof.
  cbn [sgr_groups]. destruct (underline_kind n).
  (* sgr_groups matches on literal groups ([c; 5; n], [4; n], ...); the compiled match inspects the binary digits
     of the first values before the shape of the list, so on a variable it is stuck until those digits are split *)
  all: repeat match goal with
              | |- context [match ?x with N0 => _ | Npos _ => _ end] => destruct x
              | |- context [match ?x with xH => _ | xO _ => _ | xI _ => _ end] => destruct x
              end; reflexivity.
Qed.

(* the specification is compositional at item boundaries *)
Lemma spec_item s i rest :
  item_in_G i = true -> sgr_groups s (groups_of_item i ++ rest) = sgr_groups (item_apply s i) rest.
Proof.
  unfold item_apply, sgr_apply.
  destruct i as [c|n|colon c n|colon c r0 g0 b0]; cbn [item_in_G groups_of_item app]; intros HG.
  - rewrite !(sgr_groups_code _ _ _ (code_not_ext c HG)). reflexivity.
  - rewrite !sgr_groups_ul. reflexivity.
  - apply andb_prop in HG as [Hc _].
    destruct (is_ext_cases c Hc) as [->|[->| ->]]; destruct colon; reflexivity.
  - do 3 apply andb_prop in HG as [HG _].
    destruct (is_ext_cases c HG) as [->|[->| ->]]; destruct colon; reflexivity.
Qed.

Lemma item_step s r g t i rest :
  item_in_G i = true -> ul_ok s i = true ->
  exists r' g' t',
    params_loop (mkD s WNormal r g t) (groups_of_item i ++ rest)
    = params_loop (mkD (item_apply s i) WNormal r' g' t') rest.
Proof.
  intros HG Hul. unfold item_apply, sgr_apply.
  destruct i as [c|n|colon c n|colon c r0 g0 b0]; cbn [item_in_G ul_ok] in *.
  - exists r, g, t. cbn [groups_of_item app]. rewrite (sgr_groups_code c s [] (code_not_ext c HG)). cbn [sgr_groups].
    destruct (N.eq_dec c 4) as [->|H4].
    { change (sgr_code s 4) with (set_underline s (Some UNDERLINE)).
      rewrite <- insert_kind by exact Hul. reflexivity. }
    destruct (N.eq_dec c 21) as [->|H21].
    { change (sgr_code s 21) with (set_underline s (Some DOUBLE_UNDERLINE)).
      rewrite <- insert_kind by exact Hul. reflexivity. }
    cbn [params_loop values_loop]. rewrite (value_step_code s r g t c HG H4 H21). reflexivity.
  - exists r, g, t. apply N.leb_le in HG. cbn [groups_of_item app]. rewrite sgr_groups_ul. cbn [sgr_groups].
    assert (Hn : n = 0 \/ n = 1 \/ n = 2 \/ n = 3 \/ n = 4 \/ n = 5) by lia.
    destruct Hn as [->|[->|[->|[->|[->| ->]]]]]; cbn [underline_kind N.eqb Pos.eqb] in *.
    + rewrite <- remove_underline by exact Hul. reflexivity.
    + rewrite <- insert_kind by exact Hul. reflexivity.
    + rewrite <- switch_kind by exact Hul. reflexivity.
    + rewrite <- switch_kind by exact Hul. reflexivity.
    + rewrite <- switch_kind by exact Hul. reflexivity.
    + rewrite <- switch_kind by exact Hul. reflexivity.
  - apply andb_prop in HG as [Hc Hn]. apply N.leb_le in Hn.
    destruct (is_ext_cases c Hc) as [->|[->| ->]]; do 3 eexists;
      erewrite ext_idx by reflexivity; rewrite (N.mod_small n 256) by lia;
      destruct colon; reflexivity.
  - apply andb_prop in HG as [HG Hb]. apply andb_prop in HG as [HG Hg]. apply andb_prop in HG as [Hc Hr].
    apply N.leb_le in Hr, Hg, Hb.
    destruct (is_ext_cases c Hc) as [->|[->| ->]]; do 3 eexists;
      erewrite ext_rgb by reflexivity; rewrite !N.mod_small by lia;
      destruct colon; reflexivity.
Qed.

Lemma groups_of_cons i items : groups_of (i :: items) = groups_of_item i ++ groups_of items.
Proof. reflexivity. Qed.

(* both sides fold item_apply over the items *)
Lemma sgr_groups_items : forall items s,
  Forall (fun i => item_in_G i = true) items ->
  sgr_groups s (groups_of items) = fold_left item_apply items s.
Proof.
  induction items as [|i items IH]; intros s HG; [reflexivity|].
  inversion HG as [|? ? Hi HG']; subst.
  rewrite groups_of_cons, (spec_item s i _ Hi). apply IH, HG'.
Qed.

Lemma dispatch_items : forall items s r g t,
  Forall (fun i => item_in_G i = true) items -> ul_simple s items ->
  exists r' g' t',
    params_loop (mkD s WNormal r g t) (groups_of items)
    = Some (mkD (fold_left item_apply items s) WNormal r' g' t').
Proof.
  induction items as [|i items IH]; intros s r g t HG Hul.
  - exists r, g, t. reflexivity.
  - inversion HG as [|? ? Hi HG']; subst. destruct Hul as [Hul1 Hul2].
    destruct (item_step s r g t i (groups_of items) Hi Hul1) as (r1 & g1 & t1 & E).
    rewrite groups_of_cons, E. apply IH; assumption.
Qed.

Theorem dispatch_is_sgr : forall items s,
  Forall (fun i => item_in_G i = true) items -> ul_simple s items ->
  sgr_dispatch s (groups_of items) = Some (sgr_apply s (groups_of items)).
Proof.
  intros items s HG Hul. unfold sgr_dispatch, sgr_apply.
  destruct (dispatch_items items s None None TFg HG Hul) as (r & g & t & ->).
  rewrite (sgr_groups_items items s HG). reflexivity.
Qed.

(* attributes combined in one sequence = the same attributes in separate sequences *)
Lemma ul_simple_app : forall a b s,
  ul_simple s (a ++ b) -> ul_simple s a /\ ul_simple (fold_left item_apply a s) b.
Proof.
  induction a as [|i a IH]; intros b s H; [split; [exact I | exact H]|].
  destruct H as [H1 H2]. destruct (IH b _ H2) as [Ha Hb]. split; [split|]; assumption.
Qed.

Theorem combined_eq_separate : forall a b s,
  Forall (fun i => item_in_G i = true) a -> Forall (fun i => item_in_G i = true) b -> ul_simple s (a ++ b) ->
  sgr_dispatch s (groups_of (a ++ b)) =
  match sgr_dispatch s (groups_of a) with
  | Some s1 => sgr_dispatch s1 (groups_of b)
  | None => None
  end.
Proof.
  intros a b s Ha Hb Hul.
  destruct (ul_simple_app a b s Hul) as [Hula Hulb].
  assert (Hab : Forall (fun i => item_in_G i = true) (a ++ b)) by (apply Forall_app; auto).
  rewrite (dispatch_is_sgr _ s Hab Hul), (dispatch_is_sgr a s Ha Hula). unfold sgr_apply.
  rewrite (sgr_groups_items a s Ha), (dispatch_is_sgr b _ Hb Hulb). unfold sgr_apply.
  rewrite (sgr_groups_items _ s Hab), (sgr_groups_items b _ Hb), fold_left_app. reflexivity.
Qed.
