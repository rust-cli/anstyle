(* The functions of crates/anstyle-roff/src/{lib.rs,styled_str.rs} as TRANSLATED by
   tools/gen_fn_roff.py (Generated/RoffFn.v) are extensionally equal to the hand model (Model/Roff.v)
   the theorems of C15 are about.

   The outer [option] of a translation is "the Rust code panics" (never, on well-typed input); the hand
   model is total where Rust is.  Well-typedness of the inputs -- an AnsiColor / cansi::Color number is
   below 16, an Ansi256Color / RgbColor component is a u8 -- is a hypothesis where the representation
   by [N] is wider than the Rust type ([rf_sgr_ok], [color_ok]); the entry point [g_to_roff] needs none:
   the hand model of cansi only produces well-typed values (Proofs/Roff.v [rf_categorise_ok]). *)
From Coq Require Import NArith List Bool Lia.
From AV Require Import Generated.Style Model.Style Generated.Palette Spec.Lossy Model.Lossy Generated.Roff Model.Roff
  Model.Base Model.Imp Generated.RoffFn Spec.RoffSpec Proofs.Lossy Proofs.Roff.
Import ListNotations.
Local Open Scope N_scope.

(* styled_str.rs *)

Lemma g_is_bold_eq o : g_is_bold o = Some (match o with Some j => j =? 1 | None => false end).
Proof. unfold g_is_bold. destruct o as [j|]; [|reflexivity]. destruct (N.eqb j 1); reflexivity. Qed.

Lemma g_is_faint_eq o : g_is_faint o = Some (match o with Some j => j =? 2 | None => false end).
Proof. unfold g_is_faint. destruct o as [j|]; [|reflexivity]. destruct (N.eqb j 2); reflexivity. Qed.

(* cansi::Color has 16 variants *)
Lemma g_cansi_to_anstyle_color_eq c : rf_color_ok c ->
  g_cansi_to_anstyle_color c = Some (rf_cansi_to_anstyle c).
Proof.
  destruct c as [k|]; [|reflexivity]. cbn [rf_color_ok]. intros H. rf_cases16 H; reflexivity.
Qed.

Lemma g_create_effects_eq cat : g_create_effects cat = Some (rf_create_effects (fst cat)).
Proof.
  unfold g_create_effects. rewrite g_is_bold_eq, g_is_faint_eq. reflexivity.
Qed.

Definition rf_styled_of (c : rf_sgr * list N) : rf_styled := mkRfStyled (snd c) (rf_style_of (fst c)).

Lemma g_styled_from_eq cat : rf_sgr_ok (fst cat) -> g_styled_from cat = Some (rf_styled_of cat).
Proof.
  intros [Hf Hb]. unfold g_styled_from. cbv zeta. unfold rf_cslice_fg, rf_cslice_bg.
  rewrite !g_cansi_to_anstyle_color_eq by assumption. rewrite g_create_effects_eq. reflexivity.
Qed.

Lemma rf_map_m_pointwise {A B} (f : A -> option B) (h : A -> B) (P : A -> Prop) l :
  (forall x, P x -> f x = Some (h x)) -> Forall P l -> rf_map_m f l = Some (map h l).
Proof.
  intros Hf H. induction H as [|x l Hx Hl IH]; [reflexivity|].
  cbn [rf_map_m map]. rewrite (Hf x Hx), IH. reflexivity.
Qed.

Lemma g_styled_stream_eq text : g_styled_stream text = Some (map rf_styled_of (rf_categorise text)).
Proof.
  unfold g_styled_stream. cbv zeta.
  rewrite (rf_map_m_pointwise _ rf_styled_of (fun sl => rf_sgr_ok (fst sl)) (rf_categorise text)).
  - reflexivity.
  - intros x Hx. rewrite (g_styled_from_eq x Hx). reflexivity.
  - apply rf_categorise_ok.
Qed.

(* lib.rs *)

Lemma g_consts_eq : g_CREATE_COLOR = rf_req_defcolor /\ g_FOREGROUND = rf_req_fg /\ g_BACKGROUND = rf_req_bg.
Proof. repeat split; reflexivity. Qed.

Definition rf_color_opt_ok (c : option color) : Prop := match c with Some c => color_ok c | None => True end.

(* Whatever the spelling (`if let` + `matches!` = a boolean of N.eqb tests under the constructor; one nested `matches!` = an `if` on
   the same tests; anstyle's own `color.is_bright()` inlined = a 16-arm if-chain that answers [None] above 15): decided per colour,
   by computation.  As everywhere in this area the lemma carries the typing of the argument ([color_ok]: an AnsiColor is below 16);
   the entry point needs none ([rf_style_of_ok]). *)
Lemma g_is_bright_eq c : color_ok c -> g_is_bright c = Some (rf_is_bright c).
Proof.
  intros Hc. unfold g_is_bright. destruct c as [a|i|c]; try reflexivity. cbn [rf_is_bright]. cbn [color_ok] in Hc.
  rf_cases16 Hc; reflexivity.
Qed.

(* `.as_ref().map(is_bright).unwrap_or(false)` | `matches!(.., Some(c) if is_bright(&c))` | a `match`: the slot is destructed, the
   call rewritten, the rest is a case analysis on its answer *)
Lemma g_has_bright_fg_eq st : rf_color_opt_ok (ry_fg st) -> g_has_bright_fg st = Some (rf_has_bright_fg st).
Proof.
  intros H. unfold g_has_bright_fg, rf_has_bright_fg. cbv zeta. destruct (ry_fg st) as [c|]; cbn [rf_opt_map_m]; [|reflexivity].
  cbn [rf_color_opt_ok] in H. rewrite (g_is_bright_eq c H). destruct (rf_is_bright c); reflexivity.
Qed.

Lemma g_ansi_color_to_roff_eq a : a < 16 -> g_ansi_color_to_roff a = Some (rf_ansi_name a).
Proof.
  intros H. rf_cases16 H; reflexivity.
Qed.

Lemma g_to_hex_eq c : rgb_ok c -> g_to_hex c = rf_to_hex c.
Proof.
  destruct c as [[r g] b]. intros [Hr [Hg Hb]]. unfold g_to_hex, rf_to_hex. cbn [rgb_f0 rgb_f1 rgb_f2]. cbv zeta.
  rewrite !N.shiftl_mul_pow2. change (2 ^ 16) with 65536. change (2 ^ 8) with 256.
  rewrite !N.mod_small by lia. reflexivity.
Qed.

Lemma g_rgb_name_eq c : rgb_ok c -> g_rgb_name c = rf_rgb_name c.
Proof. intros H. unfold g_rgb_name, rf_rgb_name. rewrite (g_to_hex_eq c H). reflexivity. Qed.

Lemma g_xterm_to_ansi_or_rgb_eq i : g_xterm_to_ansi_or_rgb i = rf_xterm_to_ansi_or_rgb i.
Proof.
  unfold g_xterm_to_ansi_or_rgb, rf_xterm_to_ansi_or_rgb. cbv zeta.
  destruct (into_ansi i); [reflexivity|]. destruct (xterm_to_rgb i vga); reflexivity.
Qed.

Definition rf_push (doc : list rf_line) (o : option (list rf_line)) : option (list rf_line) :=
  match o with Some ls => Some (doc ++ ls) | None => None end.

Lemma g_add_color_direct_eq fuel doc req c :
  match c with Some (Ansi256 _) => False | _ => rf_color_opt_ok c end ->
  g_add_color_to_roff_rec (S fuel) doc req c = Some (doc ++ rf_add_color_direct req c).
Proof.
  intros H. cbn [g_add_color_to_roff_rec]. destruct c as [[a|i|c]|]; cbn [rf_add_color_direct rf_color_opt_ok color_ok] in *.
  - rewrite (g_ansi_color_to_roff_eq a H). reflexivity.
  - destruct H.
  - cbv zeta. rewrite (g_rgb_name_eq c H), (g_to_hex_eq c H). unfold rf_roff_control. rewrite <- app_assoc. reflexivity.
  - reflexivity.
Qed.

(* the Ansi256 arm: one more level *)
Lemma g_add_color_rec_256 fuel doc req i :
  g_add_color_to_roff_rec (S fuel) doc req (Some (Ansi256 i)) =
  c <- g_xterm_to_ansi_or_rgb i ;; g_add_color_to_roff_rec fuel doc req (Some c).
Proof.
  cbn [g_add_color_to_roff_rec]. destruct (g_xterm_to_ansi_or_rgb i) as [c|]; [|reflexivity].
  destruct (g_add_color_to_roff_rec fuel doc req (Some c)); reflexivity.
Qed.

Lemma g_add_color_to_roff_eq doc req c : rf_color_opt_ok c ->
  g_add_color_to_roff doc req c = rf_push doc (rf_add_color req c).
Proof.
  intros H. unfold g_add_color_to_roff.
  destruct c as [[a|i|c]|]; try (rewrite g_add_color_direct_eq by exact H; reflexivity).
  cbn [rf_color_opt_ok color_ok] in H. cbn [rf_add_color].
  rewrite g_add_color_rec_256, g_xterm_to_ansi_or_rgb_eq, (rf_xterm_cases i H).
  rewrite g_add_color_direct_eq; [reflexivity|].
  destruct (N.ltb_spec i 16) as [Hlo|Hhi]; [exact Hlo|exact (xterm_fixed_ok i (conj Hhi H))].
Qed.

(* set_color is a private helper: HOW it receives the two colours is the maintainers' business (the pair of references of the
   `ColorSet` alias | the style itself | two arguments).  The lemma is about the helper AS to_roff CALLS IT for a style: the first
   of the call conventions that typechecks against the translation. *)
Definition g_set_color_call (st : rf_style) (doc : list rf_line) : option (list rf_line) :=
  ltac:(first [ exact (g_set_color (ry_fg st, ry_bg st) doc)
              | exact (g_set_color st doc)
              | exact (g_set_color (ry_fg st) (ry_bg st) doc) ]).

Lemma g_set_color_eq st doc : rf_color_opt_ok (ry_fg st) -> rf_color_opt_ok (ry_bg st) ->
  g_set_color_call st doc = rf_push doc (rf_set_color st).
Proof.
  intros Hf Hb. unfold g_set_color_call, g_set_color, rf_set_color. cbn [fst snd]. destruct g_consts_eq as [_ [-> ->]].
  rewrite (g_add_color_to_roff_eq _ _ _ Hf). destruct (rf_add_color rf_req_fg (ry_fg st)) as [a|]; [|reflexivity].
  cbn [rf_push]. cbv zeta. rewrite (g_add_color_to_roff_eq _ _ _ Hb).
  destruct (rf_add_color rf_req_bg (ry_bg st)) as [b|]; [|reflexivity].
  cbn [rf_push]. rewrite app_assoc. reflexivity.
Qed.

Lemma g_set_effects_and_text_eq s doc : rf_color_opt_ok (ry_fg (rfs_style s)) ->
  g_set_effects_and_text s doc = Some (doc ++ [rf_effects_and_text (rfs_style s) (rfs_text s)]).
Proof.
  intros Hfg.
  (* three `doc.text(..)` calls in an if-chain | one call on an `if` expression; `|` (has_bright_fg always called) | `||` (called
     when not bold): the call is rewritten wherever it stands, then the three booleans decide *)
  unfold g_set_effects_and_text, rf_effects_and_text. cbv zeta. rewrite ?(g_has_bright_fg_eq _ Hfg).
  destruct (e_contains (ry_effects (rfs_style s)) eff_bold); destruct (rf_has_bright_fg (rfs_style s));
    destruct (e_contains (ry_effects (rfs_style s)) eff_italic); reflexivity.
Qed.

Lemma rf_style_of_ok g : rf_sgr_ok g ->
  rf_color_opt_ok (ry_fg (rf_style_of g)) /\ rf_color_opt_ok (ry_bg (rf_style_of g)).
Proof.
  assert (K : forall c, rf_color_ok c -> rf_color_opt_ok (rf_cansi_to_anstyle c)).
  { intros c Hc. rewrite (rf_cansi_to_anstyle_ok c Hc). destruct c; exact Hc. }
  intros [Hf Hb]. unfold rf_style_of. cbn [ry_fg ry_bg]. split; apply K; assumption.
Qed.

Theorem g_to_roff_eq input : g_to_roff input = rf_doc_lines (rf_categorise input).
Proof.
  unfold g_to_roff. cbv zeta. rewrite g_styled_stream_eq.
  match goal with |- context [for_list0 ?f _ _] => set (step := f) end.
  assert (L : forall slices doc, rf_slices_ok slices ->
              for_list0 step (map rf_styled_of slices) doc = rf_push doc (rf_doc_lines slices)).
  { induction slices as [|[g text] rest IH]; intros doc Hwf.
    - cbn [map for_list0 rf_doc_lines rf_push]. rewrite app_nil_r. reflexivity.
    - inversion Hwf as [|x l Hx Hl]; subst. destruct (rf_style_of_ok g Hx) as [Hf Hb].
      cbn [map for_list0 rf_doc_lines]. set (R := map rf_styled_of rest). unfold step at 1.
      unfold rf_styled_of. cbn [fst snd rfs_style rfs_text].      (* every use of the head slice, however many the body makes *)
      match goal with |- context [g_set_color ?a ?d] => change (g_set_color a d) with (g_set_color_call (rf_style_of g) d) end.
      rewrite (g_set_color_eq (rf_style_of g) doc Hf Hb).
      destruct (rf_set_color (rf_style_of g)) as [cl|]; [|reflexivity]. cbn [rf_push]. cbv zeta.
      rewrite g_set_effects_and_text_eq by (cbn [rfs_style]; exact Hf). cbn [rfs_style rfs_text].
      subst R. rewrite (IH _ Hl). destruct (rf_doc_lines rest) as [tl|]; [|reflexivity].
      cbn [rf_push]. rewrite <- !app_assoc. reflexivity. }
  rewrite (L _ _ (rf_categorise_ok input)). unfold rf_roff_new.
  destruct (rf_doc_lines (rf_categorise input)); reflexivity.
Qed.

(* anstyle_roff::to_roff(text).to_roff(): the translated to_roff followed by roff's renderer (third party,
   hand model rf_render) is the hand model the theorems of C15 are about *)
Theorem translated_to_roff_is_model : forall input : list N,
  (ls <- g_to_roff input ;; Some (rf_render ls)) = rf_to_roff input.
Proof. intros input. rewrite g_to_roff_eq. reflexivity. Qed.

(* add_color_to_roff alone on an empty document, rendered (Props/C15.v c15_rgb_branch_correct is about rf_color_requests) *)
Theorem translated_color_requests_is_model : forall (req : list N) (c : option color),
  rf_color_opt_ok c ->
  (ls <- g_add_color_to_roff [] req c ;; Some (rf_render ls)) = rf_color_requests req c.
Proof.
  intros req c H. rewrite (g_add_color_to_roff_eq [] req c H). unfold rf_color_requests.
  destruct (rf_add_color req c); reflexivity.
Qed.

(* styled_str.rs: the slices cansi yields, converted *)
Theorem translated_styled_stream_is_model : forall text : list N,
  g_styled_stream text = Some (map (fun c => mkRfStyled (snd c) (rf_style_of (fst c))) (rf_categorise text)).
Proof. exact g_styled_stream_eq. Qed.

(* with the property theorem of C15: the translated code computes the specification on D *)
Theorem translated_document_shape : forall segs : list rf_seg,
  rf_D segs ->
  Forall (fun s => rf_bold_and_faint s = false) segs ->
  (ls <- g_to_roff (rf_print_D segs) ;; Some (rf_render ls)) = Some (rf_spec_doc segs).
Proof. intros segs HD Hbf. rewrite translated_to_roff_is_model. exact (rf_document_shape segs HD Hbf). Qed.
