(* Proofs/WinconGen.v -- the functions TRANSLATED from crates/anstream/src/adapter/wincon.rs
   (Generated/WinconFn.v, written by tools/gen_fn_wincon.py on every run: WinconCapture::{reset,
   print, execute, csi_dispatch}, to_ansi_color, next_bytes, and anstyle's AnsiColor::bright) are
   extensionally equal to the hand model Model/Wincon.v that the theorems of C07 / C03 / C18 / C14
   are about.  A change to the Rust functions changes the translation; if it changes their
   meaning, one of these proofs fails. *)
From Coq Require Import NArith List Bool Lia.
From AV Require Import Generated.Table Spec.Vt Spec.Sgr Model.Base Model.Imp Model.Utf8parse Model.Parser
  Generated.ParserFn Model.Wincon Generated.WinconFn Proofs.BaseFacts Proofs.ParserGen Proofs.WinconRuns Proofs.WinconSpecRuns.
Import ListNotations.
Local Open Scope N_scope.

(* the hand model works with palette indices: bright(true) on a normal colour is +8 *)
Lemma g_ansi_bright_true a :
  ansi_idx a <= 7 -> exists r, g_ansi_bright a true = Some r /\ ansi_idx r = ansi_idx a + 8.
Proof. destruct a; cbn; intros H; try (exfalso; lia); eexists; split; reflexivity. Qed.

(* the complete table, both directions (nothing below uses it: it is the tie of AnsiColor::bright as a whole -- an edit
   of that function that changes its meaning fails here) *)
Lemma g_ansi_bright_idx a yes :
  option_map ansi_idx (g_ansi_bright a yes) =
  Some (if yes then (if ansi_idx a <? 8 then ansi_idx a + 8 else ansi_idx a)
        else (if ansi_idx a <? 8 then ansi_idx a else ansi_idx a - 8)).
Proof. destruct a, yes; reflexivity. Qed.

(* The translation of `to_ansi_color` answers `option (option acolor)` when the translator found a construct that can
   panic in the body (the `match` on the digit: the outer option is the panic monad) and plain `option acolor` when the
   body is total (a lookup `TABLE.get(i).copied()` in a private const table).  The lemmas are stated over BOTH: `as_oo`
   reads either as "panics or answers an optional colour" (the total translation never panics). *)
Class AsOptOpt (T : Type) := as_oo : T -> option (option acolor).
#[global] Instance oo_partial : AsOptOpt (option (option acolor)) := fun x => x.
#[global] Instance oo_total : AsOptOpt (option acolor) := fun x => Some x.

(* what `as_oo x = Some r` says about x itself (so that it can be rewritten with) *)
Ltac as_oo_inv H :=
  cbv [as_oo oo_partial oo_total] in H;
  try (match type of H with Some _ = Some _ => injection H as H end).

Lemma g_to_ansi_color_eq d :
  exists r, as_oo (g_to_ansi_color d) = Some r /\ option_map ansi_idx r = to_ansi_color d.
Proof.
  cbv [as_oo oo_partial oo_total]. unfold g_to_ansi_color, to_ansi_color.
  destruct (d <=? 7) eqn:E.
  - apply N.leb_le in E.
    assert (H : d = 0 \/ d = 1 \/ d = 2 \/ d = 3 \/ d = 4 \/ d = 5 \/ d = 6 \/ d = 7) by lia.
    repeat (destruct H as [-> | H]); try subst d; eexists; split; reflexivity.
  - apply N.leb_gt in E.
    (* past the last entry: every test of a chain of comparisons fails / the table lookup is out of range *)
    repeat match goal with |- context [?a =? ?b] => replace (a =? b) with false by (symmetry; apply N.eqb_neq; lia) end.
    repeat match goal with
           | |- context [nth_error ?l ?i] => rewrite (proj2 (nth_error_None l i)) by (cbn [length]; lia)
           end.
    eexists; split; reflexivity.
Qed.

Lemma g_to_ansi_cases d :
  (exists u, as_oo (g_to_ansi_color d) = Some (Some u) /\ to_ansi_color d = Some (ansi_idx u) /\ ansi_idx u <= 7) \/
  (as_oo (g_to_ansi_color d) = Some None /\ to_ansi_color d = None).
Proof.
  destruct (g_to_ansi_color_eq d) as [r [E1 E2]]. destruct r as [u|]; cbn [option_map] in E2.
  - left. exists u. repeat split; auto.
    unfold to_ansi_color in E2. destruct (d <=? 7) eqn:L; [|discriminate]. injection E2 as <-. apply N.leb_le; exact L.
  - right. auto.
Qed.

Definition dtup (d : dstate) := (d_style d, d_state d, d_r d, d_g d, d_target d).

Definition step_res (o : option (dstate * bool)) : option (bctl (sstyle * wstate * option N * option N * target)) :=
  match o with
  | Some (d, true) => Some (BBreak (dtup d))
  | Some (d, false) => Some (BNext (dtup d))
  | None => None
  end.

(* `for value in param`: any loop body that does what value_step does *)
Lemma values_loop_for f :
  (forall v s w r g t, f v (s, w, r, g, t) = step_res (value_step (mkD s w r g t) v)) ->
  forall vs s w r g t, for_list0 f vs (s, w, r, g, t) = option_map dtup (values_loop (mkD s w r g t) vs).
Proof.
  intros Hf. induction vs as [|v vs IH]; intros s w r g t; cbn [for_list0 values_loop].
  - reflexivity.
  - rewrite Hf. destruct (value_step (mkD s w r g t) v) as [[d1 [|]]|]; cbn [step_res]; try reflexivity.
    destruct d1 as [s1 w1 r1 g1 t1]. cbn [dtup d_style d_state d_r d_g d_target]. apply IH.
Qed.

Definition after_param (d1 : dstate) : dstate :=
  match d_state d1 with WUnderline => set_d d1 (d_style d1) WNormal | _ => d1 end.

(* `for param in params` *)
Lemma params_loop_for f :
  (forall p s w r g t, f p (s, w, r, g, t) =
     match values_loop (mkD s w r g t) p with Some d1 => Some (BNext (dtup (after_param d1))) | None => None end) ->
  forall ps s w r g t, for_list0 f ps (s, w, r, g, t) = option_map dtup (params_loop (mkD s w r g t) ps).
Proof.
  intros Hf. induction ps as [|p ps IH]; intros s w r g t; cbn [for_list0 params_loop].
  - reflexivity.
  - rewrite Hf. destruct (values_loop (mkD s w r g t) p) as [d1|]; [|reflexivity].
    fold (after_param d1). destruct (after_param d1) as [s1 w1 r1 g1 t1].
    cbn [dtup d_style d_state d_r d_g d_target]. apply IH.
Qed.

(* one `if` of the translated chain at a time, when both sides test the same condition *)
Lemma if_step {A B} (f : A -> B) (c : bool) a b a' b' :
  a = f a' -> b = f b' -> (if c then a else b) = f (if c then a' else b').
Proof. intros -> ->. destruct c; reflexivity. Qed.

(* leaf: one arm of the chain -- equal by computation, or a palette colour through csub / to_ansi_color (and bright
   for 90-97 / 100-107).  chain (below): peel one `if` per arm with if_step while both sides test the same condition;
   else the fallback *)
Ltac leaf :=
  cbn [step_res dtup d_style d_state d_r d_g d_target set_d];
  first
    [ reflexivity
    | match goal with
      | |- context [csub ?a ?b] => destruct (csub a b); [|reflexivity]
      end;
      match goal with
      | |- context [g_to_ansi_color ?n] =>
          let u := fresh "u" in let L := fresh "L" in
          let E := fresh "E" in
          destruct (g_to_ansi_cases n) as [[u [E [-> L]]] | [E ->]]; as_oo_inv E; rewrite E; [|reflexivity];
          first [ reflexivity
                | let b := fresh "b" in let Eb := fresh "Eb" in
                  destruct (g_ansi_bright_true u L) as [b [-> Eb]]; rewrite Eb; reflexivity ]
      end ].

(* fallback when the two chains do not test in the same order (arms of the Rust match reordered):
   split the translated chain completely, then resolve every test of the hand model's chain from
   what is known (by rewriting, else by arithmetic) *)
Ltac lhs_split := repeat match goal with |- (if ?c then _ else _) = _ => destruct c eqn:? end.
Ltac rhs_known :=
  repeat match goal with
         | H : ?c = _ |- _ = step_res (if ?c then _ else _) => rewrite H; cbv iota
         end.
Ltac rhs_split :=
  repeat (rhs_known;
          match goal with
          | |- _ = step_res (if ?c then _ else _) =>
              let E := fresh "E" in destruct c eqn:E; try solve [exfalso; tests_to_props; lia]
          end).
Ltac chain := first [ solve [repeat (apply if_step; [solve [leaf]|]); leaf] | lhs_split; rhs_split; leaf ].

Lemma g_cap_csi_dispatch_eq cap ps ints ign a :
  g_cap_csi_dispatch cap ps ints ign a = capture_event cap (ECsi ps ints ign a).
Proof.
  unfold g_cap_csi_dispatch, capture_event.
  (* the guards at the head (three early returns, one merged test, a `let` for a part of it: any combination of
     `ignore`, `action == b'm'`, `intermediates.is_empty()`): decided on both sides by the three facts themselves *)
  destruct ign, (a =? 109), ints as [|i0 ints]; cbv zeta; cbn [negb andb orb is_empty];
    try (match goal with |- Some ?x = Some ?x => reflexivity end).
  unfold sgr_dispatch.
  match goal with |- context [for_list0 ?F ps ?i] => rewrite (params_loop_for F) end.
  - destruct (params_loop (mkD (c_style cap) WNormal None None TFg) ps) as [[s1 w1 r1 g1 t1]|]; cbn [option_map dtup d_style]; [|reflexivity].
    destruct cap as [cs cp cr]. unfold set_c_ready, set_c_style, is_empty. cbn [c_style c_printable c_ready].
    destruct (negb (style_eqb s1 cs) && negb match cp with [] => true | _ :: _ => false end); reflexivity.
  - (* the body of the outer loop *)
    intros p s w r g t. cbv beta iota.
    match goal with |- context [for_list0 ?G p ?i] => rewrite (values_loop_for G) end.
    + destruct (values_loop (mkD s w r g t) p) as [[s1 w1 r1 g1 t1]|]; cbn [option_map dtup d_style d_state d_r d_g d_target]; [|reflexivity].
      unfold after_param. destruct w1; reflexivity.
    + (* the body of the inner loop: `match (state, *value)` *)
      clear. intros v s w r g t. cbv beta iota zeta.
      unfold value_step, in_rng. cbn [d_style d_state d_r d_g d_target].
      destruct w; cbn [wstate_eqb andb].
      * chain.
      * chain.
      * destruct t; reflexivity.
      * destruct r as [r0|]; [destruct g as [g0|]|]; try reflexivity. destruct t; reflexivity.
      * chain.
Qed.

Lemma g_cap_reset_eq c : g_cap_reset c = Some (mkCap (c_style c) (c_printable c) None).
Proof. reflexivity. Qed.

Lemma g_cap_print_eq c cp : Some (g_cap_print c cp) = capture_event c (EPrint cp).
Proof. reflexivity. Qed.

(* u8::is_ascii_whitespace: the translator's (Model/Imp) and the hand model's (Model/Strip) spelling *)
Lemma ws_eq b : Imp.is_ascii_whitespace b = Strip.is_ascii_whitespace b.
Proof.
  unfold Imp.is_ascii_whitespace, Strip.is_ascii_whitespace.
  destruct (b =? 32), (b =? 9), (b =? 10), (b =? 12), (b =? 13); reflexivity.
Qed.

Lemma g_cap_execute_eq c b : g_cap_execute c b = capture_event c (EExecute b).
Proof. unfold g_cap_execute, capture_event. rewrite ws_eq. destruct (Strip.is_ascii_whitespace b); reflexivity. Qed.

Lemma g_perform_eq c e : g_perform c e = capture_event c e.
Proof.
  destruct e; cbn [g_perform];
    try apply g_cap_print_eq; try apply g_cap_execute_eq; try apply g_cap_csi_dispatch_eq; reflexivity.
Qed.

Lemma g_perform_events_eq es : forall c, g_perform_events c es = capture_events c es.
Proof.
  induction es as [|e es IH]; intros c; cbn [g_perform_events capture_events]; [reflexivity|].
  rewrite g_perform_eq. destruct (capture_event c e); [apply IH|reflexivity].
Qed.

(* `while capture.ready.is_none()`: any loop body that does what one round of wn_loop does *)
Lemma wn_loop_while (step : list N * parser * capture -> option (bctl (list N * parser * capture))) :
  (forall bs p c, step (bs, p, c) =
     match c_ready c with
     | Some _ => Some (BBreak (bs, p, c))
     | None =>
         match bs with
         | [] => Some (BBreak (bs, p, c))
         | b :: rest =>
             match advance cfg_default p b with
             | Some (p1, evs) =>
                 match capture_events c evs with
                 | Some c1 => Some (BNext (rest, p1, c1))
                 | None => None
                 end
             | None => None
             end
         end
     end) ->
  forall bs fuel p c, (length bs < fuel)%nat -> while_fuel0 fuel step (bs, p, c) = wn_loop bs p c.
Proof.
  intros Hs. induction bs as [|b bs IH]; intros fuel p c Hf; (destruct fuel as [|fuel]; [inversion Hf|]);
    cbn [while_fuel0 wn_loop]; rewrite Hs; destruct (c_ready c); try reflexivity.
  destruct (advance cfg_default p b) as [[p1 evs]|]; [|reflexivity].
  destruct (capture_events c evs) as [c1|]; [|reflexivity].
  apply IH. cbn [length] in Hf. lia.
Qed.

(* the translated function returns (bytes, parser, capture, item); the hand model (item, bytes, parser, capture) *)
Definition next_shape (r : option (option (sstyle * list N) * list N * parser * capture))
  : option (list N * parser * capture * option (sstyle * list N)) :=
  match r with Some (item, bs, p, c) => Some (bs, p, c, item) | None => None end.

Lemma g_next_bytes_eq bs p c : g_next_bytes bs p c = next_shape (wincon_next bs p c).
Proof.
  unfold g_next_bytes, wincon_next. rewrite g_cap_reset_eq. cbv zeta.
  match goal with |- context [while_fuel0 _ ?F ?i] => rewrite (wn_loop_while F) end.
  - destruct (wn_loop bs p (mkCap (c_style c) (c_printable c) None)) as [[[bs1 p1] c1]|]; [|reflexivity].
    destruct c1 as [cs cp cr]. unfold is_empty, opt_unwrap_or, set_c_printable. cbn [c_style c_printable c_ready].
    (* the item: by cases on the text and on `ready`, so `ready.unwrap_or(style)` and a `match` / `if let` on `ready` all close *)
    destruct cp; try reflexivity; destruct cr; reflexivity.
  - clear. intros bs p c. cbv beta iota zeta. unfold opt_is_none.
    destruct (c_ready c); [reflexivity|]. destruct bs as [|b rest]; [reflexivity|].
    rewrite g_advance_eq. destruct (advance cfg_default p b) as [[p1 evs]|]; cbn [acc app]; [|reflexivity].
    rewrite g_perform_events_eq. destruct (capture_events c evs); reflexivity.
  - lia.
Qed.

(* the iterator around next_bytes (WinconBytesIter::next, WinconBytes::extract_next) written by hand over
   the TRANSLATED next_bytes; gt_extract_next below is the same drive over the TRANSLATED glue *)
Fixpoint g_wincon_iter (fuel : nat) (bs : list N) (p : parser) (c : capture)
  : option (list (sstyle * list N) * parser * capture) :=
  match fuel with
  | O => None
  | S f =>
      match g_next_bytes bs p c with
      | Some (bs1, p1, c1, None) => Some ([], p1, c1)
      | Some (bs1, p1, c1, Some it) =>
          match g_wincon_iter f bs1 p1 c1 with
          | Some (its, p2, c2) => Some (it :: its, p2, c2)
          | None => None
          end
      | None => None
      end
  end.

(* extract_next(bytes): `self.capture.reset()`, then the iterator is collected *)
Definition g_extract_next (bs : list N) (p : parser) (c : capture) :=
  match g_cap_reset c with
  | Some c0 => g_wincon_iter (S (S (length bs))) bs p c0
  | None => None
  end.

Lemma g_wincon_iter_eq fuel : forall bs p c, g_wincon_iter fuel bs p c = wincon_iter fuel bs p c.
Proof.
  induction fuel as [|f IH]; intros bs p c; cbn [g_wincon_iter wincon_iter]; [reflexivity|].
  rewrite g_next_bytes_eq. destruct (wincon_next bs p c) as [[[[item bs1] p1] c1]|]; cbn [next_shape]; [|reflexivity].
  destruct item; [rewrite IH|]; reflexivity.
Qed.

Theorem translated_extract_next_is_model bs p c :
  g_extract_next bs p c = extract_next bs p c.
Proof. unfold g_extract_next, extract_next. rewrite g_cap_reset_eq. apply g_wincon_iter_eq. Qed.

Fixpoint g_extract_chunks (chunks : list (list N)) (p : parser) (c : capture)
  : option (list (list (sstyle * list N)) * parser * capture) :=
  match chunks with
  | [] => Some ([], p, c)
  | ch :: rest =>
      match g_extract_next ch p c with
      | Some (its, p1, c1) =>
          match g_extract_chunks rest p1 c1 with
          | Some (itss, p2, c2) => Some (its :: itss, p2, c2)
          | None => None
          end
      | None => None
      end
  end.

Theorem translated_extract_chunks_is_model chunks : forall p c,
  g_extract_chunks chunks p c = extract_chunks chunks p c.
Proof.
  induction chunks as [|ch rest IH]; intros p c; cbn [g_extract_chunks extract_chunks]; [reflexivity|].
  rewrite translated_extract_next_is_model. destruct (extract_next ch p c) as [[[its p1] c1]|]; [|reflexivity].
  rewrite IH. reflexivity.
Qed.

(* WinconBytes::{new, extract_next} and WinconBytesIter::next, TRANSLATED
   `extract_next` returns a struct that holds `&mut self.parser` and `&mut self.capture`: the value translation copies
   the two fields into the iterator (after `self.capture.reset()`); while the iterator lives its fields ARE the fields of
   the WinconBytes, so what the drained iterator leaves in them is the WinconBytes afterwards (copy-out: the setters). *)
Lemma g_wb_new_eq : g_wb_new = mkWB parser_new capture_default.
Proof. reflexivity. Qed.

Lemma g_wb_extract_next_eq wb bs :
  g_wb_extract_next wb bs =
  match g_cap_reset (wb_capture wb) with
  | Some c0 => Some (mkWB (wb_parser wb) c0, mkWBI bs (wb_parser wb) c0)
  | None => None
  end.
Proof. unfold g_wb_extract_next. destruct (g_cap_reset (wb_capture wb)); reflexivity. Qed.

Lemma g_wbi_next_eq it :
  g_wbi_next it =
  match g_next_bytes (wbi_bytes it) (wbi_parser it) (wbi_capture it) with
  | Some (bs1, p1, c1, r) => Some (mkWBI bs1 p1 c1, r)
  | None => None
  end.
Proof. unfold g_wbi_next. destruct (g_next_bytes _ _ _) as [[[[bs1 p1] c1] r]|]; reflexivity. Qed.

(* `.collect()`: drain the translated `next` *)
Fixpoint gt_wbi_drain (fuel : nat) (it : wbiter) : option (list (sstyle * list N) * wbiter) :=
  match fuel with
  | O => None
  | S f =>
      match g_wbi_next it with
      | Some (it1, None) => Some ([], it1)
      | Some (it1, Some x) =>
          match gt_wbi_drain f it1 with
          | Some (xs, it2) => Some (x :: xs, it2)
          | None => None
          end
      | None => None
      end
  end.

Definition gt_extract_next (bs : list N) (wb : wbytes) : option (list (sstyle * list N) * wbytes) :=
  match g_wb_extract_next wb bs with
  | Some (wb1, it) =>
      match gt_wbi_drain (S (S (length bs))) it with
      | Some (xs, it') => Some (xs, set_wb_capture (set_wb_parser wb1 (wbi_parser it')) (wbi_capture it'))
      | None => None
      end
  | None => None
  end.

Lemma gt_wbi_drain_iter fuel : forall bs p c,
  match gt_wbi_drain fuel (mkWBI bs p c) with
  | Some (xs, it') => Some (xs, wbi_parser it', wbi_capture it')
  | None => None
  end = g_wincon_iter fuel bs p c.
Proof.
  induction fuel as [|f IH]; intros bs p c; cbn [gt_wbi_drain g_wincon_iter]; [reflexivity|].
  rewrite g_wbi_next_eq. cbn [wbi_bytes wbi_parser wbi_capture].
  destruct (g_next_bytes bs p c) as [[[[bs1 p1] c1] [x|]]|]; [|reflexivity|reflexivity].
  rewrite <- IH. destruct (gt_wbi_drain f (mkWBI bs1 p1 c1)) as [[xs it2]|]; reflexivity.
Qed.

Theorem gt_extract_next_eq bs wb :
  gt_extract_next bs wb =
  match g_extract_next bs (wb_parser wb) (wb_capture wb) with
  | Some (its, p, c) => Some (its, mkWB p c)
  | None => None
  end.
Proof.
  unfold gt_extract_next, g_extract_next. rewrite g_wb_extract_next_eq.
  destruct (g_cap_reset (wb_capture wb)) as [c0|]; [|reflexivity].
  rewrite <- gt_wbi_drain_iter.
  destruct (gt_wbi_drain (S (S (length bs))) (mkWBI bs (wb_parser wb) c0)) as [[xs it']|]; reflexivity.
Qed.

Theorem translated_wb_extract_next_is_model bs :
  gt_extract_next bs g_wb_new =
  match extract_next bs parser_new capture_default with
  | Some (its, p, c) => Some (its, mkWB p c)
  | None => None
  end.
Proof. rewrite gt_extract_next_eq, g_wb_new_eq. cbn [wb_parser wb_capture]. rewrite translated_extract_next_is_model. reflexivity. Qed.

Theorem translated_csi_dispatch_style cap ps :
  option_map c_style (g_cap_csi_dispatch cap ps [] false 109) = sgr_dispatch (c_style cap) ps.
Proof.
  rewrite g_cap_csi_dispatch_eq. cbn [capture_event negb N.eqb Pos.eqb].
  destruct (sgr_dispatch (c_style cap) ps); reflexivity.
Qed.

(* hence the theorems about the hand model are theorems about the translated code *)
Theorem translated_runs_are_spec input :
  Forall (fun b => b < 256) input -> sgr_events_ok style_default (spec_events input) ->
  exists its p c,
    g_extract_next input parser_new capture_default = Some (its, p, c) /\
    merge_runs its = spec_runs input.
Proof. intros H1 H2. rewrite translated_extract_next_is_model. exact (runs_are_spec input H1 H2). Qed.

Theorem translated_wincon_chunked chunks :
  Forall (fun b => b < 256) (concat chunks) ->
  exists itss its p c,
    g_extract_chunks chunks parser_new capture_default = Some (itss, p, c) /\
    g_extract_next (concat chunks) parser_new capture_default = Some (its, p, c) /\
    flatten (concat itss) = flatten its /\
    merge_runs (concat itss) = merge_runs its.
Proof.
  intros H. rewrite translated_extract_chunks_is_model, translated_extract_next_is_model.
  destruct (wincon_chunked chunks H) as [itss [its [p [c [A [B [C [_ [_ D]]]]]]]]].
  exists itss, its, p, c. auto.
Qed.
