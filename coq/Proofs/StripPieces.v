(* Proofs/StripPieces.v -- the pieces returned by the strip iterators are
   non-empty, in-order, non-overlapping substrings of the input at the offsets
   they report (C01), and text pieces are valid UTF-8 (C04). *)
From Coq Require Import NArith Arith List Bool Lia.
From AV Require Import Generated.Table Spec.Utf8 Model.Base Model.Utf8parse Model.Parser Model.Strip
  Proofs.TableFacts Proofs.StripMachine Proofs.StripStr.
Import ListNotations.
Local Open Scope N_scope.

(* [bs] sits at offset [off] of the input *)
Fixpoint pieces_in (off : N) (bs : list N) (ps : list piece) : Prop :=
  match ps with
  | [] => True
  | p :: rest =>
      exists pre r, bs = pre ++ p_bytes p ++ r /\ p_off p = off + N.of_nat (length pre) /\
                    p_bytes p <> [] /\
                    pieces_in (p_off p + N.of_nat (length (p_bytes p))) r rest
  end.

(* one call of either scanner: the slice is what the first scan skipped, the run
   the second took, and the rest *)
Lemma pieces_in_cons off (pre t r : list N) rest :
  t <> [] ->
  pieces_in (off + N.of_nat (length (pre ++ t ++ r) - length (t ++ r)) + N.of_nat (length t)) r rest ->
  pieces_in off (pre ++ t ++ r) (mkPiece (off + N.of_nat (length (pre ++ t ++ r) - length (t ++ r))) t :: rest).
Proof.
  replace (length (pre ++ t ++ r) - length (t ++ r))%nat with (length pre) by (rewrite app_length; lia).
  intros Hne H. exists pre, r. cbn [p_bytes p_off]. auto.
Qed.

Theorem bytes_iter_pieces : forall fuel bs off st u ps bs' st' u',
  bytes_iter fuel bs off st u = Some (ps, bs', st', u') -> pieces_in off bs ps.
Proof.
  induction fuel as [|fuel IH]; intros bs off st u ps bs' st' u' H; [discriminate|].
  cbn [bytes_iter] in H. unfold next_bytes in H.
  destruct (nb_skip bs st u) as [[[bs1 st1] u1]|] eqn:Hsk; [|discriminate].
  destruct (nb_take bs1 st1 u1) as [[[[t bs2] st2] u2]|] eqn:Ht; [|discriminate].
  destruct (nb_skip_suffix _ _ _ _ _ _ Hsk) as [pre ->]. rewrite (nb_take_split _ _ _ _ _ _ _ Ht) in H |- *.
  destruct t as [|t0 t]; [injection H as <- _ _ _; exact I|].
  destruct (bytes_iter fuel bs2 _ st2 u2) as [[[[ps2 bs3] st3] u3]|] eqn:Hit; [|discriminate].
  injection H as <- _ _ _. apply pieces_in_cons; [discriminate|]. exact (IH _ _ _ _ _ _ _ _ Hit).
Qed.

Theorem str_iter_pieces : forall fuel bs off st ps bs' st',
  str_iter fuel bs off st = Some (ps, bs', st') -> pieces_in off bs ps.
Proof.
  induction fuel as [|fuel IH]; intros bs off st ps bs' st' H; [discriminate|].
  cbn [str_iter] in H. unfold next_str in H.
  destruct (ns_skip bs st) as [[bs1 st1]|] eqn:Hsk; [|discriminate].
  destruct (ns_take bs1 st1) as [[t bs2]|] eqn:Ht; [|discriminate].
  destruct (ns_skip_suffix _ _ _ _ Hsk) as [pre ->]. rewrite (proj1 (ns_take_cut _ _ _ _ Ht)) in H |- *.
  destruct t as [|t0 t]; [injection H as <- _ _; exact I|].
  destruct (str_iter fuel bs2 _ st1) as [[[ps2 bs3] st3]|] eqn:Hit; [|discriminate].
  injection H as <- _ _. apply pieces_in_cons; [discriminate|]. exact (IH _ _ _ _ _ _ Hit).
Qed.

Theorem strip_bytes_pieces_wf : forall input ps,
  strip_bytes_pieces input = Some ps -> pieces_in 0 input ps.
Proof.
  intros input ps H. unfold strip_bytes_pieces, strip_next_bytes in H.
  destruct (bytes_iter _ input 0 Ground u8_new) as [[[[ps' ?] ?] ?]|] eqn:Hit; [|discriminate].
  injection H as <-. exact (bytes_iter_pieces _ _ _ _ _ _ _ _ _ Hit).
Qed.

Theorem strip_str_pieces_wf : forall input ps,
  strip_str_pieces input = Some ps -> pieces_in 0 input ps.
Proof.
  intros input ps H. unfold strip_str_pieces, strip_next_str in H.
  destruct (str_iter _ input 0 Ground) as [[[ps' ?] ?]|] eqn:Hit; [|discriminate].
  injection H as <-. exact (str_iter_pieces _ _ _ _ _ _ _ Hit).
Qed.

(* in front of a byte that is not a continuation byte the validity DFA is
   between characters *)
Lemma valid_from_clean vu bs : valid_from vu bs = true -> starts_clean bs -> vu = None.
Proof.
  destruct bs as [|b r]; [destruct vu; [discriminate|reflexivity]|].
  rewrite valid_from_cons. destruct (vnext vu b) eqn:E; [|discriminate]. intros _. exact (vnext_boundary _ _ _ E).
Qed.

Lemma valid_from_split : forall a b vu,
  valid_from vu (a ++ b) = true -> starts_clean b -> valid_from vu a = true /\ valid_from None b = true.
Proof.
  induction a as [|x a IH]; intros b vu H Hc; cbn [app] in H.
  - pose proof (valid_from_clean _ _ H Hc) as ->. split; [reflexivity|exact H].
  - rewrite valid_from_cons in *. destruct (vnext vu x); [exact (IH _ _ H Hc)|discriminate].
Qed.

Lemma valid_slice pre t r :
  valid_utf8 (pre ++ t ++ r) = true -> starts_clean (t ++ r) -> starts_clean r ->
  valid_utf8 t = true /\ valid_utf8 r = true.
Proof.
  unfold valid_utf8. intros Hv Ht Hr.
  apply valid_from_split in Hv as [_ Hv]; [|exact Ht]. exact (valid_from_split _ _ _ Hv Hr).
Qed.

(* C04: text pieces are valid UTF-8 *)
Fixpoint pieces_valid (ps : list piece) : Prop :=
  match ps with [] => True | p :: rest => valid_utf8 (p_bytes p) = true /\ pieces_valid rest end.

Theorem str_iter_pieces_utf8 : forall fuel bs off st ps bs' st',
  bytes_ok bs -> valid_utf8 bs = true ->
  str_iter fuel bs off st = Some (ps, bs', st') -> pieces_valid ps.
Proof.
  induction fuel as [|fuel IH]; intros bs off st ps bs' st' Hok Hv H; [discriminate|].
  cbn [str_iter] in H. unfold next_str in H.
  destruct (ns_skip bs st) as [[bs1 st1]|] eqn:Hsk; [|discriminate].
  destruct (ns_take bs1 st1) as [[t bs2]|] eqn:Ht; [|discriminate].
  destruct t as [|t0 t]; [injection H as <- _ _; exact I|].
  destruct (str_iter fuel bs2 _ st1) as [[[ps2 bs3] st3]|] eqn:Hit; [|discriminate].
  injection H as <- _ _.
  destruct (ns_skip_spec _ _ false _ _ Hok ltac:(discriminate) Hsk) as (pre & _ & -> & _ & Hc1 & _).
  destruct (ns_take_cut _ _ _ _ Ht) as [Hsp Hc2]. rewrite Hsp in Hok, Hv, Hc1.
  destruct (valid_slice _ _ _ Hv Hc1 Hc2) as [Hvt Hv2].
  apply bytes_ok_app in Hok as [_ Hok]. apply bytes_ok_app in Hok as [_ Hok2].
  split; [exact Hvt|]. exact (IH _ _ _ _ _ _ Hok2 Hv2 Hit).
Qed.

Theorem strip_str_pieces_utf8 : forall input ps,
  bytes_ok input -> valid_utf8 input = true -> strip_str_pieces input = Some ps -> pieces_valid ps.
Proof.
  intros input ps Hok Hv H. unfold strip_str_pieces, strip_next_str in H.
  destruct (str_iter _ input 0 Ground) as [[[ps' ?] ?]|] eqn:Hit; [|discriminate].
  injection H as <-. exact (str_iter_pieces_utf8 _ _ _ _ _ _ _ Hok Hv Hit).
Qed.
