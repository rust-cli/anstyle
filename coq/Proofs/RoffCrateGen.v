(* The third-party crate roff 0.2.1 as translated by tools/gen_fn_roffcrate.py (Generated/RoffCrateFn.v, from the
   cargo registry source) equals the hand model of the crate in Model/Roff.v ([rf_render], [rf_roff_new / control /
   text] and what they call) that the theorems of C15 are about. *)
From Coq Require Import NArith List Bool.
From AV Require Import Spec.Lossy Model.Base Model.Imp Model.Roff Generated.RoffFn Proofs.RoffGen Generated.RoffCrateFn.
Import ListNotations.
Local Open Scope N_scope.
Local Open Scope bool_scope.

Lemma g_rc_starts_with_cc_eq : forall s, g_rc_starts_with_cc s = rf_starts_with_cc s.
Proof. intros [|c t]; reflexivity. Qed.

Lemma g_rc_escape_spaces_eq : forall w, g_rc_escape_spaces w = rf_escape_spaces w.
Proof. intros w. unfold g_rc_escape_spaces, rf_escape_spaces, rf_contains_char. destruct (existsb (N.eqb 32) w); reflexivity. Qed.

Lemma g_rc_escape_leading_cc_eq : forall s, g_rc_escape_leading_cc s = rf_escape_leading_cc s.
Proof. reflexivity. Qed.

Lemma g_rc_escape_inline_eq : forall s, g_rc_escape_inline s = rf_escape_inline s.
Proof. reflexivity. Qed.

(* escape_apostrophes has no counterpart in the hand model (to_roff never handles apostrophes): its meaning *)
Lemma g_rc_escape_apostrophes_eq : forall s, g_rc_escape_apostrophes s = rf_replace1 39 [92; 42; 40; 65; 113] s.   (* ' -> \*(Aq *)
Proof. reflexivity. Qed.

Lemma g_rc_roman_eq : forall t, g_rc_roman t = RfInRoman t.
Proof. reflexivity. Qed.
Lemma g_rc_bold_eq : forall t, g_rc_bold t = RfInBold t.
Proof. reflexivity. Qed.
Lemma g_rc_italic_eq : forall t, g_rc_italic t = RfInItalic t.
Proof. reflexivity. Qed.
Lemma g_rc_line_break_eq : g_rc_line_break = RfInLineBreak.
Proof. reflexivity. Qed.
Lemma g_rc_line_control_eq : forall name args, g_rc_line_control name args = RfControl name args.
Proof. reflexivity. Qed.
Lemma g_rc_line_text_eq : forall parts, g_rc_line_text parts = RfText parts.
Proof. reflexivity. Qed.

(* Roff::new / control / text (`&mut Self` is returned: the updated document, twice) *)

Lemma g_rc_new_eq : g_rc_new = rf_roff_new.
Proof. reflexivity. Qed.

Lemma g_rc_control_eq : forall d name args,
  g_rc_control d name args = (rf_roff_control d name args, rf_roff_control d name args).
Proof. intros. unfold g_rc_control. cbv zeta. rewrite map_id. reflexivity. Qed.

Lemma g_rc_text_eq : forall d inlines,
  g_rc_text d inlines = (rf_roff_text d inlines, rf_roff_text d inlines).
Proof. reflexivity. Qed.

(* Line::render.
   The hand model [rf_render_line] is the case Apostrophes::DontHandle (what to_roff passes).  The translation
   has the parameter; [rc_render_line ap] is the renderer for both values (Handle: every apostrophe of an
   escaped text becomes \*(Aq before the leading control characters are guarded), and it IS [rf_render_line]
   at RfDontHandle. *)

Definition rc_inline_text (ap : rf_apostrophes) (t : list N) : list N :=
  rf_escape_leading_cc
    (match ap with
     | RfHandle => rf_replace1 39 [92; 42; 40; 65; 113] (rf_escape_inline t)
     | RfDontHandle => rf_escape_inline t
     end).

Fixpoint rc_render_inlines (ap : rf_apostrophes) (at_line_start : bool) (l : list rf_inline) : list N :=
  match l with
  | [] => []
  | i :: rest =>
      (match i with
       | RfInLineBreak => if at_line_start then [46; 98; 114; 10] else [10; 46; 98; 114; 10]
       | RfInBold t => [92; 102; 66] ++ rc_inline_text ap t ++ [92; 102; 82]
       | RfInItalic t => [92; 102; 73] ++ rc_inline_text ap t ++ [92; 102; 82]
       | RfInRoman t =>
           let text := rc_inline_text ap t in
           (if at_line_start && rf_starts_with_cc text then [92; 38] else []) ++ text
       end) ++ rc_render_inlines ap false rest
  end.

Definition rc_render_line (ap : rf_apostrophes) (l : rf_line) : list N :=
  match l with
  | RfControl name args => 46 :: name ++ concat (map (fun a => 32 :: rf_escape_spaces a) args) ++ [10]
  | RfText inlines => rc_render_inlines ap true inlines ++ [10]
  end.

Lemma rc_render_inlines_dont : forall l b, rc_render_inlines RfDontHandle b l = rf_render_inlines b l.
Proof. induction l as [|i rest IH]; intros b; [reflexivity|]. cbn [rc_render_inlines rf_render_inlines]. rewrite IH. reflexivity. Qed.

Lemma rc_render_line_dont : forall l, rc_render_line RfDontHandle l = rf_render_line l.
Proof. intros [name args|inlines]; [reflexivity|]. cbn [rc_render_line rf_render_line]. rewrite rc_render_inlines_dont. reflexivity. Qed.

Lemma rc_render_inlines_cons ap b i rest :
  rc_render_inlines ap b (i :: rest) = rc_render_inlines ap b [i] ++ rc_render_inlines ap false rest.
Proof. cbn [rc_render_inlines]. rewrite app_nil_r. reflexivity. Qed.

(* `if handle_apostrophes == Apostrophes::Handle { escape_apostrophes(..) } else { .. }` *)
Lemma rc_handle_if {A} ap (a b : A) :
  (if rf_apostrophes_eqb ap RfHandle then Some a else Some b) = Some (match ap with RfHandle => a | RfDontHandle => b end).
Proof. destruct ap; reflexivity. Qed.

Lemma g_rc_line_render_gen : forall ap l out,
  g_rc_line_render l out ap = Some (out ++ rc_render_line ap l, inl tt).
Proof.
  intros ap l out. unfold g_rc_line_render. cbv beta iota zeta. destruct l as [name args|inlines].
  - (* Control { name, args } *)
    match goal with |- context [for_list ?f _ _] => set (step := f) end.
    assert (L : forall args acc, for_list step args acc = Some (inl (acc ++ concat (map (fun a => 32 :: rf_escape_spaces a) args)))).
    { induction args0 as [|a rest IH]; intros acc.
      - cbn [for_list map concat]. rewrite app_nil_r. reflexivity.
      - cbn [for_list]. unfold step at 1. rewrite IH, g_rc_escape_spaces_eq.
        cbn [map concat]. rewrite <- !app_assoc. reflexivity. }
    rewrite L. cbn [rc_render_line]. rewrite <- !app_assoc. reflexivity.
  - (* Text(inlines): one inline appends its rendering and clears at_line_start *)
    match goal with |- context [for_list ?f _ _] => set (step := f) end.
    assert (S1 : forall i acc b, step i (acc, b) = Some (LNext (acc ++ rc_render_inlines ap b [i], false))).
    { intros i acc b. unfold step. cbn [rc_render_inlines]. rewrite app_nil_r.
      destruct i as [t|t|t|]; cbv beta iota zeta; rewrite ?rc_handle_if; cbv beta iota.
      - change (g_rc_escape_leading_cc _) with (rc_inline_text ap t). rewrite g_rc_starts_with_cc_eq.
        destruct (b && rf_starts_with_cc (rc_inline_text ap t)); [rewrite <- app_assoc|]; reflexivity.
      - reflexivity.
      - reflexivity.
      - destruct b; reflexivity. }
    assert (L : forall l acc b, exists b', for_list step l (acc, b) = Some (inl (acc ++ rc_render_inlines ap b l, b'))).
    { induction l as [|i rest IH]; intros acc b; cbn [for_list].
      - exists b. rewrite app_nil_r. reflexivity.
      - rewrite S1. destruct (IH (acc ++ rc_render_inlines ap b [i]) false) as [b' E]. exists b'.
        rewrite E, (rc_render_inlines_cons ap b i rest), app_assoc. reflexivity. }
    destruct (L inlines out true) as [b' E]. rewrite E. cbn [rc_render_line]. rewrite <- !app_assoc. reflexivity.
Qed.

Lemma g_rc_line_render_eq : forall l out,
  g_rc_line_render l out RfDontHandle = Some (out ++ rf_render_line l, inl tt).
Proof. intros l out. rewrite g_rc_line_render_gen, rc_render_line_dont. reflexivity. Qed.

Definition rc_render_doc (ap : rf_apostrophes) (d : list rf_line) : list N := concat (map (rc_render_line ap) d).

Lemma rc_render_doc_dont : forall d, rc_render_doc RfDontHandle d = rf_render d.
Proof. intros d. unfold rc_render_doc, rf_render. f_equal. apply map_ext. exact rc_render_line_dont. Qed.

(* Roff::to_roff: a fresh Vec<u8>, every line rendered into it without apostrophe handling,
   String::from_utf8(..).expect(..) = the bytes *)
Lemma g_rc_to_roff_eq : forall d, g_rc_to_roff d = Some (rf_render d).
Proof.
  intros d. unfold g_rc_to_roff. cbv beta iota zeta.
  match goal with |- context [for_list0 ?f _ _] => set (step := f) end.
  assert (L : forall l acc, for_list0 step l acc = Some (acc ++ rf_render l)).
  { induction l as [|x rest IH]; intros acc.
    - cbn [for_list0]. unfold rf_render. cbn [map concat]. rewrite app_nil_r. reflexivity.
    - cbn [for_list0]. unfold step at 1. rewrite g_rc_line_render_eq. cbv beta iota zeta. rewrite IH.
      unfold rf_render. cbn [map concat]. rewrite <- !app_assoc. reflexivity. }
  unfold rf_roff_lines. rewrite L. reflexivity.
Qed.

(* Roff::to_writer: the apostrophe preamble, then every line with Apostrophes::Handle; Ok(()) *)
Lemma g_rc_to_writer_eq : forall d w,
  g_rc_to_writer d w = Some (w ++ g_rc_APOSTROPHE_PREABMLE ++ rc_render_doc RfHandle d, inl tt).
Proof.
  intros d w. unfold g_rc_to_writer. cbv beta iota zeta.
  match goal with |- context [for_list ?f _ _] => set (step := f) end.
  assert (L : forall l acc, for_list step l acc = Some (inl (acc ++ rc_render_doc RfHandle l))).
  { induction l as [|x rest IH]; intros acc.
    - cbn [for_list]. unfold rc_render_doc. cbn [map concat]. rewrite app_nil_r. reflexivity.
    - cbn [for_list]. unfold step at 1. rewrite g_rc_line_render_gen. cbv beta iota zeta. rewrite IH.
      unfold rc_render_doc. cbn [map concat]. rewrite <- !app_assoc. reflexivity. }
  unfold rf_roff_lines. rewrite L. cbv beta iota zeta. rewrite <- !app_assoc. reflexivity.
Qed.

(* Roff::render: to_writer into a fresh Vec<u8> *)
Lemma g_rc_render_eq : forall d,
  g_rc_render d = Some (g_rc_APOSTROPHE_PREABMLE ++ rc_render_doc RfHandle d).
Proof. intros d. unfold g_rc_render. cbv beta iota zeta. rewrite g_rc_to_writer_eq. reflexivity. Qed.

(* the preamble: ".ie \n(.g .ds Aq \(aq" / ".el .ds Aq '" (two lines) *)
Lemma g_rc_preamble_eq : g_rc_APOSTROPHE_PREABMLE =
  [46; 105; 101; 32; 92; 110; 40; 46; 103; 32; 46; 100; 115; 32; 65; 113; 32; 92; 40; 97; 113; 10;
   46; 101; 108; 32; 46; 100; 115; 32; 65; 113; 32; 39; 10].
Proof. reflexivity. Qed.

(* anstyle_roff::to_roff(text).to_roff() with BOTH halves translated -- anstyle-roff (Generated/RoffFn.v) and
   the roff crate's renderer (Generated/RoffCrateFn.v) -- is the hand model [rf_to_roff] the theorems of C15 are
   about, for every input, panics (None) included *)
Theorem translated_roffcrate_to_roff_is_model : forall input : list N,
  (ls <- g_to_roff input ;; g_rc_to_roff ls) = rf_to_roff input.
Proof.
  intros input. rewrite g_to_roff_eq. unfold rf_to_roff.
  destruct (rf_doc_lines (rf_categorise input)) as [ls|]; [|reflexivity]. apply g_rc_to_roff_eq.
Qed.

(* the renderer alone, after any document builder that agrees with the hand model *)
Theorem translated_roffcrate_render_is_model : forall ls : list rf_line,
  g_rc_to_roff ls = Some (rf_render ls).
Proof. exact g_rc_to_roff_eq. Qed.
