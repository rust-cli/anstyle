(* The "CSI round trip": printing parameter groups in decimal
   between ESC [ and a final byte and running the specification parser yields
   exactly one ECsi event carrying those groups.  The parser's side of it is
   [csi_read] of Proofs/VtSgrRead.v; here: every byte 40..7E is a final byte, and
   the decimal printers. *)
From Coq Require Import NArith List Bool Lia.
From AV Require Import Spec.Vt Spec.Render Proofs.TableFacts Proofs.VtSgrRead.
Import ListNotations. Local Open Scope N_scope.

Definition digits_val (ds : list N) : N := fold_left (fun v c => 10 * v + (c - 48)) ds 0.
Definition is_digit (c : N) : Prop := 48 <= c <= 57.
Fixpoint csi_join (sep : N) (fs : list (list N)) : list N :=
  match fs with [] => [] | f :: rest => match rest with [] => f | _ => f ++ sep :: csi_join sep rest end end.
(* groups of sub-parameters, each given as a digit string: ':' (58) inside a
   group, ';' (59) between groups *)
Definition print_digit_params (dss : list (list (list N))) : list N := csi_join 59 (map (csi_join 58) dss).

Lemma length_concat_map_map : forall (A B : Type) (h : A -> B) (ps : list (list A)),
  length (concat (map (map h) ps)) = length (concat ps).
Proof.
  intros A B h ps. induction ps as [|g rest IH]; [reflexivity|].
  cbn [map concat]. rewrite !app_length, map_length, IH. reflexivity.
Qed.

Lemma map_nonempty : forall (A B : Type) (h : A -> B) (ps : list (list A)),
  Forall (fun g => g <> []) ps -> Forall (fun g => g <> []) (map (map h) ps).
Proof.
  intros A B h ps HF. apply Forall_map. eapply Forall_impl; [| exact HF].
  intros g Hg E. apply map_eq_nil in E. contradiction.
Qed.

Lemma final_bytes : forall f, 64 <= f <= 126 -> csi_final f.
Proof.
  intros f Hf v Hv. unfold vt_trans, c0.
  rewrite !(proj2 (N.eqb_neq f _)), (in_range_false 0 23), (in_range_false 28 31) by lia.
  destruct Hv as [-> | ->];
    rewrite (in_range_false 32 47), (in_range_false 48 59), (in_range_false 60 63), (in_range_true 64 126) by lia;
    reflexivity.
Qed.

Lemma set_vs_set_vs : forall s v w, set_vs (set_vs s v) w = set_vs s w.
Proof. reflexivity. Qed.

(* [csi_join] is Spec/Render's [rn_join], so [print_digit_params] is its [rn_print_params] and
   [digits_val] its [rn_dec_value], all by conversion *)
Lemma print_digit_params_bytes : forall dss, Forall (Forall (Forall is_digit)) dss ->
  Forall (fun b => 48 <= b <= 59) (print_digit_params dss).
Proof. exact print_params_bytes. Qed.

Theorem csi_roundtrip_digits : forall dss f,
  dss <> [] -> Forall (fun g => g <> []) dss -> Forall (Forall (Forall is_digit)) dss ->
  (length (concat dss) <= 32)%nat -> 64 <= f <= 126 ->
  spec_events ([27; 91] ++ print_digit_params dss ++ [f])
  = [ECsi (map (map (fun ds => N.min 65535 (digits_val ds))) dss) [] false f].
Proof.
  intros dss f Hne Hnes HF Hlen Hf.
  destruct (csi_read dss f vt_init Hne Hnes HF Hlen (final_bytes f Hf) ground_init) as (s' & E & _).
  unfold spec_events. change ([27; 91] ++ print_digit_params dss ++ [f]) with (rn_csi dss f).
  rewrite E. reflexivity.
Qed.

(* decimal without leading zeros, for values up to 65535 (five digits suffice) *)
Fixpoint dec_digits (fuel : nat) (n : N) (acc : list N) : list N :=
  match fuel with
  | O => acc
  | S k => if n <? 10 then (48 + n) :: acc else dec_digits k (n / 10) ((48 + n mod 10) :: acc)
  end.
Definition print_u16 (n : N) : list N := dec_digits 5 n [].

Lemma dec_digits_digits : forall fuel n acc,
  Forall is_digit acc -> Forall is_digit (dec_digits fuel n acc).
Proof.
  induction fuel as [|k IH]; intros n acc Hacc; [exact Hacc|].
  cbn [dec_digits]. destruct (N.ltb_spec n 10) as [Hlt|Hge].
  - constructor; [unfold is_digit; lia | exact Hacc].
  - apply IH. constructor; [| exact Hacc].
    pose proof (N.mod_upper_bound n 10 ltac:(lia)) as Hm. unfold is_digit.
    set (m := n mod 10) in *. clearbody m. lia.
Qed.

Lemma print_u16_digits_all : forall n, Forall is_digit (print_u16 n).
Proof. intros n. apply dec_digits_digits. constructor. Qed.

Lemma print_u16_digits : forall n, n <= 65535 -> Forall is_digit (print_u16 n).
Proof. intros n _. apply print_u16_digits_all. Qed.

Fixpoint pow10 (k : nat) : N := match k with O => 1 | S k => 10 * pow10 k end.

Lemma dec_digits_val : forall fuel n acc, n < pow10 fuel ->
  fold_left (fun v c => 10 * v + (c - 48)) (dec_digits fuel n acc) 0
  = fold_left (fun v c => 10 * v + (c - 48)) acc n.
Proof.
  induction fuel as [|k IH]; intros n acc Hlt.
  - cbn [pow10] in Hlt. cbn [dec_digits]. replace n with 0 by lia. reflexivity.
  - cbn [pow10] in Hlt. cbn [dec_digits]. destruct (N.ltb_spec n 10) as [H10|H10].
    + cbn [fold_left]. f_equal. lia.
    + rewrite (IH (n / 10)).
      * cbn [fold_left]. f_equal.
        pose proof (N.div_mod n 10 ltac:(lia)) as Hdm.
        set (q := n / 10) in *. set (m := n mod 10) in *. clearbody q m. lia.
      * apply N.div_lt_upper_bound; [lia | exact Hlt].
Qed.

Lemma print_u16_val : forall n, n <= 65535 -> digits_val (print_u16 n) = n.
Proof.
  intros n Hn. unfold digits_val, print_u16.
  rewrite (dec_digits_val 5 n []); [reflexivity|]. change (pow10 5) with 100000. lia.
Qed.

Lemma digits_val_zeros : forall z ds, digits_val (repeat 48 z ++ ds) = digits_val ds.
Proof. intros z ds. unfold digits_val. induction z as [|z IH]; [reflexivity | exact IH]. Qed.

Definition print_params (ps : list (list N)) : list N := print_digit_params (map (map print_u16) ps).

(* with leading zeros: zs gives the number of zeros in front of each value *)
Definition print_params_z (ps : list (list (nat * N))) : list N :=
  print_digit_params (map (map (fun zv => repeat 48 (fst zv) ++ print_u16 (snd zv))) ps).

Lemma csi_roundtrip_printed : forall (A : Type) (pr : A -> list N) (value : A -> N) (ps : list (list A)) f,
  ps <> [] -> Forall (fun g => g <> []) ps -> (length (concat ps) <= 32)%nat ->
  Forall (Forall (fun x => Forall is_digit (pr x) /\ N.min 65535 (digits_val (pr x)) = value x)) ps ->
  64 <= f <= 126 ->
  spec_events ([27; 91] ++ print_digit_params (map (map pr) ps) ++ [f]) = [ECsi (map (map value) ps) [] false f].
Proof.
  intros A pr value ps f Hne Hnes Hlen Hpr Hf.
  rewrite csi_roundtrip_digits.
  - rewrite map_map. f_equal. f_equal. apply map_ext_Forall.
    eapply Forall_impl; [| exact Hpr]. intros g Hg. cbn beta. rewrite map_map. apply map_ext_Forall.
    eapply Forall_impl; [| exact Hg]. intros x Hx. apply Hx.
  - intro E. apply map_eq_nil in E. contradiction.
  - apply map_nonempty. exact Hnes.
  - apply Forall_map. eapply Forall_impl; [| exact Hpr]. intros g Hg.
    apply Forall_map. eapply Forall_impl; [| exact Hg]. intros x Hx. apply Hx.
  - rewrite length_concat_map_map. exact Hlen.
  - exact Hf.
Qed.

Theorem csi_roundtrip_zeros : forall ps f,
  ps <> [] -> Forall (fun g => g <> []) ps -> (length (concat ps) <= 32)%nat ->
  Forall (Forall (fun zv => snd zv <= 65535)) ps -> 64 <= f <= 126 ->
  spec_events ([27; 91] ++ print_params_z ps ++ [f]) = [ECsi (map (map snd) ps) [] false f].
Proof.
  intros ps f Hne Hnes Hlen Hv Hf. apply csi_roundtrip_printed; try assumption.
  eapply Forall_impl; [| exact Hv]. intros g Hg.
  eapply Forall_impl; [| exact Hg]. intros [z x] Hx. cbn [fst snd] in *. split.
  - apply Forall_app. split; [| apply print_u16_digits_all].
    apply Forall_forall. intros c Hc. apply repeat_spec in Hc. subst c. unfold is_digit. lia.
  - rewrite digits_val_zeros, (print_u16_val x Hx). lia.
Qed.

Theorem csi_roundtrip : forall ps f,
  ps <> [] -> Forall (fun g => g <> []) ps -> (length (concat ps) <= 32)%nat ->
  Forall (Forall (fun v => v <= 65535)) ps -> 64 <= f <= 126 ->
  spec_events ([27; 91] ++ print_params ps ++ [f]) = [ECsi ps [] false f].
Proof.
  intros ps f Hne Hnes Hlen Hv Hf.
  replace [ECsi ps [] false f] with [ECsi (map (map (fun v : N => v)) ps) [] false f]
    by (rewrite (map_ext _ _ (@map_id N)), map_id; reflexivity).
  apply (csi_roundtrip_printed N print_u16); try assumption.
  eapply Forall_impl; [| exact Hv]. intros g Hg.
  eapply Forall_impl; [| exact Hg]. intros x Hx. cbn beta in *.
  split; [apply print_u16_digits_all | rewrite (print_u16_val x Hx); lia].
Qed.

Example csi_example_1 :
  spec_events [27; 91; 49; 58; 50; 59; 59; 51; 109] = [ECsi [[1; 2]; [0]; [3]] [] false 109].
Proof. vm_compute. reflexivity. Qed.

Example csi_example_2 :
  print_params [[38; 2]; [65535]; [0]] = [51; 56; 58; 50; 59; 54; 53; 53; 51; 53; 59; 48].
Proof. vm_compute. reflexivity. Qed.
