(* The documented limits of the escape-sequence parser, proved on the specification
   Spec/Vt.v for all byte lists: every emitted event respects the limits (32 values,
   2 intermediates, values <= 65535, 1..16 OSC fields, parameter lists and groups
   non-empty); parameter values saturate at 65535, they do not wrap around; the
   "ignored" flag is set exactly when something was discarded. *)
From Coq Require Import NArith List Bool Lia.
From AV Require Import Spec.Utf8 Spec.Vt.
Import ListNotations. Local Open Scope N_scope.
From Coq Require Import PeanoNat.   (* Nat.eqb_spec *)

Definition event_ok (e : event) : Prop :=
  match e with
  | ECsi ps is _ _ | EHook ps is _ _ =>
      (length (concat ps) <= 32)%nat /\ (length is <= 2)%nat /\ Forall (Forall (fun v => v <= 65535)) ps
      /\ ps <> [] /\ Forall (fun g => g <> []) ps
  | EEsc is _ _ => (length is <= 2)%nat
  | EOsc fs _ => (1 <= length fs <= 16)%nat
  | _ => True
  end.

Definition vt_inv (s : vt) : Prop :=
  (count_values s <= 32)%nat /\
  (length (ints s) <= 2)%nat /\
  Forall (Forall (fun v => v <= 65535)) (closed s) /\
  Forall (fun v => v <= 65535) (cur s) /\
  pend s <= 65535 /\
  Forall (fun g : list N => g <> []) (closed s).

Definition params_ok (ps : list (list N)) : Prop :=
  (length (concat ps) <= 32)%nat /\
  Forall (Forall (fun v => v <= 65535)) ps /\
  ps <> [] /\
  Forall (fun g : list N => g <> []) ps.

Lemma vt_inv_init : vt_inv vt_init.
Proof. unfold vt_inv, count_values. cbn. repeat split; auto; lia. Qed.

(* [vt_inv] reads [ints], [closed], [cur] and [pend] only: across an update of any
   other field it is the same proposition up to computation *)

Lemma clear_inv : forall s, vt_inv (clear s).
Proof. intros s. unfold vt_inv, count_values. cbn. repeat split; auto; lia. Qed.

Lemma collect_inv : forall s b, vt_inv s -> vt_inv (collect s b).
Proof.
  intros s b Hinv. unfold collect, max_ints.
  destruct (Nat.eqb_spec (length (ints s)) 2) as [Heq | Hne]; [exact Hinv|].
  destruct Hinv as (Hc & Hi & Hrest).
  refine (conj Hc (conj _ Hrest)). cbn [ints]. rewrite app_length. cbn [length]. lia.
Qed.

Lemma param_inv : forall s b, vt_inv s -> vt_inv (param s b).
Proof.
  intros s b Hinv. unfold param, max_values, max_value.
  destruct (Nat.eqb_spec (count_values s) 32) as [Heq | Hne]; [exact Hinv|].
  destruct Hinv as (Hc & Hi & Hcl & Hcu & Hp & Hne').
  assert (Hg : Forall (fun v => v <= 65535) (cur s ++ [pend s])) by (apply Forall_app; auto).
  destruct (b =? 59); [| destruct (b =? 58)];
    unfold vt_inv, count_values in *; cbn [ints closed cur pend]; repeat split; auto.
  - rewrite concat_app, !app_length. cbn [concat length]. rewrite app_nil_r, app_length.
    cbn [length]. lia.
  - apply Forall_app. auto.
  - lia.
  - apply Forall_app. split; auto. constructor; auto. destruct (cur s); discriminate.
  - rewrite app_length. cbn [length]. lia.
  - lia.
  - apply N.le_min_l.
Qed.

Lemma final_params_ok : forall s, vt_inv s -> params_ok (fst (final_params s)).
Proof.
  intros s (Hc & Hi & Hcl & Hcu & Hp & Hne').
  assert (Hg : Forall (fun v => v <= 65535) (cur s ++ [pend s])) by (apply Forall_app; auto).
  unfold final_params, max_values, params_ok, count_values in *.
  destruct (Nat.eqb_spec (length (concat (closed s)) + length (cur s)) 32) as [Heq | Hne];
    cbn [fst].
  - destruct (cur s) as [| c cs] eqn:Ecur.
    + rewrite app_nil_r. cbn [length] in *.
      repeat split; auto; try lia.
      intros Hnil. rewrite Hnil in Heq. cbn in Heq. lia.
    + repeat split.
      * rewrite concat_app, app_length. cbn [concat]. rewrite app_nil_r. lia.
      * apply Forall_app. auto.
      * intros Hnil. apply app_eq_nil in Hnil. destruct Hnil as [_ Hnil]. discriminate.
      * apply Forall_app. split; auto. constructor; auto. discriminate.
  - repeat split.
    + rewrite concat_app, app_length. cbn [concat]. rewrite app_nil_r, app_length.
      cbn [length]. lia.
    + apply Forall_app. auto.
    + intros Hnil. apply app_eq_nil in Hnil. destruct Hnil as [_ Hnil]. discriminate.
    + apply Forall_app. split; auto. constructor; auto.
      destruct (cur s); discriminate.
Qed.

Lemma split_on_length : forall sep bs acc, (1 <= length (split_on sep acc bs))%nat.
Proof.
  intros sep bs. induction bs as [| b rest IH]; intros acc; cbn [split_on].
  - cbn. lia.
  - destruct (b =? sep).
    + cbn [length]. lia.
    + apply IH.
Qed.

Lemma osc_fields_length : forall p, (1 <= length (osc_fields p) <= 16)%nat.
Proof.
  intros p. unfold osc_fields, max_osc_fields.
  rewrite firstn_length.
  pose proof (split_on_length 59 p []) as H.
  lia.
Qed.

Lemma Forall_one {A} (P : A -> Prop) x : P x -> Forall P [x].
Proof. intros H. constructor; [exact H | constructor]. Qed.

Lemma exit_events_ok : forall s b, Forall event_ok (exit_events s b).
Proof.
  intros s b. unfold exit_events.
  destruct (vs s); try apply Forall_nil; apply Forall_one.
  - exact I.
  - apply osc_fields_length.
Qed.

Lemma report_ok : forall s, vt_inv s ->
  forall b, event_ok (ECsi (fst (final_params s)) (ints s) (snd (final_params s)) b) /\
            event_ok (EHook (fst (final_params s)) (ints s) (snd (final_params s)) b).
Proof.
  intros s Hinv b. destruct (final_params_ok s Hinv) as (H1 & H2 & H3 & H4).
  destruct Hinv as (_ & Hi & _). cbn [event_ok]. auto 10.
Qed.

Lemma do_action_ok : forall s a b,
  vt_inv s -> vt_inv (fst (do_action s a b)) /\ Forall event_ok (snd (do_action s a b)).
Proof.
  intros s a b Hinv.
  destruct a; cbn [do_action fst snd].
  - split; [exact Hinv | constructor].
  - split; [exact Hinv | constructor].
  - split; [exact Hinv | apply Forall_one; exact I].
  - split; [exact Hinv | apply Forall_one; exact I].
  - split; [apply collect_inv; exact Hinv | constructor].
  - split; [apply param_inv; exact Hinv | constructor].
  - split; [exact Hinv | apply Forall_one; apply Hinv].
  - pose proof (proj1 (report_ok s Hinv b)) as He.
    destruct (final_params s). split; [exact Hinv | apply Forall_one; exact He].
  - split; [exact Hinv | apply Forall_one; exact I].
  - split; [exact Hinv | constructor].
  - destruct (utf8_lead b); (split; [exact Hinv | constructor]).
Qed.

Lemma enter_ok : forall s t b,
  vt_inv s -> vt_inv (fst (enter s t b)) /\ Forall event_ok (snd (enter s t b)).
Proof.
  intros s t b Hinv.
  destruct t; cbn [enter fst snd];
    try (split; [first [exact Hinv | apply clear_inv] | constructor]).
  pose proof (proj2 (report_ok s Hinv b)) as He.
  destruct (final_params s). split; [exact Hinv | apply Forall_one; exact He].
Qed.

Lemma vt_step_ok : forall s b,
  vt_inv s -> vt_inv (fst (vt_step s b)) /\ Forall event_ok (snd (vt_step s b)).
Proof.
  intros s b Hinv. unfold vt_step.
  destruct (uni s) as [[u acc] |].
  - destruct (utf8_cont u b); (split; [exact Hinv | try apply Forall_one; constructor]).
  - destruct (vt_trans (vs s) b) as [tgt a].
    destruct tgt as [t |]; [|apply do_action_ok; exact Hinv].
    pose proof (do_action_ok s a b Hinv) as [Hs1 He1].
    destruct (do_action s a b) as [s1 ev_act]. cbn [fst snd] in *.
    pose proof (enter_ok s1 t b Hs1) as [Hs2 He2].
    destruct (enter s1 t b) as [s2 ev_entry]. cbn [fst snd] in *.
    split; [exact Hs2|].
    apply Forall_app. split; [apply exit_events_ok | apply Forall_app; auto].
Qed.

Lemma limits_run : forall s bs,
  vt_inv s -> Forall event_ok (snd (vt_run s bs)) /\ vt_inv (fst (vt_run s bs)).
Proof.
  intros s bs. revert s.
  induction bs as [| b rest IH]; intros s Hinv; cbn [vt_run].
  - cbn [fst snd]. split; auto.
  - pose proof (vt_step_ok s b Hinv) as [Hs1 He1].
    destruct (vt_step s b) as [s1 e1]. cbn [fst snd] in *.
    pose proof (IH s1 Hs1) as [He2 Hs2].
    destruct (vt_run s1 rest) as [s2 e2]. cbn [fst snd] in *.
    split; auto.
    apply Forall_app. split; auto.
Qed.

Lemma spec_limits : forall bs, Forall event_ok (spec_events bs).
Proof.
  intros bs. unfold spec_events.
  apply limits_run. apply vt_inv_init.
Qed.

Definition dec_value (ds : list N) : N := fold_left (fun v c => 10 * v + (c - 48)) ds 0.

Lemma param_digit : forall s b,
  (count_values s < 32)%nat -> b <> 59 -> b <> 58 ->
  param s b = mkVt (vs s) (ints s) (ign s) (closed s) (cur s)
                   (N.min 65535 (10 * pend s + (b - 48))) (osc s) (uni s).
Proof.
  intros s b Hc H59 H58. unfold param, max_values, max_value.
  destruct (Nat.eqb_spec (count_values s) 32) as [Heq | Hne]; [lia |].
  destruct (N.eqb_spec b 59) as [E | _]; [contradiction |].
  destruct (N.eqb_spec b 58) as [E | _]; [contradiction |].
  reflexivity.
Qed.

(* clamping an intermediate result does not change the clamped final result *)
Lemma sat_fold_congr : forall ds a b,
  a = b \/ (65535 <= a /\ 65535 <= b) ->
  N.min 65535 (fold_left (fun v c => 10 * v + (c - 48)) ds a) =
  N.min 65535 (fold_left (fun v c => 10 * v + (c - 48)) ds b).
Proof.
  induction ds as [| d ds IH]; intros a b Hab; cbn [fold_left].
  - destruct Hab as [-> | [Ha Hb]]; [reflexivity |].
    rewrite !N.min_l; auto.
  - apply IH. destruct Hab as [-> | [Ha Hb]]; [left; reflexivity |].
    right. split; lia.
Qed.

Lemma sat_fold_min : forall ds v,
  N.min 65535 (fold_left (fun v c => 10 * v + (c - 48)) ds (N.min 65535 v)) =
  N.min 65535 (fold_left (fun v c => 10 * v + (c - 48)) ds v).
Proof.
  intros ds v. apply sat_fold_congr.
  destruct (N.le_gt_cases v 65535) as [Hle | Hgt].
  - left. apply N.min_r; auto.
  - right. rewrite N.min_l; lia.
Qed.

(* with no digits ([ds = []]) the pending value is left as it is, so the general
   statement needs [pend s <= 65535] (true in every reachable state, see
   [vt_inv]); [param_digits_saturate_cons] below drops it for [ds <> []] *)
Lemma param_digits_saturate : forall ds s,
  (count_values s < 32)%nat -> pend s <= 65535 -> Forall (fun d => 48 <= d <= 57) ds ->
  fold_left param ds s =
  mkVt (vs s) (ints s) (ign s) (closed s) (cur s)
       (N.min 65535 (fold_left (fun v c => 10 * v + (c - 48)) ds (pend s))) (osc s) (uni s).
Proof.
  induction ds as [| d ds IH]; intros s Hc Hp Hds.
  - cbn [fold_left]. rewrite N.min_r by exact Hp. destruct s; reflexivity.
  - cbn [fold_left].
    inversion Hds as [| d' ds' Hd Hds' ]; subst.
    rewrite (param_digit s d Hc) by lia.
    rewrite IH; cbn [vs ints ign closed cur pend osc uni]; auto.
    + rewrite sat_fold_min. reflexivity.
    + apply N.le_min_l.
Qed.

Lemma param_digits_saturate_cons : forall d ds s,
  (count_values s < 32)%nat -> Forall (fun d => 48 <= d <= 57) (d :: ds) ->
  fold_left param (d :: ds) s =
  mkVt (vs s) (ints s) (ign s) (closed s) (cur s)
       (N.min 65535 (fold_left (fun v c => 10 * v + (c - 48)) (d :: ds) (pend s))) (osc s) (uni s).
Proof.
  intros d ds s Hc Hds. cbn [fold_left].
  inversion Hds as [| d' ds' Hd Hds' ]; subst.
  rewrite (param_digit s d Hc) by lia.
  rewrite param_digits_saturate; cbn [vs ints ign closed cur pend osc uni]; auto.
  - rewrite sat_fold_min. reflexivity.
  - apply N.le_min_l.
Qed.

Corollary param_digits_value : forall ds s,
  (count_values s < 32)%nat -> pend s = 0 -> Forall (fun d => 48 <= d <= 57) ds ->
  pend (fold_left param ds s) = N.min 65535 (dec_value ds).
Proof.
  intros ds s Hc Hp Hds.
  rewrite param_digits_saturate; auto.
  - cbn [pend]. rewrite Hp. reflexivity.
  - rewrite Hp. lia.
Qed.

Lemma collect_flag : forall s b, ign (collect s b) = ign s || Nat.eqb (length (ints s)) 2.
Proof.
  intros s b. unfold collect, max_ints.
  destruct (Nat.eqb (length (ints s)) 2); cbn [ign].
  - rewrite orb_true_r. reflexivity.
  - rewrite orb_false_r. reflexivity.
Qed.

Lemma collect_discards : forall s b,
  ints (collect s b) = if Nat.eqb (length (ints s)) 2 then ints s else ints s ++ [b].
Proof.
  intros s b. unfold collect, max_ints.
  destruct (Nat.eqb (length (ints s)) 2); reflexivity.
Qed.

Lemma param_flag : forall s b, ign (param s b) = ign s || Nat.eqb (count_values s) 32.
Proof.
  intros s b. unfold param, max_values.
  destruct (Nat.eqb (count_values s) 32).
  - cbn [ign]. rewrite orb_true_r. reflexivity.
  - rewrite orb_false_r.
    destruct (b =? 59); [reflexivity |].
    destruct (b =? 58); reflexivity.
Qed.

Lemma param_discards : forall s b,
  Nat.eqb (count_values s) 32 = true ->
  closed (param s b) = closed s /\ cur (param s b) = cur s /\ pend (param s b) = pend s.
Proof.
  intros s b H. unfold param, max_values. rewrite H.
  repeat split.
Qed.

Lemma final_params_flag : forall s, snd (final_params s) = ign s || Nat.eqb (count_values s) 32.
Proof.
  intros s. unfold final_params, max_values.
  destruct (Nat.eqb (count_values s) 32); cbn [snd].
  - rewrite orb_true_r. reflexivity.
  - rewrite orb_false_r. reflexivity.
Qed.

Lemma do_action_flag : forall s a b,
  a <> TCollect -> a <> TParam -> ign (fst (do_action s a b)) = ign s.
Proof.
  intros s a b Hc Hp.
  destruct a; try congruence; cbn [do_action fst]; try reflexivity.
  - destruct (final_params s); reflexivity.
  - destruct (utf8_lead b); reflexivity.
Qed.

Lemma enter_flag : forall s t b,
  ign (fst (enter s t b)) =
  match t with VEscape | VCsiEntry | VDcsEntry => false | _ => ign s end.
Proof.
  intros s t b.
  destruct t; cbn [enter]; try reflexivity.
  destruct (final_params s); reflexivity.
Qed.

Theorem limits_all :
  (forall bs, Forall event_ok (spec_events bs)) /\
  (forall s b, (count_values s < 32)%nat -> b <> 59 -> b <> 58 ->
     param s b = mkVt (vs s) (ints s) (ign s) (closed s) (cur s)
                      (N.min 65535 (10 * pend s + (b - 48))) (osc s) (uni s)) /\
  (forall ds s, (count_values s < 32)%nat -> pend s <= 65535 ->
     Forall (fun d => 48 <= d <= 57) ds ->
     fold_left param ds s =
     mkVt (vs s) (ints s) (ign s) (closed s) (cur s)
          (N.min 65535 (fold_left (fun v c => 10 * v + (c - 48)) ds (pend s))) (osc s) (uni s)) /\
  (forall ds s, (count_values s < 32)%nat -> pend s = 0 ->
     Forall (fun d => 48 <= d <= 57) ds ->
     pend (fold_left param ds s) = N.min 65535 (dec_value ds)) /\
  (forall s b, ign (collect s b) = ign s || Nat.eqb (length (ints s)) 2) /\
  (forall s b, ints (collect s b) =
     if Nat.eqb (length (ints s)) 2 then ints s else ints s ++ [b]) /\
  (forall s b, ign (param s b) = ign s || Nat.eqb (count_values s) 32) /\
  (forall s b, Nat.eqb (count_values s) 32 = true ->
     closed (param s b) = closed s /\ cur (param s b) = cur s /\ pend (param s b) = pend s) /\
  (forall s, snd (final_params s) = ign s || Nat.eqb (count_values s) 32) /\
  (forall s a b, a <> TCollect -> a <> TParam -> ign (fst (do_action s a b)) = ign s) /\
  (forall s t b, ign (fst (enter s t b)) =
     match t with VEscape | VCsiEntry | VDcsEntry => false | _ => ign s end).
Proof.
  split; [exact spec_limits |].
  split; [exact param_digit |].
  split; [exact param_digits_saturate |].
  split; [exact param_digits_value |].
  split; [exact collect_flag |].
  split; [exact collect_discards |].
  split; [exact param_flag |].
  split; [exact param_discards |].
  split; [exact final_params_flag |].
  split; [exact do_action_flag |].
  exact enter_flag.
Qed.
