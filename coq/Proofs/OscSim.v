(* Proofs/OscSim.v -- the OSC bookkeeping of lib.rs (`osc_raw`, 16 (start,end)
   pairs, `osc_num_params`) against the abstract payload of Spec/Vt: the recorded
   ranges always lie inside `osc_raw`, and the dispatched slices are the first 16
   fields of the payload split at ';'. *)
From Coq Require Import NArith List Bool Lia Arith.
From AV Require Import Generated.Table Spec.Vt Model.Base Model.Parser Proofs.BaseFacts Proofs.ParamsSim.
Import ListNotations.
Local Open Scope N_scope.

(* [split_on 59] read left to right: (fields already closed, field being built) *)
Definition osc_step (st : list (list N) * list N) (b : N) : list (list N) * list N :=
  if b =? 59 then (fst st ++ [snd st], []) else (fst st, snd st ++ [b]).

Definition osc_split (payload : list N) : list (list N) * list N :=
  fold_left osc_step payload ([], []).

Lemma split_on_fold : forall bs d acc,
  d ++ split_on 59 acc bs = fst (fold_left osc_step bs (d, acc)) ++ [snd (fold_left osc_step bs (d, acc))].
Proof.
  induction bs as [|b bs IH]; intros d acc; cbn [split_on fold_left]; [reflexivity|].
  unfold osc_step at 2 4. cbn [fst snd]. destruct (b =? 59).
  - rewrite <- IH, <- app_assoc. reflexivity.
  - apply IH.
Qed.

Lemma osc_fields_split : forall payload,
  osc_fields payload = firstn 16 (fst (osc_split payload) ++ [snd (osc_split payload)]).
Proof.
  intros payload. unfold osc_fields, osc_split. rewrite <- split_on_fold. reflexivity.
Qed.

Lemma osc_split_snoc : forall payload b, osc_split (payload ++ [b]) = osc_step (osc_split payload) b.
Proof. intros. unfold osc_split. rewrite fold_left_app. reflexivity. Qed.

(* lib.rs does not push ';' into `osc_raw`, so osc_raw = the closed fields end to
   end ++ the open field, and recorded range i is [length of the first i closed
   fields, length of the first i+1); `osc_num_params` stops at 16 while the fields
   keep counting *)
Record osc_ok (p : parser) (payload : list N) : Prop := {
  oo_len : length (osc_params p) = 16%nat;
  oo_num : osc_num_params p = N.of_nat (Nat.min (length (fst (osc_split payload))) 16);
  oo_raw : osc_raw p = concat (fst (osc_split payload)) ++ snd (osc_split payload);
  oo_par : forall i, (i < Nat.min (length (fst (osc_split payload))) 16)%nat ->
           nth_error (osc_params p) i =
           Some (N.of_nat (length (concat (firstn i (fst (osc_split payload))))),
                 N.of_nat (length (concat (firstn (S i) (fst (osc_split payload))))))
}.

(* entry action of OscString *)
Lemma osc_start_ok : forall p, length (osc_params p) = 16%nat ->
  osc_ok (set_osc p [] (osc_params p) 0) [].
Proof.
  intros p H. constructor; cbn; auto. intros i Hi. lia.
Qed.

Lemma osc_put_other_ok : forall p payload b, osc_ok p payload -> b <> 59 ->
  osc_ok (set_osc p (osc_raw p ++ [b]) (osc_params p) (osc_num_params p)) (payload ++ [b]).
Proof.
  intros p payload b [Hl Hn Hr Hp] Hb.
  assert (E : osc_split (payload ++ [b]) = (fst (osc_split payload), snd (osc_split payload) ++ [b])).
  { rewrite osc_split_snoc. unfold osc_step. apply N.eqb_neq in Hb. now rewrite Hb. }
  constructor; rewrite ?E; cbn [fst snd osc_params osc_num_params osc_raw set_osc]; auto.
  rewrite Hr, app_assoc. reflexivity.
Qed.

(* recording a ';' (also what OscEnd does before dispatching): the code shared by
   the two places in lib.rs *)
Definition osc_semi (p : parser) : option parser :=
  let param_idx := osc_num_params p in
  let idx := N.of_nat (length (osc_raw p)) in
  if param_idx =? MAX_OSC_PARAMS then Some p
  else if param_idx =? 0 then
    ops <- aset (osc_params p) param_idx (0, idx) ;;
    Some (set_osc p (osc_raw p) ops (param_idx + 1))
  else
    pi <- csub param_idx 1 ;;
    '(_, begin) <- aget (osc_params p) pi ;;
    ops <- aset (osc_params p) param_idx (begin, idx) ;;
    Some (set_osc p (osc_raw p) ops (param_idx + 1)).

Lemma firstn_snoc_le : forall A (l : list A) x i, (i <= length l)%nat -> firstn i (l ++ [x]) = firstn i l.
Proof.
  intros A l x i Hi. rewrite firstn_app. replace (i - length l)%nat with 0%nat by lia.
  cbn [firstn]. apply app_nil_r.
Qed.

Lemma osc_semi_ok : forall p payload, osc_ok p payload ->
  exists ops n, osc_semi p = Some (set_osc p (osc_raw p) ops n)
                /\ osc_ok (set_osc p (osc_raw p) ops n) (payload ++ [59]).
Proof.
  intros p payload [Hl Hn Hr Hp].
  assert (E : osc_split (payload ++ [59]) = (fst (osc_split payload) ++ [snd (osc_split payload)], [])).
  { rewrite osc_split_snoc. reflexivity. }
  set (d := fst (osc_split payload)) in *. set (c := snd (osc_split payload)) in *.
  unfold osc_semi. change MAX_OSC_PARAMS with 16.
  destruct (N.eqb_spec (osc_num_params p) 16) as [H16|H16].
  - (* table full: nothing recorded *)
    exists (osc_params p), (osc_num_params p).
    replace (set_osc p (osc_raw p) (osc_params p) (osc_num_params p)) with p by (destruct p; reflexivity).
    split; [reflexivity|].
    assert (Hd : (16 <= length d)%nat) by lia.
    constructor; rewrite ?E; cbn [fst snd]; auto.
    + rewrite Hn, app_length. cbn [length]. f_equal. lia.
    + rewrite Hr, concat_app. cbn [concat]. now rewrite !app_nil_r.
    + intros i Hi. rewrite app_length in Hi. cbn [length] in Hi.
      rewrite !firstn_snoc_le by lia. apply Hp. lia.
  - assert (Hd : (length d < 16)%nat) by lia.
    assert (Hnum : osc_num_params p = N.of_nat (length d)) by (rewrite Hn; f_equal; lia).
    destruct (aset_nat_some (osc_params p) (length d)
                (N.of_nat (length (concat d)), N.of_nat (length (osc_raw p)))) as [ops Hops]; [lia|].
    exists ops, (osc_num_params p + 1).
    assert (Hres : osc_ok (set_osc p (osc_raw p) ops (osc_num_params p + 1)) (payload ++ [59])).
    { constructor; rewrite ?E; cbn [fst snd osc_params osc_num_params osc_raw set_osc].
      - rewrite (aset_nat_length _ _ _ _ Hops). exact Hl.
      - rewrite Hnum, app_length. cbn [length]. lia.
      - rewrite Hr, concat_app. cbn [concat]. now rewrite !app_nil_r.
      - intros i Hi. rewrite app_length in Hi. cbn [length] in Hi.
        destruct (Nat.eq_dec i (length d)) as [->|Hne].
        + rewrite (aset_nat_nth_eq _ _ _ _ Hops).
          rewrite firstn_snoc_le by lia. rewrite firstn_all.
          rewrite firstn_all2 by (rewrite app_length; cbn [length]; lia).
          rewrite Hr, concat_app. cbn [concat]. rewrite app_nil_r. reflexivity.
        + rewrite (aset_nat_nth_neq _ _ _ _ i Hops Hne).
          rewrite !firstn_snoc_le by lia. apply Hp. lia. }
    split; [|exact Hres].
    destruct (N.eqb_spec (osc_num_params p) 0) as [H0|H0].
    + assert (Hd0 : length d = 0%nat) by lia.
      destruct d as [|? ?]; [|discriminate]. cbn [concat length N.of_nat] in Hops.
      unfold aset. rewrite H0. cbn [N.to_nat]. cbn [length] in Hops. rewrite Hops. reflexivity.
    + unfold csub. destruct (N.leb_spec 1 (osc_num_params p)); [|lia].
      unfold aget. replace (N.to_nat (osc_num_params p - 1)) with (length d - 1)%nat by lia.
      rewrite Hp by lia. replace (S (length d - 1)) with (length d) by lia. rewrite firstn_all.
      unfold aset. rewrite Hnum, Nat2N.id, Hops. reflexivity.
Qed.

Lemma nth_error_split_firstn : forall (A : Type) (l : list A) i x,
  nth_error l i = Some x -> firstn (S i) l = firstn i l ++ [x] /\ l = firstn i l ++ x :: skipn (S i) l.
Proof.
  induction l as [|h t IH]; intros i x H; destruct i as [|i]; cbn [nth_error] in H; try discriminate.
  - injection H as ->. split; reflexivity.
  - destruct (IH _ _ H) as [E1 E2]. split.
    + change (firstn (S (S i)) (h :: t)) with (h :: firstn (S i) t). rewrite E1. reflexivity.
    + cbn [firstn skipn app]. f_equal. exact E2.
Qed.

Lemma slice_field : forall (d : list (list N)) c i g,
  nth_error d i = Some g ->
  slice (concat d ++ c) (N.of_nat (length (concat (firstn i d))))
        (N.of_nat (length (concat (firstn (S i) d)))) = Some g.
Proof.
  intros d c i g H. destruct (nth_error_split_firstn _ _ _ _ H) as [E1 E2].
  rewrite E1. rewrite concat_app, app_length. cbn [concat]. rewrite app_nil_r.
  rewrite E2 at 1. rewrite concat_app. cbn [concat]. rewrite <- !app_assoc, Nat2N.inj_add.
  apply slice_mid.
Qed.

Lemma osc_slices_spec : forall fs fuel p i,
  (length fs <= fuel)%nat ->
  osc_num_params p = i + N.of_nat (length fs) ->
  (forall k f, nth_error fs k = Some f ->
     exists a b, aget (osc_params p) (i + N.of_nat k) = Some (a, b) /\ slice (osc_raw p) a b = Some f) ->
  osc_slices fuel p i = Some fs.
Proof.
  induction fs as [|f0 fs IH]; intros fuel p i Hf Hn Hk.
  - cbn [length] in Hn. destruct fuel; cbn [osc_slices]; [reflexivity|].
    destruct (N.leb_spec (osc_num_params p) i); [reflexivity | lia].
  - cbn [length] in Hf, Hn. destruct fuel as [|fuel]; [lia|]. cbn [osc_slices].
    destruct (N.leb_spec (osc_num_params p) i); [lia|].
    destruct (Hk 0%nat f0 eq_refl) as (a & b & Ha & Hs). cbn [N.of_nat] in Ha. rewrite N.add_0_r in Ha.
    rewrite Ha, Hs. rewrite (IH fuel p (i + 1)); [reflexivity | lia | lia |].
    intros k f Hkf. destruct (Hk (S k) f Hkf) as (a' & b' & Ha' & Hs').
    exists a', b'. split; [|exact Hs'].
    replace (i + 1 + N.of_nat k) with (i + N.of_nat (S k)) by lia. exact Ha'.
Qed.

Lemma osc_dispatch_ok : forall p payload b, osc_ok p payload ->
  osc_dispatch p b = Some [EOsc (firstn 16 (fst (osc_split payload))) (b =? 7)].
Proof.
  intros p payload b [Hl Hn Hr Hp]. set (d := fst (osc_split payload)) in *.
  unfold osc_dispatch. change MAX_OSC_PARAMS with 16.
  destruct (N.ltb_spec 16 (osc_num_params p)); [lia|].
  change (N.to_nat 16) with 16%nat.
  rewrite (osc_slices_spec (firstn 16 d) 16 p 0); [reflexivity | | | ].
  - rewrite firstn_length. lia.
  - rewrite Hn, firstn_length. lia.
  - intros k f Hk.
    assert (Hlt : (k < Nat.min (length d) 16)%nat).
    { assert (Hk' : (k < length (firstn 16 d))%nat) by (apply nth_error_Some; rewrite Hk; discriminate).
      rewrite firstn_length in Hk'. lia. }
    assert (Hd : nth_error d k = Some f).
    { rewrite <- Hk. symmetry. rewrite <- (firstn_skipn 16 d) at 2.
      rewrite nth_error_app1; [reflexivity|]. rewrite firstn_length. lia. }
    eexists _, _. split.
    + unfold aget. cbn [N.add]. rewrite Nat2N.id. apply Hp. exact Hlt.
    + rewrite Hr. apply slice_field. exact Hd.
Qed.

(* exit action of OscString: record the open field, then dispatch *)
Lemma osc_end_ok : forall p payload b, osc_ok p payload ->
  exists ops n, osc_semi p = Some (set_osc p (osc_raw p) ops n)
    /\ length ops = 16%nat
    /\ osc_dispatch (set_osc p (osc_raw p) ops n) b = Some [EOsc (osc_fields payload) (b =? 7)].
Proof.
  intros p payload b H. destruct (osc_semi_ok p payload H) as (ops & n & Hs & Hok).
  exists ops, n. split; [exact Hs|]. split; [exact (oo_len _ _ Hok)|].
  rewrite (osc_dispatch_ok _ _ b Hok), osc_fields_split, osc_split_snoc. reflexivity.
Qed.
