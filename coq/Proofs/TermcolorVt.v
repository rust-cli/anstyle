(* Decimal digits as termcolor prints them, read back as their value, for the rendering theorems of C16
   (Proofs/TermcolorFnGen.v).  How Spec/Vt + Spec/Sgr read a rendering "sequences, text,
   reset" is Proofs/VtSgrRead.v and Proofs/SgrRender.v.  Over Spec/ and those two files only. *)
From Coq Require Import NArith Arith List Bool Lia.
From AV Require Import Spec.Vt Spec.Sgr Spec.Render Proofs.VtSgrRead.
From AV Require Export Proofs.SgrRender.
Import ListNotations.
Local Open Scope N_scope.

Definition rn_is_sgr (p : list N) (g : list (list N)) : Prop :=
  exists pr, rn_csi_ok pr = true /\ p = rn_csi pr 109 /\ rn_param_values pr = g.

(* the decimal digits of a number below 1000 without leading zeros (what termcolor's
   write_var_ansi_code stores: the hundreds digit when it is not 0, the tens digit when it is not
   0 or the hundreds digit was printed, the units digit always) *)
Definition tcv_digits (n : N) : list N :=
  (if (n / 100) mod 10 =? 0 then [] else [48 + (n / 100) mod 10])
  ++ (if negb ((n / 10) mod 10 =? 0) || negb ((n / 100) mod 10 =? 0) then [48 + (n / 10) mod 10] else [])
  ++ [48 + n mod 10].

Lemma tcv_digits_spec n : n < 1000 ->
  forallb rn_is_digit (tcv_digits n) = true /\ rn_dec_value (tcv_digits n) = n /\
  (1 <= length (tcv_digits n) <= 3)%nat.
Proof.
  intros Hn. unfold tcv_digits.
  (* n = 100 c1 + 10 c2 + c3 with three decimal digits; nothing else is needed of them *)
  assert (H1 : n / 100 < 10) by (apply N.div_lt_upper_bound; lia). rewrite (N.mod_small _ _ H1).
  pose proof (dec3 n) as D. pose proof (N.mod_lt (n / 10) 10) as H2. pose proof (N.mod_lt n 10) as H3.
  revert D H1 H2 H3. generalize (n / 100) ((n / 10) mod 10) (n mod 10). intros c1 c2 c3 D H1 H2 H3.
  unfold rn_dec_value, rn_dec_from, rn_is_digit.
  destruct (N.eqb_spec c1 0); destruct (N.eqb_spec c2 0); cbn [negb orb app forallb fold_left length];
    rewrite ?andb_true_iff, ?N.leb_le; lia.
Qed.

Lemma tcv_digits_ok n : n < 256 -> rn_digits_ok (tcv_digits n) = true.
Proof.
  intros H. destruct (tcv_digits_spec n ltac:(lia)) as (A & B & _).
  apply (dec_of_digits_ok _ n (conj A B)). lia.
Qed.

Lemma tcv_value n : n < 256 -> rn_dec_value (tcv_digits n) = n.
Proof. intros H. now destruct (tcv_digits_spec n ltac:(lia)) as (_ & E & _). Qed.
