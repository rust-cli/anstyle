(* Proofs/ParserCor.v -- what the refinement theorem transports from the
   specification to the model of Parser::advance: the limits, the cancel property
   and the CSI round trip, stated on [events_model]; and [flag_exact], the flag
   lemmas of Proofs/VtLimits.v on the specification collected in one statement. *)
From Coq Require Import NArith List Bool Lia.
From AV Require Import Generated.Table Spec.Utf8 Spec.Vt Model.Base Model.Parser
  Proofs.ParserSim Proofs.VtLimits Proofs.VtCancel Proofs.VtCsi.
Import ListNotations.
Local Open Scope N_scope.

Definition bytes_ok (bs : list N) : Prop := Forall (fun b => b < 256) bs.

Lemma model_limits : forall bs, bytes_ok bs ->
  exists evs, events_model bs = Some evs /\ Forall event_ok evs.
Proof.
  intros bs Hbs. exists (spec_events bs). split; [apply parser_refines_spec, Hbs | apply spec_limits].
Qed.

(* after CAN / SUB the model parses the rest of the stream as a fresh parser would *)
Lemma model_cancel : forall prefix rest c, (c = 24 \/ c = 26) -> bytes_ok prefix -> bytes_ok rest ->
  exists e1 e2, events_model (prefix ++ [c]) = Some e1 /\ events_model rest = Some e2 /\
                events_model (prefix ++ [c] ++ rest) = Some (e1 ++ e2).
Proof.
  intros prefix rest c Hc Hp Hr.
  assert (Hc256 : c < 256) by (destruct Hc; subst; reflexivity).
  assert (H1 : bytes_ok (prefix ++ [c])).
  { apply Forall_app. split; [exact Hp | constructor; [exact Hc256 | constructor]]. }
  assert (H2 : bytes_ok (prefix ++ [c] ++ rest)).
  { rewrite app_assoc. apply Forall_app. split; assumption. }
  exists (spec_events (prefix ++ [c])), (spec_events rest).
  split; [apply parser_refines_spec, H1|]. split; [apply parser_refines_spec, Hr|].
  rewrite (parser_refines_spec _ H2). f_equal. apply cancel_splits_stream; assumption.
Qed.

Lemma print_params_bytes : forall ps, Forall (fun b => 48 <= b <= 59) (print_params ps).
Proof.
  intros ps. unfold print_params. apply print_digit_params_bytes.
  apply Forall_map. apply Forall_forall. intros g _.
  apply Forall_map. apply Forall_forall. intros v _. apply print_u16_digits_all.
Qed.

Lemma model_csi_roundtrip : forall ps f,
  ps <> [] -> Forall (fun g => g <> []) ps -> (length (concat ps) <= 32)%nat ->
  Forall (Forall (fun v => v <= 65535)) ps -> 64 <= f <= 126 ->
  events_model ([27; 91] ++ print_params ps ++ [f]) = Some [ECsi ps [] false f].
Proof.
  intros ps f H1 H2 H3 H4 Hf.
  rewrite parser_refines_spec.
  - f_equal. apply csi_roundtrip; assumption.
  - repeat constructor. apply Forall_app. split.
    + eapply Forall_impl; [|apply print_params_bytes]. intros b Hb. cbn beta in Hb. lia.
    + constructor; [lia | constructor].
Qed.

(* the flag is set exactly when something is discarded *)
Lemma flag_exact :
  (forall s b, ign (collect s b) = ign s || Nat.eqb (length (ints s)) 2) /\
  (forall s b, ints (collect s b) = if Nat.eqb (length (ints s)) 2 then ints s else ints s ++ [b]) /\
  (forall s b, ign (param s b) = ign s || Nat.eqb (count_values s) 32) /\
  (forall s b, Nat.eqb (count_values s) 32 = true ->
     closed (param s b) = closed s /\ cur (param s b) = cur s /\ pend (param s b) = pend s) /\
  (forall s, snd (final_params s) = ign s || Nat.eqb (count_values s) 32) /\
  (forall s a b, a <> TCollect -> a <> TParam -> ign (fst (do_action s a b)) = ign s) /\
  (forall s t b, ign (fst (enter s t b)) =
     match t with VEscape | VCsiEntry | VDcsEntry => false | _ => ign s end).
Proof.
  exact (conj collect_flag (conj collect_discards (conj param_flag (conj param_discards
        (conj final_params_flag (conj do_action_flag enter_flag)))))).
Qed.
