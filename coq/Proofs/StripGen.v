(* The functions TRANSLATED from crates/anstream/src/adapter/strip.rs
   (Generated/StripFn.v, written by tools/gen_fn_strip.py on every run) are extensionally
   equal to the hand model Model/Strip.v that the theorems of C01 / C03 are about.  A change
   to the Rust functions changes the translation; if it changes their meaning, one of these
   proofs fails. *)
From Coq Require Import NArith List Bool Lia.
From AV Require Import Generated.Table Spec.Utf8 Spec.Strip Model.Base Model.Utf8parse Model.Parser
  Model.Imp Model.Strip Generated.StripFn Proofs.BaseFacts Proofs.StripMachine Proofs.StripSim Proofs.StripStr.
Import ListNotations.
Local Open Scope N_scope.

(* `iter().position(closure)` followed by `split_at(offset.unwrap_or(len))`, read structurally: run the closure
   over the list until it answers true; the final closure state, the elements before the stop and the rest
   (starting at the element the closure stopped at) *)
Fixpoint scan {A S : Type} (f : A -> S -> option (S * bool)) (l : list A) (s : S) : option (S * list A * list A) :=
  match l with
  | [] => Some (s, [], [])
  | x :: t =>
      match f x s with
      | None => None
      | Some (s', true) => Some (s', [], l)
      | Some (s', false) =>
          match scan f t s' with
          | Some (s'', a, b) => Some (s'', x :: a, b)
          | None => None
          end
      end
  end.

Definition found {A} (i : N) (a b : list A) : option N :=
  match b with [] => None | _ :: _ => Some (i + len a) end.

Lemma position_scan {A S} (f : A -> S -> option (S * bool)) l : forall s i,
  position_st f l s i =
  match scan f l s with None => None | Some (s', a, b) => Some (s', found i a b) end.
Proof.
  induction l as [|x t IH]; intros s i; cbn [position_st scan].
  - reflexivity.
  - destruct (f x s) as [[s' [|]]|]; try reflexivity.
    + unfold found, len. cbn [length N.of_nat]. rewrite N.add_0_r. reflexivity.
    + rewrite IH. destruct (scan f t s') as [[[s'' a] b]|]; try reflexivity.
      unfold found. destruct b; try reflexivity.
      unfold len. cbn [length]. do 3 f_equal. lia.
Qed.

Lemma scan_split {A S} (f : A -> S -> option (S * bool)) l : forall s s' a b,
  scan f l s = Some (s', a, b) -> l = a ++ b.
Proof.
  induction l as [|x t IH]; intros s s' a b; cbn [scan].
  - intros E. injection E as _ <- <-. reflexivity.
  - destruct (f x s) as [[s1 [|]]|]; try discriminate.
    + intros E. injection E as _ <- <-. reflexivity.
    + destruct (scan f t s1) as [[[s2 a1] b1]|] eqn:E1; try discriminate.
      intros E. injection E as _ <- <-. cbn. f_equal. exact (IH _ _ _ _ E1).
Qed.

Lemma scan_ext {A S} (f g : A -> S -> option (S * bool)) :
  (forall x s, f x s = g x s) -> forall l s, scan f l s = scan g l s.
Proof.
  intros H l. induction l as [|x t IH]; intros s; cbn [scan]; [reflexivity|].
  rewrite H. destruct (g x s) as [[s' [|]]|]; try reflexivity. rewrite IH. reflexivity.
Qed.

(* the same cut, however the source spells it: `split_at(n)`, `&s[n..]`, `&s[..n]`, `&s[n..s.len()]` with
   n = `offset.unwrap_or(s.len())` *)
Lemma found_idx {A} (a b : list A) : opt_unwrap_or (found 0 a b) (len (a ++ b)) = len a.
Proof.
  unfold found. destruct b as [|y b]; cbn [opt_unwrap_or]; [now rewrite app_nil_r|apply N.add_0_l].
Qed.

Lemma split_at_len_app {A} (a b : list A) : split_at (a ++ b) (len a) = Some (a, b).
Proof.
  unfold split_at. fold (len (a ++ b)). rewrite (proj2 (N.leb_le _ _)) by (rewrite len_app; lia).
  now rewrite firstn_len_app, skipn_len_app.
Qed.

Lemma split_found {A} (a b : list A) :
  split_at (a ++ b) (opt_unwrap_or (found 0 a b) (len (a ++ b))) = Some (a, b).
Proof. rewrite found_idx. apply split_at_len_app. Qed.

Lemma slice_tail_app {A} (a b : list A) : slice (a ++ b) (len a) (len (a ++ b)) = Some b.
Proof.
  rewrite slice_suffix by (fold (len (a ++ b)); rewrite len_app; lia). now rewrite skipn_len_app.
Qed.

(* every spelling of the cut of `a ++ b` at the position `position` found becomes `Some (a, b)` / `Some b` / `Some a` *)
Ltac cut_found :=
  rewrite ?found_idx; rewrite ?split_at_len_app, ?slice_tail_app, ?slice_head.

Lemma position_split {A S R} (f : A -> S -> option (S * bool)) (l : list A) (s : S)
      (K : S -> list A -> list A -> option R) :
  (pos <- position_st f l s 0 ;;
   sp <- split_at l (opt_unwrap_or (snd pos) (len l)) ;;
   K (fst pos) (fst sp) (snd sp))
  = match scan f l s with Some (s', a, b) => K s' a b | None => None end.
Proof.
  rewrite position_scan. destruct (scan f l s) as [[[s' a] b]|] eqn:E; [|reflexivity].
  cbn [fst snd]. rewrite (scan_split _ _ _ _ _ _ E), split_found. reflexivity.
Qed.

Lemma gs_state_change__eq s b : gs_state_change_ s b = state_change_ s b.
Proof.
  unfold gs_state_change_, state_change_.
  destruct (aget state_changes (state_disc s)); try reflexivity.
  destruct (aget l b); reflexivity.
Qed.

Lemma gs_state_change_eq s b : gs_state_change s b = state_change s b.
Proof.
  unfold gs_state_change, state_change. rewrite !gs_state_change__eq.
  destruct (state_change_ Anywhere b) as [c0|]; try reflexivity.
  destruct (c0 =? 0).
  - destruct (state_change_ s b); try reflexivity. destruct (unpack n); reflexivity.
  - destruct (unpack c0); reflexivity.
Qed.

Lemma ws_eq b : Imp.is_ascii_whitespace b = Strip.is_ascii_whitespace b.
Proof.
  unfold Imp.is_ascii_whitespace, Strip.is_ascii_whitespace.
  destruct (b =? 32), (b =? 9), (b =? 10), (b =? 12), (b =? 13); reflexivity.
Qed.

Lemma g_is_utf8_continuation_eq b : g_is_utf8_continuation b = is_utf8_continuation b.
Proof. reflexivity. Qed.

Lemma g_is_printable_bytes_eq a b : g_is_printable_bytes a b = is_printable_bytes a b.
Proof.
  (* robust to the spelling of the test in Rust (an ==/|| chain, a `match action`, `matches!`):
     decide it per action *)
  unfold g_is_printable_bytes, is_printable_bytes. rewrite ?ws_eq.
  destruct a; vm_compute action_eqb; cbn [andb orb];
    rewrite ?orb_false_r, ?andb_true_r, ?andb_false_r; reflexivity.
Qed.

Lemma g_receiver_codepoint_eq r c : g_receiver_codepoint r c = true.
Proof. reflexivity. Qed.

Lemma g_receiver_invalid_sequence_eq r : g_receiver_invalid_sequence r = true.
Proof. reflexivity. Qed.

Lemma g_utf8_add_eq u b : g_utf8_add u b = utf8_add u b.
Proof.
  unfold g_utf8_add, utf8_add, u8p_inner, set_u8p_inner.
  destruct (u8_parser_advance u b) as [u' o]. destruct o; reflexivity.
Qed.

(* The pointwise side condition of `scan_ext`.  Nothing here follows the text of the closure: the translated
   small functions are replaced by the hand model's (`gs_norm`), then whatever the goal tests is decided, in
   whatever order and spelling it appears (`x != A && x != B`, `!matches!(x, A | B)`, `!(p || q)`, `!p && !q`,
   early `return`s, nested `if`s, a `match` on the state): the leftmost ATOM of a test is destructed, so the two
   sides only have to agree as boolean functions of the atoms.  A bind over an `if` whose branches are both
   `Some` (`state4 <- (if c then Some a else Some b) ;; k`) reduces once `c` is decided.  A leaf that is not
   closed by `reflexivity` may be one no input reaches (`ns == Anywhere` and `ns == Utf8` both true): the state
   variable is then enumerated and the recorded tests evaluated. *)
Ltac gs_norm :=
  rewrite ?gs_state_change_eq, ?g_is_printable_bytes_eq, ?g_is_utf8_continuation_eq, ?g_utf8_add_eq.

Ltac atom_of c :=
  lazymatch c with
  | negb ?x => atom_of x
  | andb ?x _ => atom_of x
  | orb ?x _ => atom_of x
  | xorb ?x _ => atom_of x
  | Bool.eqb ?x _ => atom_of x
  | (if ?x then _ else _) => atom_of x
  | _ => c
  end.

Ltac not_bool_const a := lazymatch a with true => fail | false => fail | _ => idtac end.

Ltac is_enum_type T := lazymatch T with state => idtac | action => idtac end.

Ltac step_split1 :=
  match goal with
  (* the tests the goal can already see first: they decide which call of `state_change` / `utf8_add` is made *)
  | |- context [if ?c then _ else _] =>
      let a := atom_of c in not_bool_const a; destruct a eqn:?
  | |- context [state_change ?s ?b] => destruct (state_change s b) as [[? ?]|]
  | |- context [utf8_add ?u ?b] => destruct (utf8_add u b) as [? [|]]
  | |- context [match ?x with _ => _ end] =>
      is_var x; let T := type of x in is_enum_type T; destruct x
  (* a test that is not under an `if` (or is left over from one already decided): the boolean a closure answers *)
  | |- context [negb ?c] => let a := atom_of c in not_bool_const a; destruct a eqn:?
  | |- context [andb ?c _] => let a := atom_of c in not_bool_const a; destruct a eqn:?
  | |- context [andb _ ?c] => let a := atom_of c in not_bool_const a; destruct a eqn:?
  | |- context [orb ?c _] => let a := atom_of c in not_bool_const a; destruct a eqn:?
  | |- context [orb _ ?c] => let a := atom_of c in not_bool_const a; destruct a eqn:?
  end.

(* the closure state as the translation has it: a unit, a tuple of the captured `&mut` variables *)
Ltac open_state :=
  repeat match goal with
         | u : unit |- _ => destruct u
         | p : (_ * _)%type |- _ => destruct p
         end.

Ltac state_tests_leaf :=
  repeat match goal with
         | H : state_eqb ?x _ = _ |- _ => is_var x; destruct x
         end;
  repeat match goal with
         | H : state_eqb _ _ = _ |- _ => vm_compute in H; try discriminate H; clear H
         end;
  reflexivity.

Ltac step_norm :=
  gs_norm; cbv beta iota zeta delta [Imp.is_ascii Strip.is_ascii]; cbn [negb andb orb fst snd].

Ltac step_cases :=
  open_state;
  repeat (step_norm; try reflexivity; step_split1);
  first [reflexivity | state_tests_leaf].

(* the two closures of next_str, as the hand model reads them *)
Definition ns_skip_step (b : N) (st : state) : option (state * bool) :=
  '(ns, a) <- state_change st b ;;
  Some (if negb (state_eqb ns Anywhere) && negb (state_eqb ns Utf8) then ns else st, is_printable_bytes a b).

Definition ns_take_step (st : state) (b : N) (_ : unit) : option (unit * bool) :=
  '(_, a) <- state_change st b ;;
  Some (tt, negb (is_printable_bytes a b || is_utf8_continuation b)).

Lemma ns_skip_scan bs : forall st,
  ns_skip bs st = match scan ns_skip_step bs st with Some (s', _, b) => Some (b, s') | None => None end.
Proof.
  induction bs as [|b rest IH]; intros st; cbn [ns_skip scan]; [reflexivity|].
  unfold ns_skip_step at 1. destruct (state_change st b) as [[ns a]|]; [|reflexivity].
  destruct (is_printable_bytes a b); [reflexivity|].
  rewrite IH. destruct (scan ns_skip_step rest _) as [[[s' a'] b']|]; reflexivity.
Qed.

Lemma ns_take_scan st bs :
  ns_take bs st = match scan (ns_take_step st) bs tt with Some (_, a, b) => Some (a, b) | None => None end.
Proof.
  induction bs as [|b rest IH]; cbn [ns_take scan]; [reflexivity|].
  unfold ns_take_step at 1. destruct (state_change st b) as [[ns a]|]; [|reflexivity].
  destruct (negb (is_printable_bytes a b || is_utf8_continuation b)); [reflexivity|].
  rewrite IH. destruct (scan (ns_take_step st) rest tt) as [[[[] a'] b']|]; reflexivity.
Qed.

(* what a caller of the translated next_str sees of the hand model's answer: the model also
   tracks the offset of every piece in the original slice *)
Definition str_result (r : option (option piece * list N * N * state)) : option (list N * state * option (list N)) :=
  match r with Some (p, bs2, _, st) => Some (bs2, st, option_map p_bytes p) | None => None end.

(* `next_str` / `next_bytes`: two scans, each followed by a cut of the slice at the position found.  The script
   finds the scans in the goal; it does not depend on how the cut is spelled, on the names of the locals, on the
   order / spelling of the tests inside the closures or on where the final `None` / `Some(printable)` is built. *)
Ltac head_of t := lazymatch t with ?f _ => head_of f | _ => t end.

(* one scan: (1) `position` becomes [scan]; (2) the translated closure is fetched from the goal and replaced by the
   hand step (pointwise, by step_cases); (3) the scan result is destructed; (4) whichever spelling of the cut the goal
   has becomes the two halves *)
Ltac scan_stage l s0 mstep E :=
  rewrite position_scan;
  match goal with
  | |- context [scan ?f l s0] =>
      tryif constr_eq f mstep then fail
      else (let h := head_of mstep in rewrite (scan_ext f mstep) by (intros; unfold h; step_cases))
  end;
  match goal with
  | |- context [scan mstep l s0] => destruct (scan mstep l s0) as [[[? ?] ?]|] eqn:E; [|reflexivity]
  end;
  open_state; cbv beta iota zeta; cbn [fst snd];
  rewrite (scan_split _ _ _ _ _ _ E); cut_found; cbv beta iota zeta; cbn [fst snd].

Lemma g_next_str_eq bs off st : g_next_str bs st = str_result (next_str bs off st).
Proof.
  unfold g_next_str, next_str. rewrite ns_skip_scan.
  scan_stage bs st ns_skip_step E1.
  rewrite ns_take_scan.
  match goal with
  | E1 : scan ns_skip_step _ _ = Some (?st1, _, ?bs1) |- _ => scan_stage bs1 tt (ns_take_step st1) E2
  end.
  match goal with |- context [is_empty ?t] => destruct t; reflexivity end.
Qed.

Definition nb_skip_step (b : N) (s : state * u8parser) : option (state * u8parser * bool) :=
  let '(st, u) := s in
  if state_eqb st Utf8 && negb (Strip.is_ascii b) then Some ((st, u), true)
  else
    let '(st0, u0) := if state_eqb st Utf8 then (Ground, u8_new) else (st, u) in
    '(ns, a) <- state_change st0 b ;;
    Some ((if state_eqb ns Anywhere then st0 else ns, u0), is_printable_bytes a b).

Definition nb_take_step (b : N) (s : state * u8parser) : option (state * u8parser * bool) :=
  let '(st, u) := s in
  if state_eqb st Utf8 && negb (Strip.is_ascii b) then
    let '(u1, done) := utf8_add u b in
    Some ((if done then Ground else st, u1), false)
  else
    let '(st0, u0) := if state_eqb st Utf8 then (Ground, u8_new) else (st, u) in
    '(ns, a) <- state_change st0 b ;;
    if negb (is_printable_bytes a b) then Some ((st0, u0), true)
    else if state_eqb ns Utf8 then
      let '(u1, _) := utf8_add u0 b in Some ((ns, u1), false)
    else Some ((st0, u0), false).

Lemma nb_skip_scan bs : forall st u,
  nb_skip bs st u =
  match scan nb_skip_step bs (st, u) with Some ((s', u'), _, b) => Some (b, s', u') | None => None end.
Proof.
  induction bs as [|b rest IH]; intros st u; cbn [nb_skip scan]; [reflexivity|].
  unfold nb_skip_step at 1.
  destruct (state_eqb st Utf8 && negb (Strip.is_ascii b)); [reflexivity|].
  destruct (if state_eqb st Utf8 then (Ground, u8_new) else (st, u)) as [st0 u0].
  destruct (state_change st0 b) as [[ns a]|]; [|reflexivity].
  destruct (is_printable_bytes a b); [reflexivity|].
  rewrite IH. destruct (scan nb_skip_step rest _) as [[[[s' u'] a'] b']|]; reflexivity.
Qed.

Lemma nb_take_scan bs : forall st u,
  nb_take bs st u =
  match scan nb_take_step bs (st, u) with Some ((s', u'), a, b) => Some (a, b, s', u') | None => None end.
Proof.
  induction bs as [|b rest IH]; intros st u; cbn [nb_take scan]; [reflexivity|].
  unfold nb_take_step at 1.
  destruct (state_eqb st Utf8 && negb (Strip.is_ascii b)).
  { destruct (utf8_add u b) as [u1 done]. rewrite IH.
    destruct (scan nb_take_step rest _) as [[[[s' u'] a'] b']|]; reflexivity. }
  destruct (if state_eqb st Utf8 then (Ground, u8_new) else (st, u)) as [st0 u0].
  destruct (state_change st0 b) as [[ns a]|]; [|reflexivity].
  destruct (negb (is_printable_bytes a b)); [reflexivity|].
  destruct (state_eqb ns Utf8).
  - destruct (utf8_add u0 b) as [u1 d]. rewrite IH.
    destruct (scan nb_take_step rest _) as [[[[s' u'] a'] b']|]; reflexivity.
  - rewrite IH. destruct (scan nb_take_step rest _) as [[[[s' u'] a'] b']|]; reflexivity.
Qed.

Definition bytes_result (r : option (option piece * list N * N * state * u8parser))
  : option (list N * state * u8parser * option (list N)) :=
  match r with Some (p, bs2, _, st, u) => Some (bs2, st, u, option_map p_bytes p) | None => None end.

Lemma g_next_bytes_eq bs off st u : g_next_bytes bs st u = bytes_result (next_bytes bs off st u).
Proof.
  unfold g_next_bytes, next_bytes. rewrite nb_skip_scan.
  scan_stage bs (st, u) nb_skip_step E1.
  rewrite nb_take_scan.
  match goal with
  | E1 : scan nb_skip_step _ _ = Some (?s1, _, ?bs1) |- _ => scan_stage bs1 s1 nb_take_step E2
  end.
  match goal with |- context [is_empty ?t] => destruct t; reflexivity end.
Qed.

Definition str_next_result (r : option (option piece * list N * N * state)) : option (str_iter_st * option (list N)) :=
  match r with Some (p, bs2, _, st) => Some (mkStrIt bs2 st, option_map p_bytes p) | None => None end.

Definition bytes_next_result (r : option (option piece * list N * N * state * u8parser))
  : option (bytes_iter_st * option (list N)) :=
  match r with Some (p, bs2, _, st, u) => Some (mkBytesIt bs2 st u, option_map p_bytes p) | None => None end.

Lemma g_stripped_str_next_eq it off :
  g_stripped_str_next it = str_next_result (next_str (si_bytes it) off (si_state it)).
Proof.
  unfold g_stripped_str_next. rewrite (g_next_str_eq _ off).
  destruct (next_str (si_bytes it) off (si_state it)) as [[[[p bs2] o2] st2]|]; reflexivity.
Qed.

Lemma g_strip_str_iter_next_eq it off :
  g_strip_str_iter_next it = str_next_result (next_str (si_bytes it) off (si_state it)).
Proof.
  unfold g_strip_str_iter_next. rewrite (g_next_str_eq _ off).
  destruct (next_str (si_bytes it) off (si_state it)) as [[[[p bs2] o2] st2]|]; reflexivity.
Qed.

Lemma g_stripped_bytes_next_eq it off :
  g_stripped_bytes_next it = bytes_next_result (next_bytes (bi_bytes it) off (bi_state it) (bi_utf8 it)).
Proof.
  unfold g_stripped_bytes_next. rewrite (g_next_bytes_eq _ off).
  destruct (next_bytes (bi_bytes it) off (bi_state it) (bi_utf8 it)) as [[[[[p bs2] o2] st2] u2]|]; reflexivity.
Qed.

Lemma g_strip_bytes_iter_next_eq it off :
  g_strip_bytes_iter_next it = bytes_next_result (next_bytes (bi_bytes it) off (bi_state it) (bi_utf8 it)).
Proof.
  unfold g_strip_bytes_iter_next. rewrite (g_next_bytes_eq _ off).
  destruct (next_bytes (bi_bytes it) off (bi_state it) (bi_utf8 it)) as [[[[[p bs2] o2] st2] u2]|]; reflexivity.
Qed.

Lemma g_strip_str_eq bs : g_strip_str bs = mkStrIt bs Ground.
Proof. reflexivity. Qed.

Lemma g_strip_bytes_eq bs : g_strip_bytes bs = mkBytesIt bs Ground u8_new.
Proof. reflexivity. Qed.

(* draining an iterator (`for printable in it`), keeping the iterator it leaves behind;
   Model/Imp.v's iter_drain -- what the translated `for` loops use -- forgets it *)
Fixpoint drain_st {I A : Type} (next : I -> option (I * option A)) (fuel : nat) (it : I) : option (list A * I) :=
  match fuel with
  | O => None
  | S f =>
      match next it with
      | None => None
      | Some (it', None) => Some ([], it')
      | Some (it', Some x) =>
          match drain_st next f it' with
          | Some (xs, it'') => Some (x :: xs, it'')
          | None => None
          end
      end
  end.

Lemma iter_drain_st {I A} (next : I -> option (I * option A)) fuel : forall it,
  iter_drain next fuel it = option_map fst (drain_st next fuel it).
Proof.
  induction fuel as [|f IH]; intros it; cbn [iter_drain drain_st]; [reflexivity|].
  destruct (next it) as [[it' [x|]]|]; try reflexivity.
  rewrite IH. destruct (drain_st next f it') as [[xs it'']|]; reflexivity.
Qed.

Lemma drain_st_ext {I A} (n1 n2 : I -> option (I * option A)) :
  (forall it, n1 it = n2 it) -> forall fuel it, drain_st n1 fuel it = drain_st n2 fuel it.
Proof.
  intros H fuel. induction fuel as [|f IH]; intros it; cbn [drain_st]; [reflexivity|].
  rewrite H. destruct (n2 it) as [[it' [x|]]|]; try reflexivity. rewrite IH. reflexivity.
Qed.

Lemma str_drain_eq fuel : forall it off,
  drain_st g_stripped_str_next fuel it =
  match str_iter fuel (si_bytes it) off (si_state it) with
  | Some (ps, bs', st') => Some (map p_bytes ps, mkStrIt bs' st')
  | None => None
  end.
Proof.
  induction fuel as [|f IH]; intros it off; cbn [drain_st str_iter]; [reflexivity|].
  rewrite (g_stripped_str_next_eq it off).
  destruct (next_str (si_bytes it) off (si_state it)) as [[[[[pc|] bs2] o2] st2]|]; cbn [str_next_result option_map]; try reflexivity.
  rewrite (IH _ o2). cbn [si_bytes si_state].
  destruct (str_iter f bs2 o2 st2) as [[[ps bs3] st3]|]; reflexivity.
Qed.

Lemma bytes_drain_eq fuel : forall it off,
  drain_st g_stripped_bytes_next fuel it =
  match bytes_iter fuel (bi_bytes it) off (bi_state it) (bi_utf8 it) with
  | Some (ps, bs', st', u') => Some (map p_bytes ps, mkBytesIt bs' st' u')
  | None => None
  end.
Proof.
  induction fuel as [|f IH]; intros it off; cbn [drain_st bytes_iter]; [reflexivity|].
  rewrite (g_stripped_bytes_next_eq it off).
  destruct (next_bytes (bi_bytes it) off (bi_state it) (bi_utf8 it)) as [[[[[[pc|] bs2] o2] st2] u2]|];
    cbn [bytes_next_result option_map]; try reflexivity.
  rewrite (IH _ o2). cbn [bi_bytes bi_state bi_utf8].
  destruct (bytes_iter f bs2 o2 st2 u2) as [[[[ps bs3] st3] u3]|]; reflexivity.
Qed.

Lemma for_append (l : list (list N)) : forall acc0,
  for_list0 (fun x acc1 => Some (BNext (acc1 ++ x))) l acc0 = Some (acc0 ++ concat l).
Proof.
  induction l as [|x t IH]; intros acc0; cbn [for_list0 concat].
  - rewrite app_nil_r. reflexivity.
  - rewrite IH, app_assoc. reflexivity.
Qed.

(* strip_bytes(data).into_vec(), all of it translated *)
Theorem g_strip_bytes_into_vec_is_model bs :
  g_stripped_bytes_into_vec (g_strip_bytes bs) = strip_bytes_model bs.
Proof.
  unfold g_stripped_bytes_into_vec, strip_bytes_model, strip_bytes_pieces, strip_next_bytes.
  rewrite g_strip_bytes_eq, iter_drain_st, (bytes_drain_eq _ _ 0). cbn [bi_bytes bi_state bi_utf8].
  destruct (bytes_iter (S (length bs)) bs 0 Ground u8_new) as [[[[ps bs'] st'] u']|]; cbn [option_map fst]; [|reflexivity].
  rewrite for_append. reflexivity.
Qed.

(* strip_str(data).to_string(): `fmt` / `to_string` are std::fmt plumbing (pinned); what they do
   with the translated iterator -- drain it and concatenate -- is written out here *)
Definition g_strip_str_to_string (bs : list N) : option (list N) :=
  ps <- iter_drain g_stripped_str_next (S (length bs)) (g_strip_str bs) ;; Some (concat ps).

Theorem g_strip_str_to_string_is_model bs : g_strip_str_to_string bs = strip_str_model bs.
Proof.
  unfold g_strip_str_to_string, strip_str_model, strip_str_pieces, strip_next_str.
  rewrite g_strip_str_eq, iter_drain_st, (str_drain_eq _ _ 0). cbn [si_bytes si_state].
  destruct (str_iter (S (length bs)) bs 0 Ground) as [[[ps bs'] st']|]; reflexivity.
Qed.

(* StripStr / StripBytes fed chunk by chunk: `strip_next` hands the iterator a
   borrow of the carried state, i.e. the state is copied in and what the drained iterator
   leaves is copied out (see gt_str_chunks / gt_bytes_chunks at the end of the file for the
   same drive over the TRANSLATED `new` / `strip_next`) *)
Fixpoint g_str_chunks (chunks : list (list N)) (st : state) : option (list (list (list N)) * state) :=
  match chunks with
  | [] => Some ([], st)
  | c :: rest =>
      '(ps, it') <- drain_st g_strip_str_iter_next (S (length c)) (mkStrIt c st) ;;
      '(pss, st'') <- g_str_chunks rest (si_state it') ;;
      Some (ps :: pss, st'')
  end.

Fixpoint g_bytes_chunks (chunks : list (list N)) (st : state) (u : u8parser)
  : option (list (list (list N)) * state * u8parser) :=
  match chunks with
  | [] => Some ([], st, u)
  | c :: rest =>
      '(ps, it') <- drain_st g_strip_bytes_iter_next (S (length c)) (mkBytesIt c st u) ;;
      '(pss, st'', u'') <- g_bytes_chunks rest (bi_state it') (bi_utf8 it') ;;
      Some (ps :: pss, st'', u'')
  end.

Theorem g_str_chunks_is_model chunks : forall st,
  g_str_chunks chunks st =
  match strip_str_chunks chunks st with
  | Some (pss, st') => Some (map (map p_bytes) pss, st')
  | None => None
  end.
Proof.
  induction chunks as [|c rest IH]; intros st; cbn [g_str_chunks strip_str_chunks]; [reflexivity|].
  rewrite (drain_st_ext g_strip_str_iter_next g_stripped_str_next).
  2:{ intros it. rewrite (g_strip_str_iter_next_eq it 0), (g_stripped_str_next_eq it 0). reflexivity. }
  unfold strip_next_str. rewrite (str_drain_eq _ _ 0). cbn [si_bytes si_state].
  destruct (str_iter (S (length c)) c 0 st) as [[[ps bs'] st']|]; [|reflexivity].
  cbn [si_state]. rewrite IH. destruct (strip_str_chunks rest st') as [[pss st'']|]; reflexivity.
Qed.

Theorem g_bytes_chunks_is_model chunks : forall st u,
  g_bytes_chunks chunks st u =
  match strip_bytes_chunks chunks st u with
  | Some (pss, st', u') => Some (map (map p_bytes) pss, st', u')
  | None => None
  end.
Proof.
  induction chunks as [|c rest IH]; intros st u; cbn [g_bytes_chunks strip_bytes_chunks]; [reflexivity|].
  rewrite (drain_st_ext g_strip_bytes_iter_next g_stripped_bytes_next).
  2:{ intros it. rewrite (g_strip_bytes_iter_next_eq it 0), (g_stripped_bytes_next_eq it 0). reflexivity. }
  unfold strip_next_bytes. rewrite (bytes_drain_eq _ _ 0). cbn [bi_bytes bi_state bi_utf8].
  destruct (bytes_iter (S (length c)) c 0 st u) as [[[[ps bs'] st'] u']|]; [|reflexivity].
  cbn [bi_state bi_utf8]. rewrite IH. destruct (strip_bytes_chunks rest st' u') as [[[pss st''] u'']|]; reflexivity.
Qed.

Theorem translated_strip_bytes_refines_spec input :
  bytes_ok input -> g_stripped_bytes_into_vec (g_strip_bytes input) = Some (spec_strip input).
Proof. intros H. rewrite g_strip_bytes_into_vec_is_model. apply strip_bytes_is_spec, H. Qed.

Theorem translated_strip_str_refines_spec input :
  bytes_ok input -> valid_utf8 input = true -> g_strip_str_to_string input = Some (spec_strip input).
Proof. intros H V. rewrite g_strip_str_to_string_is_model. apply strip_str_is_spec; assumption. Qed.

Lemma concat_pieces (pss : list (list piece)) :
  concat (map (@concat N) (map (map p_bytes) pss)) = concat (map (fun ps => concat (map p_bytes ps)) pss).
Proof. rewrite map_map. reflexivity. Qed.

Theorem translated_bytes_chunks_refine_spec chunks :
  bytes_ok (concat chunks) ->
  exists pss st u,
    g_bytes_chunks chunks Ground u8_new = Some (pss, st, u) /\
    concat (map (@concat N) pss) = spec_strip (concat chunks) /\
    Some (concat (map (@concat N) pss)) = g_stripped_bytes_into_vec (g_strip_bytes (concat chunks)).
Proof.
  intros H. destruct (strip_bytes_chunked chunks H) as (pss & st & u & E & Hs & Hm & _).
  exists (map (map p_bytes) pss), st, u. rewrite g_bytes_chunks_is_model, E, concat_pieces, g_strip_bytes_into_vec_is_model.
  repeat split; assumption.
Qed.

Theorem translated_str_chunks_refine_spec chunks :
  bytes_ok (concat chunks) -> Forall (fun c => valid_utf8 c = true) chunks ->
  exists pss st,
    g_str_chunks chunks Ground = Some (pss, st) /\
    concat (map (@concat N) pss) = spec_strip (concat chunks) /\
    Some (concat (map (@concat N) pss)) = g_strip_str_to_string (concat chunks).
Proof.
  intros H V. destruct (strip_str_chunked chunks H V) as (pss & st & E & Hs & Hm).
  exists (map (map p_bytes) pss), st. rewrite g_str_chunks_is_model, E, concat_pieces, g_strip_str_to_string_is_model.
  repeat split; assumption.
Qed.

Lemma g_strip_str_new_eq : g_strip_str_new = Ground.
Proof. reflexivity. Qed.
Lemma g_strip_bytes_new_eq : g_strip_bytes_new = mkStripBytesSt Ground u8_new.
Proof. reflexivity. Qed.

(* strip_next: the iterator is over the bytes handed in and starts from the carried state (copy-in);
   the StripStr / StripBytes itself is not touched by the call *)
Lemma g_strip_str_strip_next_eq s c : g_strip_str_strip_next s c = (s, mkStrIt c s).
Proof. reflexivity. Qed.
Lemma g_strip_bytes_strip_next_eq s c :
  g_strip_bytes_strip_next s c = (s, mkBytesIt c (sbs_state s) (sbs_utf8 s)).
Proof. reflexivity. Qed.

(* StrippedBytes::is_empty / extend: `extend` swaps in the next slice and keeps the scanner state; with
   unprocessed bytes left the debug_assert! fires (None) *)
Lemma g_stripped_bytes_is_empty_eq it : g_stripped_bytes_is_empty it = match bi_bytes it with [] => true | _ => false end.
Proof. unfold g_stripped_bytes_is_empty, Imp.is_empty. destruct (bi_bytes it); reflexivity. Qed.
Lemma g_stripped_bytes_extend_eq it bs :
  g_stripped_bytes_extend it bs =
  match bi_bytes it with [] => Some (mkBytesIt bs (bi_state it) (bi_utf8 it)) | _ => None end.
Proof. unfold g_stripped_bytes_extend. rewrite g_stripped_bytes_is_empty_eq. destruct (bi_bytes it); reflexivity. Qed.

(* the chunked drive over the translated functions.  `strip_next` returns a struct that holds `&mut self.state`
   (/ `&mut self.utf8parser`): the fields of the iterator ARE the fields of the StripStr / StripBytes while it
   lives, so what the drained iterator leaves in them is the carried state afterwards (copy-out: the setters) *)
Fixpoint gt_str_chunks (chunks : list (list N)) (s : state) : option (list (list (list N)) * state) :=
  match chunks with
  | [] => Some ([], s)
  | c :: rest =>
      let '(s1, it) := g_strip_str_strip_next s c in
      '(ps, it') <- drain_st g_strip_str_iter_next (S (length c)) it ;;
      '(pss, s2) <- gt_str_chunks rest (set_sstr_state s1 (si_state it')) ;;
      Some (ps :: pss, s2)
  end.

Fixpoint gt_bytes_chunks (chunks : list (list N)) (s : strip_bytes_st) : option (list (list (list N)) * strip_bytes_st) :=
  match chunks with
  | [] => Some ([], s)
  | c :: rest =>
      let '(s1, it) := g_strip_bytes_strip_next s c in
      '(ps, it') <- drain_st g_strip_bytes_iter_next (S (length c)) it ;;
      '(pss, s2) <- gt_bytes_chunks rest (set_sbs_utf8 (set_sbs_state s1 (bi_state it')) (bi_utf8 it')) ;;
      Some (ps :: pss, s2)
  end.

Lemma gt_str_chunks_eq chunks : forall s, gt_str_chunks chunks s = g_str_chunks chunks s.
Proof.
  induction chunks as [|c rest IH]; intros s; cbn [gt_str_chunks g_str_chunks]; [reflexivity|].
  rewrite g_strip_str_strip_next_eq.
  destruct (drain_st g_strip_str_iter_next (S (length c)) (mkStrIt c s)) as [[ps it']|]; [|reflexivity].
  cbv beta iota. unfold set_sstr_state. rewrite IH. reflexivity.
Qed.

Lemma gt_bytes_chunks_eq chunks : forall s,
  gt_bytes_chunks chunks s =
  match g_bytes_chunks chunks (sbs_state s) (sbs_utf8 s) with
  | Some (pss, st, u) => Some (pss, mkStripBytesSt st u)
  | None => None
  end.
Proof.
  induction chunks as [|c rest IH]; intros s; cbn [gt_bytes_chunks g_bytes_chunks]; [destruct s; reflexivity|].
  rewrite g_strip_bytes_strip_next_eq.
  destruct (drain_st g_strip_bytes_iter_next (S (length c)) (mkBytesIt c (sbs_state s) (sbs_utf8 s))) as [[ps it']|]; [|reflexivity].
  cbv beta iota. rewrite IH. unfold set_sbs_utf8, set_sbs_state. cbn [sbs_state sbs_utf8].
  destruct (g_bytes_chunks rest (bi_state it') (bi_utf8 it')) as [[[pss st] u]|]; reflexivity.
Qed.

(* StripStr::new() / StripBytes::new() fed chunk by chunk through the translated strip_next: the specification's strip *)
Theorem translated_str_new_chunks_refine_spec chunks :
  bytes_ok (concat chunks) -> Forall (fun c => valid_utf8 c = true) chunks ->
  exists pss st,
    gt_str_chunks chunks g_strip_str_new = Some (pss, st) /\
    concat (map (@concat N) pss) = spec_strip (concat chunks).
Proof.
  intros H V. destruct (translated_str_chunks_refine_spec chunks H V) as (pss & st & E & Hs & _).
  exists pss, st. rewrite gt_str_chunks_eq, g_strip_str_new_eq. split; assumption.
Qed.

Theorem translated_bytes_new_chunks_refine_spec chunks :
  bytes_ok (concat chunks) ->
  exists pss s,
    gt_bytes_chunks chunks g_strip_bytes_new = Some (pss, s) /\
    concat (map (@concat N) pss) = spec_strip (concat chunks).
Proof.
  intros H. destruct (translated_bytes_chunks_refine_spec chunks H) as (pss & st & u & E & Hs & _).
  exists pss, (mkStripBytesSt st u). rewrite gt_bytes_chunks_eq, g_strip_bytes_new_eq. cbn [sbs_state sbs_utf8].
  rewrite E. split; [reflexivity|assumption].
Qed.
