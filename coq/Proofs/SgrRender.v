(* What the rendering theorems of C16 share: a styling library writes printed SGR sequences
   (Proofs/VtSgrRead.v: each is read back as its parameter values), the one printable character "x", and more such
   sequences; Spec/Vt + Spec/Sgr show the "x" in the rendition the sequences before it select.  Also: decimal
   numerals as the libraries print them, and a sequence whose parameters are printed bytes.  Over Spec/ only. *)
From Coq Require Import NArith Arith List Bool Lia.
From AV Require Import Spec.Vt Spec.Sgr Spec.Render Spec.Targets Proofs.BitTests Proofs.VtSgrRead.
Import ListNotations.
Local Open Scope N_scope.

Lemma sstyle_eqb_refl a : sstyle_eqb a a = true.
Proof.
  assert (C : forall o, opt_colour_eqb o o = true).
  { intros [[i|i|r g b]|]; cbn; rewrite ?N.eqb_refl; reflexivity. }
  unfold sstyle_eqb. rewrite !C, N.eqb_refl. reflexivity.
Qed.

(* the lemmas of Proofs/BitTests.v for [bit k] = 1 << k *)
Lemma bit_testbit k n : N.testbit (bit k) n = (k =? n).
Proof. exact (shl1_testbit k n). Qed.

Lemma land_bit e k : N.land e (bit k) = if N.testbit e k then bit k else 0.
Proof. exact (land_shl1 e k). Qed.

Lemma land_bit_eqb e k : (N.land e (bit k) =? bit k) = N.testbit e k.
Proof. exact (land_bit_eq e k). Qed.

Lemma rn_join_app sep (a b : list (list N)) :
  rn_join sep (a ++ b) = rn_join sep a ++ (if rn_nonempty a && rn_nonempty b then [sep] else []) ++ rn_join sep b.
Proof.
  induction a as [|x t IH]; [reflexivity|]. destruct t as [|y t'].
  - destruct b; cbn [app rn_join rn_nonempty andb]; [now rewrite app_nil_r|reflexivity].
  - change (rn_join sep ((x :: y :: t') ++ b)) with (x ++ sep :: rn_join sep ((y :: t') ++ b)).
    rewrite IH, rn_join_cons2. cbn [rn_nonempty andb]. now rewrite <- !app_assoc.
Qed.

Definition dec_of (ds : list N) (n : N) : Prop := forallb rn_is_digit ds = true /\ rn_dec_value ds = n.

Lemma dec_of_digits_ok ds n : dec_of ds n -> n < 65536 -> rn_digits_ok ds = true.
Proof. intros [A <-] H. unfold rn_digits_ok. rewrite A. now apply N.ltb_lt. Qed.

Lemma dec_of_snoc ds n d : dec_of ds n -> d < 10 -> dec_of (ds ++ [48 + d]) (10 * n + d).
Proof.
  intros [A <-] H. split.
  - rewrite forallb_app, A. unfold rn_is_digit. cbn [forallb]. rewrite !andb_true_iff, !N.leb_le. lia.
  - unfold rn_dec_value, rn_dec_from. rewrite fold_left_app. cbn [fold_left]. lia.
Qed.

Lemma dec3 n : n = 100 * (n / 100) + 10 * ((n / 10) mod 10) + n mod 10.
Proof.
  change (n / 100) with (n / (10 * 10)). rewrite <- N.div_div by lia.
  pose proof (N.div_mod n 10). pose proof (N.div_mod (n / 10) 10). lia.
Qed.

(* the loop of core::fmt's `Display for u8 / u64` as Model/AnsiTerm.v, Model/Crossterm.v and Model/YansiRender.v
   write it (their [atm_dec_go], [ct_dec_go], [ya_dec_go] are this function, by conversion) *)
Fixpoint dec_go (fuel : nat) (n : N) (acc : list N) : list N :=
  match fuel with
  | O => acc
  | S f => let acc' := (48 + n mod 10) :: acc in if n <? 10 then acc' else dec_go f (n / 10) acc'
  end.

Lemma dec_go_reads fuel : forall n acc, n < 10 ^ N.of_nat fuel ->
  exists ds, dec_go fuel n acc = ds ++ acc /\ dec_of ds n.
Proof.
  induction fuel as [|f IH]; intros n acc H.
  - exists []. change (n < 1) in H. assert (n = 0) as -> by lia. repeat split.
  - rewrite Nat2N.inj_succ, N.pow_succ_r' in H. cbn [dec_go].
    pose proof (N.mod_lt n 10 ltac:(lia)) as Hm. pose proof (N.div_mod n 10 ltac:(lia)) as Hd.
    destruct (N.ltb_spec n 10) as [L|L].
    + rewrite N.mod_small by exact L. exists [48 + n]. split; [reflexivity|].
      apply (dec_of_snoc [] 0 n); [split; reflexivity|exact L].
    + destruct (IH (n / 10) ((48 + n mod 10) :: acc)) as (ds & E & D); [apply N.div_lt_upper_bound; lia|].
      exists (ds ++ [48 + n mod 10]). split; [now rewrite E, <- app_assoc|].
      pose proof (dec_of_snoc ds _ _ D Hm) as D'. now rewrite <- Hd in D'.
Qed.

Lemma dec_go_of fuel n : n < 10 ^ N.of_nat fuel -> dec_of (dec_go fuel n []) n.
Proof. intros H. destruct (dec_go_reads fuel n [] H) as (ds & -> & D). now rewrite app_nil_r. Qed.

(* the fuel [S (N.size_nat n)] is enough for every n: a number has no more decimal than binary digits *)
Lemma lt_pow10_size n : n < 10 ^ N.of_nat (S (N.size_nat n)).
Proof.
  rewrite Nat2N.inj_succ, N.pow_succ_r'. destruct n as [|p]; [reflexivity|]. cbn [N.size_nat].
  enough (N.pos p < 10 ^ N.of_nat (Pos.size_nat p)) by lia.
  induction p as [p IH|p IH|]; cbn [Pos.size_nat]; rewrite Nat2N.inj_succ, N.pow_succ_r'; lia.
Qed.

Lemma concat_singletons {A B} (f : A -> B) l : concat (map (fun a => [f a]) l) = map f l.
Proof. induction l as [|x t IH]; cbn [map concat app]; [reflexivity|now rewrite IH]. Qed.

(* each digit string a parameter without sub-parameters *)
Definition single_groups (ds : list (list N)) : list (list (list N)) := map (fun d => [d]) ds.

Lemma single_groups_print ds : rn_print_params (single_groups ds) = rn_join 59 ds.
Proof. unfold rn_print_params, single_groups. rewrite map_map. cbn [rn_join]. now rewrite map_id. Qed.

Lemma single_groups_values ds : rn_param_values (single_groups ds) = map (fun d => [rn_dec_value d]) ds.
Proof. unfold rn_param_values, single_groups. now rewrite map_map. Qed.

Lemma single_groups_ok ds : ds <> [] -> Forall (fun d => rn_digits_ok d = true) ds -> (length ds <= 32)%nat ->
  rn_csi_ok (single_groups ds) = true.
Proof.
  intros Hne Hall Hlen. unfold single_groups. apply csi_ok_iff. split; [|split].
  - destruct ds; [contradiction|reflexivity].
  - apply Forall_map. eapply Forall_impl; [|exact Hall]. cbv beta. intros d Hd. repeat constructor. exact Hd.
  - now rewrite (concat_singletons (fun d => d)), map_id.
Qed.

Lemma byte_groups_ok dec codes : (forall c, c < 256 -> dec_of (dec c) c) ->
  codes <> [] -> Forall (fun c => c < 256) codes -> (length codes <= 32)%nat ->
  rn_csi_ok (single_groups (map dec codes)) = true /\
  rn_param_values (single_groups (map dec codes)) = map (fun c => [c]) codes.
Proof.
  intros Hdec Hne Hall Hlen. split.
  - apply single_groups_ok; [now destruct codes| |now rewrite map_length].
    apply Forall_map. eapply Forall_impl; [|exact Hall]. cbv beta. intros c Hc.
    apply (dec_of_digits_ok _ c (Hdec c Hc)). lia.
  - rewrite single_groups_values, map_map. apply map_ext_in. intros c Hc. rewrite Forall_forall in Hall.
    now rewrite (proj2 (Hdec c (Hall c Hc))).
Qed.

Lemma interp_sgr_prefix gs : forall s rest,
  interp s (map rn_sgr gs ++ rest) = interp (fold_left sgr_apply gs s) rest.
Proof.
  induction gs as [|g t IH]; intros s rest; cbn [map app fold_left]; [reflexivity|].
  cbn [interp rn_sgr event_style]. rewrite IH.
  destruct (interp (fold_left sgr_apply t (sgr_apply s g)) rest); reflexivity.
Qed.

Lemma interp_sgr_only gs s : interp s (map rn_sgr gs) = ([], fold_left sgr_apply gs s).
Proof. rewrite <- (app_nil_r (map rn_sgr gs)). apply interp_sgr_prefix. Qed.

(* 120 = "x", what the harness renders *)
Lemma step_print_x s : ground_st s -> vt_step s 120 = (s, [EPrint 120]).
Proof. intros [Hv Hu]. destruct s as [v i g c u p o un]. cbn in Hv, Hu. subst. reflexivity. Qed.

Lemma seqs_events prs : Forall (fun pr => rn_csi_ok pr = true) prs -> forall s, ground_st s ->
  exists s', vt_run s (concat (map (fun pr => rn_csi pr 109) prs)) = (s', map rn_sgr (map rn_param_values prs)) /\
             ground_st s'.
Proof.
  intros H s. apply spec_events_pieces_from.
  induction H as [|pr t Hp _ IH]; constructor; [exists pr; auto | exact IH].
Qed.

(* "x" is shown in the rendition the sequences before it select, whatever sequences follow *)
Theorem seqs_interp_x B A :
  Forall (fun pr => rn_csi_ok pr = true) B -> Forall (fun pr => rn_csi_ok pr = true) A ->
  ad_interp_x (concat (map (fun pr => rn_csi pr 109) B) ++ [120] ++ concat (map (fun pr => rn_csi pr 109) A))
  = Some (fold_left sgr_apply (map rn_param_values B) style_default).
Proof.
  intros HB HA. unfold ad_interp_x, spec_events.
  destruct (seqs_events B HB vt_init ground_init) as (s1 & E1 & H1).
  destruct (seqs_events A HA s1 H1) as (s2 & E2 & H2).
  rewrite vt_run_app, E1. cbn [app vt_run]. rewrite (step_print_x s1 H1), E2. cbn [snd app].
  rewrite interp_sgr_prefix. cbn [interp]. rewrite interp_sgr_only. reflexivity.
Qed.

(* one sequence, "x", ESC[0m *)
Corollary csi_interp_x gs : rn_csi_ok gs = true ->
  ad_interp_x (rn_csi gs 109 ++ [120] ++ [27; 91; 48; 109]) = Some (sgr_apply style_default (rn_param_values gs)).
Proof.
  intros Hok. rewrite <- (app_nil_r (rn_csi gs 109)).
  apply (seqs_interp_x [gs] [[[[48]]]]); repeat constructor. exact Hok.
Qed.

Lemma sgr_groups_code c s rest : ext_target c = None -> sgr_groups s ([c] :: rest) = sgr_groups (sgr_code s c) rest.
Proof.
  intros H. cbn [sgr_groups]. rewrite H. generalize (sgr_groups (sgr_code s c) rest). intros r.
  (* what is left tests c for the 4 of "4:n"; a parameter without sub-parameter falls through in every branch *)
  now destruct c as [|[?|[?|[?|?|]|]|]].
Qed.
