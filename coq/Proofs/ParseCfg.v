(* Proofs/ParseCfg.v -- C20: the four build configurations of anstyle-parse,
   as instances of the configuration-parameterised parser model (Model/Parser.v).
   The configuration is read in exactly two places of the model:
   Action::OscPut (the `is_full` early return) and CharAccumulator::add. *)
From Coq Require Import NArith Arith List Bool Lia.
From AV Require Import Generated.Table Generated.ParseCfg Spec.Vt Spec.ParseCfg
  Model.Base Model.Utf8parse Model.Parser Model.ParseCfg Proofs.TableFacts Proofs.ParamsSim Proofs.OscSim.
Import ListNotations.
Local Open Scope N_scope.

(* pins between generated constants: a changed MAX_OSC_RAW, feature table or label fails here, by reflexivity *)
Lemma pc_max_osc_raw_is_table_const : pc_max_osc_raw = MAX_OSC_RAW.
Proof. reflexivity. Qed.

Lemma pc_spec_limit_is_max_osc_raw : pc_spec_limit = pc_max_osc_raw.
Proof. reflexivity. Qed.

Lemma pc_cfgs_are :
  pc_cfgs = [mkCfg None true; mkCfg (Some pc_max_osc_raw) false;
             mkCfg (Some pc_max_osc_raw) true; mkCfg None false].
Proof. reflexivity. Qed.

Lemma pc_default_label : pc_cfg_of_label [100; 101; 102; 97; 117; 108; 116] = Some cfg_default.
Proof. reflexivity. Qed.

Definition pc_seven_bit (bs : list N) : Prop := Forall (fun b => b < 128) bs.

(* running the DEFAULT configuration over [bs], no byte is handed to OscPut while
   osc_raw already holds [cap] bytes: every OSC payload fits a [cap]-byte buffer
   (equivalently: no OSC string has a payload byte, ';' included, after its
   [cap]-th byte other than ';') *)
Definition pc_osc_fit (cap : N) (bs : list N) : Prop := pc_fitb cap true parser_new bs = true.

Definition pc_cfg_fits (c : cfg) (bs : list N) : Prop :=
  forall cap, osc_cap c = Some cap -> pc_osc_fit cap bs.

Lemma pc_state_eqb_eq a b : state_eqb a b = true -> a = b.
Proof.
  intros H. apply N.eqb_eq, (f_equal state_of_disc) in H.
  assert (R : forall s, state_of_disc (state_disc s) = Some s) by (intros []; reflexivity).
  rewrite !R in H. now injection H.
Qed.

Lemma pc_state_eqb_refl a : state_eqb a a = true.
Proof. apply N.eqb_refl. Qed.

Lemma pc_state_eqb_neq a b : state_eqb a b = false -> a <> b.
Proof. intros H ->. rewrite pc_state_eqb_refl in H. discriminate H. Qed.

Lemma pc_row0 : exists row, aget state_changes (state_disc Anywhere) = Some row /\ length row = 256%nat.
Proof. eexists. split; vm_compute; reflexivity. Qed.

Lemma pc_sc_lt s b x : state_change s b = Some x -> b < 256.
Proof.
  unfold state_change, state_change_. destruct pc_row0 as [row [E L]]. rewrite E.
  destruct (aget row b) eqn:G; [|discriminate]. intros _.
  unfold aget in G. assert (H : (N.to_nat b < length row)%nat) by (apply nth_error_Some; congruence).
  rewrite L in H. lia.
Qed.

(* What the proofs below use of the table.  OscPut is selected only in OscString,
   there by every byte from 20 on, and never with a state change; BeginUtf8 only in
   Ground, for C2..F4, towards Utf8, which is entered in no other way; the entry
   and exit actions never label an entry. *)
Definition pc_entry_ok (s : state) (b : N) (x : option (state * action)) : bool :=
  match x with
  | Some (s', a) =>
      match a with
      | AOscPut => state_eqb s OscString && state_eqb s' Anywhere
      | ABeginUtf8 => state_eqb s Ground && state_eqb s' Utf8 && (194 <=? b) && (b <=? 244)
      | AOscEnd | AOscStart | AClear | AHook | AUnhook => false
      | _ => negb (state_eqb s' Utf8) && (negb (state_eqb s OscString) || (b <? 32))
      end
  | None => true
  end.

Lemma pc_entry_ok_all : forallb (sweep_state pc_entry_ok) all_states = true.
Proof. vm_compute. reflexivity. Qed.

Lemma pc_table s b s' a :
  state_change s b = Some (s', a) ->
  match a with
  | AOscPut => s = OscString /\ s' = Anywhere
  | ABeginUtf8 => s = Ground /\ s' = Utf8 /\ 194 <= b <= 244
  | AOscEnd | AOscStart | AClear | AHook | AUnhook => False
  | _ => s' <> Utf8 /\ (s = OscString -> b < 32)
  end.
Proof.
  intros E. pose proof (state_change_sweep _ pc_entry_ok_all s b (pc_sc_lt _ _ _ E)) as H.
  rewrite E in H. cbn [pc_entry_ok] in H.
  destruct a; try discriminate H; apply andb_prop in H; destruct H as [H1 H2];
    try (split; [now apply pc_state_eqb_neq, negb_true_iff | intros ->; now apply N.ltb_lt]).
  - split; now apply pc_state_eqb_eq.
  - apply andb_prop in H1. destruct H1 as [H1 H3]. apply andb_prop in H1. destruct H1 as [H0 H1].
    repeat split; try (now apply pc_state_eqb_eq); now apply N.leb_le.
Qed.

Lemma pc_table_payload b : 32 <= b < 256 -> state_change OscString b = Some (Anywhere, AOscPut).
Proof.
  intros [L U]. destruct (state_change_total OscString b U) as (s' & a & E).
  pose proof (pc_table _ _ _ _ E) as T.
  destruct a; try contradiction; try (destruct T as [_ T]; specialize (T eq_refl); lia).
  - destruct T as [_ ->]. exact E.
  - destruct T as [T _]. discriminate T.
Qed.

(* A transition performs up to three actions -- the exit action of the old state,
   the action of the table entry, the entry action of the new state -- and then
   sets the state.  An absent action is Nop, which [perform_action] answers with
   the unchanged parser and no event. *)
Definition pc_exit_action (s : state) : action :=
  match s with DcsPassthrough => AUnhook | OscString => AOscEnd | _ => ANop end.

Definition pc_entry_action (s : state) : action :=
  match s with
  | CsiEntry | DcsEntry | Escape => AClear
  | DcsPassthrough => AHook
  | OscString => AOscStart
  | _ => ANop
  end.

Definition pc_psc3 (c : cfg) (p : parser) (s : state) (a : action) (b : N) : option (parser * list event) :=
  '(p1, e1) <- perform_action c p (pc_exit_action (pstate p)) b ;;
  '(p2, e2) <- perform_action c p1 a b ;;
  '(p3, e3) <- perform_action c p2 (pc_entry_action s) b ;;
  Some (set_state p3 s, e1 ++ e2 ++ e3).

Lemma pc_psc_cases c p s a b :
  perform_state_change c p s a b =
  if state_eqb s Anywhere then perform_action c p a b else pc_psc3 c p s a b.
Proof.
  assert (X : match pstate p with
              | DcsPassthrough => perform_action c p AUnhook b
              | OscString => perform_action c p AOscEnd b
              | _ => Some (p, [])
              end = perform_action c p (pc_exit_action (pstate p)) b)
    by (destruct (pstate p); reflexivity).
  assert (T : forall q, match a with ANop => Some (q, []) | _ => perform_action c q a b end
                        = perform_action c q a b)
    by (intros q; destruct a; reflexivity).
  unfold perform_state_change, pc_psc3. rewrite X.
  destruct (perform_action c p (pc_exit_action (pstate p)) b) as [[p1 e1]|]; [rewrite T|]; destruct s; reflexivity.
Qed.

Lemma pc_advance_cases c p b :
  advance c p b =
  if state_eqb (pstate p) Utf8 then perform_action c p ABeginUtf8 b
  else match state_change (pstate p) b with
       | None => None
       | Some (s, a) =>
           if state_eqb s Anywhere then perform_action c p a b else pc_psc3 c p s a b
       end.
Proof.
  unfold advance. destruct (pstate p); try reflexivity;
    (destruct (state_change _ b) as [[s a]|]; [exact (pc_psc_cases c p s a b) | reflexivity]).
Qed.

Lemma pc_psc3_inv c p s a b p' e :
  pc_psc3 c p s a b = Some (p', e) ->
  exists p1 e1 p2 e2 p3 e3,
    perform_action c p (pc_exit_action (pstate p)) b = Some (p1, e1) /\
    perform_action c p1 a b = Some (p2, e2) /\
    perform_action c p2 (pc_entry_action s) b = Some (p3, e3) /\
    p' = set_state p3 s /\ e = e1 ++ e2 ++ e3.
Proof.
  unfold pc_psc3. destruct (perform_action c p _ b) as [[p1 e1]|] eqn:X1; [|discriminate].
  destruct (perform_action c p1 a b) as [[p2 e2]|] eqn:X2; [|discriminate].
  destruct (perform_action c p2 _ b) as [[p3 e3]|] eqn:X3; [|discriminate].
  intros H. injection H as <- <-. exists p1, e1, p2, e2, p3, e3. auto.
Qed.

Lemma pc_puts_spec p b s a :
  state_eqb (pstate p) Utf8 = false -> state_change (pstate p) b = Some (s, a) ->
  pc_puts p b = match a with AOscPut => true | _ => false end.
Proof.
  unfold pc_puts. intros EU ES. destruct (pstate p); try discriminate EU; rewrite ES; reflexivity.
Qed.

Lemma pc_puts_inv p b :
  pc_puts p b = true -> pstate p = OscString /\ state_change OscString b = Some (Anywhere, AOscPut).
Proof.
  intros H. destruct (state_eqb (pstate p) Utf8) eqn:EU.
  { apply pc_state_eqb_eq in EU. unfold pc_puts in H. rewrite EU in H. discriminate H. }
  destruct (state_change (pstate p) b) as [[s a]|] eqn:ES.
  - rewrite (pc_puts_spec _ _ _ _ EU ES) in H. pose proof (pc_table _ _ _ _ ES) as T.
    destruct a; try discriminate H. destruct T as [T ->]. rewrite T in ES. now split.
  - unfold pc_puts in H. destruct (pstate p); try discriminate H; rewrite ES in H; discriminate H.
Qed.

Lemma pc_puts_payload p b : pstate p = OscString -> 32 <= b < 256 -> pc_puts p b = true.
Proof. intros Ep Hb. unfold pc_puts. rewrite Ep, (pc_table_payload b Hb). reflexivity. Qed.

Lemma pc_advance_put c p b : pc_puts p b = true -> advance c p b = perform_action c p AOscPut b.
Proof.
  intros H. destruct (pc_puts_inv _ _ H) as [Ep ES]. rewrite pc_advance_cases, Ep, ES. reflexivity.
Qed.

Lemma pc_action_cap cap u p a b :
  (a = AOscPut -> pc_full cap p = false) ->
  perform_action (mkCfg (Some cap) u) p a b = perform_action (mkCfg None u) p a b.
Proof.
  intros H. destruct a; try reflexivity.
  unfold perform_action, osc_full. cbn [osc_cap]. unfold pc_full in H. now rewrite (H eq_refl).
Qed.

Lemma pc_action_utf8 cap u1 u2 p a b :
  a <> ABeginUtf8 ->
  perform_action (mkCfg cap u1) p a b = perform_action (mkCfg cap u2) p a b.
Proof. intros H. destruct a; try reflexivity. contradiction. Qed.

(* the exit and entry actions do not read the configuration *)
Lemma pc_psc3_ext c1 c2 p s a b :
  (forall q, perform_action c1 q a b = perform_action c2 q a b) ->
  pc_psc3 c1 p s a b = pc_psc3 c2 p s a b.
Proof.
  intros E. unfold pc_psc3.
  replace (perform_action c1 p (pc_exit_action (pstate p)) b)
    with (perform_action c2 p (pc_exit_action (pstate p)) b) by (destruct (pstate p); reflexivity).
  destruct (perform_action c2 p _ b) as [[p1 e1]|]; [|reflexivity].
  rewrite E. destruct (perform_action c2 p1 a b) as [[p2 e2]|]; [|reflexivity].
  replace (perform_action c1 p2 (pc_entry_action s) b)
    with (perform_action c2 p2 (pc_entry_action s) b) by (destruct s; reflexivity).
  reflexivity.
Qed.

Lemma pc_advance_cap cap u p b :
  pc_puts p b && pc_full cap p = false ->
  advance (mkCfg (Some cap) u) p b = advance (mkCfg None u) p b.
Proof.
  intros H. rewrite !pc_advance_cases.
  destruct (state_eqb (pstate p) Utf8) eqn:EU; [reflexivity|].
  destruct (state_change (pstate p) b) as [[s a]|] eqn:ES; [|reflexivity].
  rewrite (pc_puts_spec _ _ _ _ EU ES) in H. pose proof (pc_table _ _ _ _ ES) as T.
  destruct (state_eqb s Anywhere) eqn:EA.
  - apply pc_action_cap. intros ->. exact H.
  - apply pc_psc3_ext. intros q. apply pc_action_cap. intros ->. destruct T as [_ ->]. discriminate EA.
Qed.

Lemma pc_advance_drop cap u p b :
  pc_puts p b = true -> pc_full cap p = true ->
  advance (mkCfg (Some cap) u) p b = Some (p, []).
Proof.
  intros H F. rewrite (pc_advance_put _ _ _ H). unfold perform_action, osc_full. cbn [osc_cap].
  unfold pc_full in F. now rewrite F.
Qed.

Definition pc_begins (p : parser) (b : N) : bool :=
  match state_change (pstate p) b with
  | Some (_, ABeginUtf8) => true
  | _ => false
  end.

Lemma pc_advance_utf8 cap u1 u2 p b :
  pstate p <> Utf8 -> pc_begins p b = false ->
  advance (mkCfg cap u1) p b = advance (mkCfg cap u2) p b.
Proof.
  intros HU HB. rewrite !pc_advance_cases.
  destruct (state_eqb (pstate p) Utf8) eqn:EU; [now apply pc_state_eqb_eq in EU|].
  unfold pc_begins in HB. destruct (state_change (pstate p) b) as [[s a]|]; [|reflexivity].
  assert (Ha : a <> ABeginUtf8) by (intros ->; discriminate HB).
  destruct (state_eqb s Anywhere); [|apply pc_psc3_ext; intros q]; now apply pc_action_utf8.
Qed.

(* With the parser destructed, [pc_simpl] exposes the case distinctions of an
   action and [pc_split] decides the innermost one. *)
Ltac pc_simpl :=
  cbv beta iota zeta delta
    [perform_action finish_params intermediates_of process_utf8 char_add set_osc
     set_ignoring set_params set_param set_inter set_utf8 set_state
     pstate intermediates intermediate_idx pparams pparam osc_raw osc_params osc_num_params
     ignoring utf8_parser].
Ltac pc_split :=
  match goal with
  | |- context [match ?x with _ => _ end] =>
      lazymatch x with
      | context [match _ with _ => _ end] => fail
      | _ => destruct x
      end
  end.

Lemma pc_set_osc_id p : set_osc p (osc_raw p) (osc_params p) (osc_num_params p) = p.
Proof. now destruct p. Qed.

(* pc_action_state, pc_action_raw, pc_action_core and pc_osc_action_core are read off perform_action arm by arm:
   16 actions x the case distinctions [pc_split] finds; nothing else is used *)

Lemma pc_action_state c p a b :
  match perform_action c p a b with
  | Some (p', _) => pstate p' = pstate p \/ (a = ABeginUtf8 /\ pstate p' = Ground)
  | None => True
  end.
Proof. destruct p, a; pc_simpl; repeat pc_split; auto. Qed.

Lemma pc_action_raw c p a b :
  match perform_action c p a b with
  | Some (p', _) =>
      osc_raw p' = osc_raw p \/ osc_raw p' = [] \/
      (a = AOscPut /\ osc_full c p = false /\ osc_raw p' = osc_raw p ++ [b])
  | None => True
  end.
Proof. destruct p, a; pc_simpl; repeat pc_split; auto. Qed.

(* everything but the OSC bookkeeping *)
Definition pc_core (p : parser) : parser := set_osc p [] [] 0.

Lemma pc_core_state p q : pc_core p = pc_core q -> pstate p = pstate q.
Proof. intros H. exact (f_equal pstate H). Qed.

Lemma pc_core_set_state p q s : pc_core p = pc_core q -> pc_core (set_state p s) = pc_core (set_state q s).
Proof. intros H. change (set_state (pc_core p) s = set_state (pc_core q) s). now rewrite H. Qed.

Lemma pc_core_set_osc p r o n : pc_core (set_osc p r o n) = pc_core p.
Proof. reflexivity. Qed.

Lemma pc_core_fields p q :
  pc_core p = pc_core q ->
  pstate p = pstate q /\ intermediates p = intermediates q /\ intermediate_idx p = intermediate_idx q /\
  pparams p = pparams q /\ pparam p = pparam q /\ ignoring p = ignoring q /\ utf8_parser p = utf8_parser q.
Proof.
  destruct p, q. intros H. injection H as -> -> -> -> -> -> ->. repeat split.
Qed.

Definition pc_osc_action (a : action) : bool :=
  match a with AOscStart | AOscPut | AOscEnd => true | _ => false end.

Lemma pc_action_core c p a b :
  pc_osc_action a = false ->
  perform_action c p a b =
  match perform_action c (pc_core p) a b with
  | Some (k, e) => Some (set_osc k (osc_raw p) (osc_params p) (osc_num_params p), e)
  | None => None
  end.
Proof.
  intros Ha. destruct p, a; try discriminate Ha; unfold pc_core; pc_simpl; repeat pc_split; reflexivity.
Qed.

Lemma pc_osc_action_core c p a b :
  pc_osc_action a = true ->
  match perform_action c p a b with
  | Some (p', e) => pc_core p' = pc_core p /\ (a <> AOscEnd -> e = [])
  | None => True
  end.
Proof.
  intros Ha. destruct p, a; try discriminate Ha; pc_simpl; repeat pc_split;
    try (split; [reflexivity | congruence]); exact I.
Qed.

Lemma pc_psc3_state c p s a b p' e : pc_psc3 c p s a b = Some (p', e) -> pstate p' = s.
Proof. intros H. apply pc_psc3_inv in H. now destruct H as (? & ? & ? & ? & ? & ? & _ & _ & _ & -> & _). Qed.

Lemma pc_table_target s b s' a : state_change s b = Some (s', a) -> a <> ABeginUtf8 -> s' <> Utf8.
Proof.
  intros E Ha. pose proof (pc_table _ _ _ _ E) as T.
  destruct a; try contradiction; try apply T. destruct T as [_ ->]. discriminate.
Qed.

Lemma pc_advance_not_utf8 c p b p' e :
  pstate p <> Utf8 -> pc_begins p b = false ->
  advance c p b = Some (p', e) -> pstate p' <> Utf8.
Proof.
  intros HU HB. rewrite pc_advance_cases.
  destruct (state_eqb (pstate p) Utf8) eqn:EU; [now apply pc_state_eqb_eq in EU|].
  unfold pc_begins in HB. destruct (state_change (pstate p) b) as [[s a]|] eqn:ES; [|discriminate].
  assert (Ha : a <> ABeginUtf8) by (intros ->; discriminate HB).
  destruct (state_eqb s Anywhere); intros H.
  - pose proof (pc_action_state c p a b) as S. rewrite H in S.
    destruct S as [S | [S _]]; [congruence | contradiction].
  - rewrite (pc_psc3_state _ _ _ _ _ _ _ H). exact (pc_table_target _ _ _ _ ES Ha).
Qed.

Lemma pc_begins_inv p b : pc_begins p b = true -> pstate p = Ground /\ 194 <= b <= 244.
Proof.
  unfold pc_begins. destruct (state_change (pstate p) b) as [[s a]|] eqn:ES; [|discriminate].
  pose proof (pc_table _ _ _ _ ES) as T. destruct a; try discriminate. intros _. split; apply T.
Qed.

Lemma pc_seven_no_begin p b : b < 128 -> pc_begins p b = false.
Proof. intros Hb. destruct (pc_begins p b) eqn:B; [|reflexivity]. apply pc_begins_inv in B. lia. Qed.

Lemma pc_run_cons c p b rest :
  run c p (b :: rest) =
  match advance c p b with
  | Some (p1, e1) => match run c p1 rest with
                     | Some (p2, e2) => Some (p2, e1 ++ e2)
                     | None => None
                     end
  | None => None
  end.
Proof. reflexivity. Qed.

Lemma pc_run_cons_inv c p b rest p' e :
  run c p (b :: rest) = Some (p', e) ->
  exists p1 e1 e2, advance c p b = Some (p1, e1) /\ run c p1 rest = Some (p', e2) /\ e = e1 ++ e2.
Proof.
  rewrite pc_run_cons. destruct (advance c p b) as [[p1 e1]|]; [|discriminate].
  destruct (run c p1 rest) as [[p2 e2]|] eqn:R; [|discriminate].
  intros H. injection H as <- <-. exists p1, e1, e2. auto.
Qed.

Lemma pc_run_nil_events c p rest :
  match run c p rest with Some (p2, e2) => Some (p2, [] ++ e2) | None => None end = run c p rest.
Proof. destruct (run c p rest) as [[p2 e2]|]; reflexivity. Qed.

Lemma pc_run_app c p bs1 bs2 :
  run c p (bs1 ++ bs2) =
  match run c p bs1 with
  | Some (p1, e1) => match run c p1 bs2 with
                     | Some (p2, e2) => Some (p2, e1 ++ e2)
                     | None => None
                     end
  | None => None
  end.
Proof.
  revert p. induction bs1 as [|b bs1 IH]; intros p.
  - cbn [app run]. now rewrite pc_run_nil_events.
  - cbn [app]. rewrite !pc_run_cons. destruct (advance c p b) as [[p1 e1]|]; [|reflexivity].
    rewrite IH. destruct (run c p1 bs1) as [[p2 e2]|]; [|reflexivity].
    destruct (run c p2 bs2) as [[p3 e3]|]; [|reflexivity]. now rewrite app_assoc.
Qed.

Lemma pc_run_utf8_split cap u1 u2 : forall bs p,
  pstate p <> Utf8 ->
  run (mkCfg cap u1) p bs = run (mkCfg cap u2) p bs \/
  exists pre b post q e,
    bs = pre ++ b :: post /\ pc_begins q b = true /\
    run (mkCfg cap u1) p pre = Some (q, e) /\ run (mkCfg cap u2) p pre = Some (q, e).
Proof.
  induction bs as [|b bs IH]; intros p HU; [now left|].
  destruct (pc_begins p b) eqn:B; [right; exists [], b, bs, p, []; auto|].
  pose proof (pc_advance_utf8 cap u1 u2 p b HU B) as EA. rewrite !pc_run_cons, EA.
  destruct (advance (mkCfg cap u2) p b) as [[p1 e1]|] eqn:A; [|now left].
  destruct (IH p1 (pc_advance_not_utf8 _ _ _ _ _ HU B A)) as [E | (pre & b' & post & q & e & -> & Bq & R1 & R2)].
  - left. now rewrite E.
  - right. exists (b :: pre), b', post, q, (e1 ++ e). cbn [app]. now rewrite !pc_run_cons, EA, A, R1, R2.
Qed.

Lemma pc_run_utf8_irrelevant cap u1 u2 bs p :
  pc_seven_bit bs -> pstate p <> Utf8 ->
  run (mkCfg cap u1) p bs = run (mkCfg cap u2) p bs.
Proof.
  intros H7 HU. destruct (pc_run_utf8_split cap u1 u2 bs p HU) as [E | (pre & b & post & q & e & -> & B & _)]; [exact E|].
  apply Forall_elt in H7. rewrite (pc_seven_no_begin q b H7) in B. discriminate B.
Qed.

(* utf8 off: the only additional panic is a byte for BeginUtf8, C2..F4 in Ground *)
Lemma pc_no_utf8_panic cap : forall bs p,
  pstate p <> Utf8 ->
  run (mkCfg cap false) p bs = None -> run (mkCfg cap true) p bs <> None ->
  exists pre b post q e,
    bs = pre ++ b :: post /\ run (mkCfg cap true) p pre = Some (q, e) /\
    pstate q = Ground /\ 194 <= b <= 244.
Proof.
  intros bs p HU H0 H1.
  destruct (pc_run_utf8_split cap false true bs p HU) as [E | (pre & b & post & q & e & -> & B & _ & R)].
  - rewrite E in H0. contradiction.
  - exists pre, b, post, q, e. exact (conj eq_refl (conj R (pc_begins_inv q b B))).
Qed.

(* the fixed-buffer run is the heap run on the truncated input -- for every input,
   with the same final parser, the same events and the same panics *)
Lemma pc_run_trunc cap u : forall bs p,
  run (mkCfg (Some cap) u) p bs = run (mkCfg None u) p (pc_trunc cap u p bs).
Proof.
  induction bs as [|b bs IH]; intros p; [reflexivity|].
  cbn [pc_trunc]. destruct (pc_puts p b && pc_full cap p) eqn:D.
  - apply andb_prop in D. destruct D as [D1 D2].
    rewrite pc_run_cons, (pc_advance_drop cap u p b D1 D2), pc_run_nil_events. apply IH.
  - rewrite !pc_run_cons, (pc_advance_cap cap u p b D).
    destruct (advance (mkCfg None u) p b) as [[p1 e1]|]; [|reflexivity].
    now rewrite IH.
Qed.

Lemma pc_fit_trunc_id cap u : forall bs p, pc_fitb cap u p bs = true -> pc_trunc cap u p bs = bs.
Proof.
  induction bs as [|b bs IH]; intros p H; [reflexivity|].
  cbn [pc_fitb] in H. apply andb_prop in H. destruct H as [H1 H2].
  apply negb_true_iff in H1. cbn [pc_trunc]. rewrite H1.
  destruct (advance (mkCfg None u) p b) as [[p1 e1]|]; [|reflexivity].
  now rewrite (IH p1 H2).
Qed.

Lemma pc_trunc_sub (P : N -> Prop) cap u : forall bs p, Forall P bs -> Forall P (pc_trunc cap u p bs).
Proof.
  induction bs as [|b bs IH]; intros p H; [constructor|].
  inversion H as [|? ? Hb Hrest]; subst. cbn [pc_trunc].
  destruct (pc_puts p b && pc_full cap p); [apply IH, Hrest|].
  constructor; [exact Hb|]. destruct (advance (mkCfg None u) p b) as [[p' ?]|]; [apply IH, Hrest|exact Hrest].
Qed.

Lemma pc_run_fit cap u bs p :
  pc_fitb cap u p bs = true -> run (mkCfg (Some cap) u) p bs = run (mkCfg None u) p bs.
Proof. intros H. now rewrite pc_run_trunc, (pc_fit_trunc_id _ _ _ _ H). Qed.

Lemma pc_run_is_default c bs :
  pc_seven_bit bs -> pc_cfg_fits c bs -> run c parser_new bs = run cfg_default parser_new bs.
Proof.
  assert (N0 : pstate parser_new <> Utf8) by discriminate.
  intros H7 HF. destruct c as [[cap|] u]; unfold cfg_default.
  - rewrite (pc_run_utf8_irrelevant (Some cap) u true bs parser_new H7 N0).
    apply pc_run_fit. now apply HF.
  - exact (pc_run_utf8_irrelevant None u true bs parser_new H7 N0).
Qed.

(* C20, first half: on 7-bit input whose OSC payloads fit every configured
   buffer, any two configurations run identically (final parser, events, panics) *)
Lemma pc_cfg_equiv c1 c2 bs :
  pc_seven_bit bs -> pc_cfg_fits c1 bs -> pc_cfg_fits c2 bs ->
  run c1 parser_new bs = run c2 parser_new bs.
Proof. intros H7 F1 F2. now rewrite (pc_run_is_default c1), (pc_run_is_default c2). Qed.

Lemma pc_cfgs_fit c bs : In c pc_cfgs -> pc_osc_fit pc_max_osc_raw bs -> pc_cfg_fits c bs.
Proof.
  rewrite pc_cfgs_are. intros H F cap E. cbn [In] in H.
  destruct H as [<-|[<-|[<-|[<-|[]]]]]; cbn in E; try discriminate E; inversion E; subst; exact F.
Qed.

(* the four feature sets of the property *)
Lemma pc_four_builds_equiv c1 c2 bs :
  In c1 pc_cfgs -> In c2 pc_cfgs -> pc_seven_bit bs -> pc_osc_fit pc_max_osc_raw bs ->
  pc_events c1 bs = pc_events c2 bs.
Proof.
  intros I1 I2 H7 F. unfold pc_events.
  now rewrite (pc_cfg_equiv c1 c2 bs H7 (pc_cfgs_fit _ _ I1 F) (pc_cfgs_fit _ _ I2 F)).
Qed.

Definition pc_within (cap : N) (p : parser) : Prop := N.of_nat (length (osc_raw p)) <= cap.

Lemma pc_action_within cap u p a b p' e :
  pc_within cap p -> perform_action (mkCfg (Some cap) u) p a b = Some (p', e) -> pc_within cap p'.
Proof.
  unfold pc_within. intros W H. pose proof (pc_action_raw (mkCfg (Some cap) u) p a b) as R.
  rewrite H in R. destruct R as [R | [R | [_ [F R]]]]; rewrite R.
  - exact W.
  - cbn. lia.
  - apply N.eqb_neq in F. rewrite app_length. cbn [length]. lia.
Qed.

Lemma pc_advance_within cap u p b p' e :
  pc_within cap p -> advance (mkCfg (Some cap) u) p b = Some (p', e) -> pc_within cap p'.
Proof.
  intros W. rewrite pc_advance_cases.
  destruct (state_eqb (pstate p) Utf8); [exact (pc_action_within _ _ _ _ _ _ _ W)|].
  destruct (state_change (pstate p) b) as [[s a]|]; [|discriminate].
  destruct (state_eqb s Anywhere); [exact (pc_action_within _ _ _ _ _ _ _ W)|].
  intros H. apply pc_psc3_inv in H. destruct H as (p1 & e1 & p2 & e2 & p3 & e3 & X1 & X2 & X3 & -> & _).
  exact (pc_action_within _ _ _ _ _ _ _
           (pc_action_within _ _ _ _ _ _ _ (pc_action_within _ _ _ _ _ _ _ W X1) X2) X3).
Qed.

Lemma pc_run_within cap u : forall bs p p' e,
  pc_within cap p -> run (mkCfg (Some cap) u) p bs = Some (p', e) -> pc_within cap p'.
Proof.
  induction bs as [|b bs IH]; intros p p' e W H.
  - injection H as <- _. exact W.
  - apply pc_run_cons_inv in H. destruct H as (p1 & e1 & e2 & A & R & _).
    exact (IH _ _ _ (pc_advance_within _ _ _ _ _ _ W A) R).
Qed.

(* at every point of every run from a fresh parser the buffer holds at most
   [cap] bytes; hence ArrayVec::push (reached only when the guard found the
   buffer not full) always has room *)
Lemma pc_osc_never_overflows cap u bs1 bs2 p' e :
  run (mkCfg (Some cap) u) parser_new (bs1 ++ bs2) = Some (p', e) ->
  exists p1 e1, run (mkCfg (Some cap) u) parser_new bs1 = Some (p1, e1) /\
                N.of_nat (length (osc_raw p1)) <= cap /\
                N.of_nat (length (osc_raw p')) <= cap.
Proof.
  rewrite pc_run_app. destruct (run _ parser_new bs1) as [[p1 e1]|] eqn:R1; [|discriminate].
  destruct (run _ p1 bs2) as [[p2 e2]|] eqn:R2; [|discriminate].
  intros H. injection H as <- _. exists p1, e1. split; [reflexivity|].
  assert (W0 : pc_within cap parser_new) by apply N.le_0_l.
  pose proof (pc_run_within _ _ _ _ _ _ W0 R1) as W1.
  split; [exact W1 | exact (pc_run_within _ _ _ _ _ _ W1 R2)].
Qed.

Lemma pc_push_has_room cap u p b p' e :
  pc_within cap p -> perform_action (mkCfg (Some cap) u) p AOscPut b = Some (p', e) ->
  length (osc_raw p') = S (length (osc_raw p)) -> N.of_nat (length (osc_raw p)) < cap.
Proof.
  unfold pc_within. intros W H L. pose proof (pc_action_raw (mkCfg (Some cap) u) p AOscPut b) as R.
  rewrite H in R. destruct R as [R | [R | [_ [F R]]]].
  - rewrite R in L. lia.
  - rewrite R in L. discriminate L.
  - apply N.eqb_neq in F. lia.
Qed.

(* the live part of the OSC bookkeeping agrees (entries of osc_params at or
   above osc_num_params are never read before they are rewritten) *)
Definition pc_synced (p1 p2 : parser) : Prop :=
  osc_raw p1 = osc_raw p2 /\ osc_num_params p1 = osc_num_params p2 /\
  forall i, i < osc_num_params p1 -> aget (osc_params p1) i = aget (osc_params p2) i.

(* equal up to dead data: the OSC bookkeeping is live only inside an OSC string
   (OscStart resets it on entry) *)
Definition pc_sync (p1 p2 : parser) : Prop :=
  pc_core p1 = pc_core p2 /\ (pstate p1 = OscString -> pc_synced p1 p2).

Lemma pc_sync_refl p : pc_sync p p.
Proof. split; [reflexivity|]. intros _. repeat split; reflexivity. Qed.

Lemma pc_sync_outside p q : pc_core p = pc_core q -> pstate q <> OscString -> pc_sync p q.
Proof. intros HC N. split; [exact HC|]. intros X. rewrite (pc_core_state _ _ HC) in X. contradiction. Qed.

(* OscPut on ';' and OscEnd record a field boundary by the same code, [osc_semi] *)
Lemma pc_put_is c p b :
  perform_action c p AOscPut b =
  if osc_full c p then Some (p, [])
  else if b =? 59 then p' <- osc_semi p ;; Some (p', [])
  else Some (set_osc p (osc_raw p ++ [b]) (osc_params p) (osc_num_params p), []).
Proof. unfold perform_action, osc_semi. repeat pc_split; reflexivity. Qed.

Lemma pc_end_is c p b :
  perform_action c p AOscEnd b = p' <- osc_semi p ;; ev <- osc_dispatch p' b ;; Some (p', ev).
Proof. reflexivity. Qed.

Lemma pc_put_raw u p b p' e :
  perform_action (mkCfg None u) p AOscPut b = Some (p', e) ->
  pstate p' = pstate p /\ osc_raw p' = if b =? 59 then osc_raw p else osc_raw p ++ [b].
Proof.
  rewrite pc_put_is. change (osc_full (mkCfg None u) p) with false. cbv iota.
  destruct (b =? 59); [unfold osc_semi; repeat pc_split|]; intros H; try discriminate H; injection H as <- _; auto.
Qed.

Lemma pc_aset_get {A} (l : list A) i v l' j :
  aset l i v = Some l' -> aget l' j = if j =? i then Some v else aget l j.
Proof.
  unfold aset, aget. intros H. destruct (N.eqb_spec j i) as [->|E].
  - exact (aset_nat_nth_eq _ _ _ _ H).
  - apply (aset_nat_nth_neq _ _ _ _ _ H). lia.
Qed.

Lemma pc_semi_sync p1 p2 q1 q2 :
  pc_synced p1 p2 -> osc_semi p1 = Some q1 -> osc_semi p2 = Some q2 -> pc_synced q1 q2.
Proof.
  intros (HR & HN & HO). unfold osc_semi. rewrite <- HR, <- HN. set (num := osc_num_params p1) in *.
  destruct (num =? MAX_OSC_PARAMS).
  { intros H1 H2. injection H1 as <-. injection H2 as <-. exact (conj HR (conj HN HO)). }
  (* the new entry is the same on both sides, the old ones agree below [num] *)
  assert (K : forall v,
    (ops <- aset (osc_params p1) num v ;; Some (set_osc p1 (osc_raw p1) ops (num + 1))) = Some q1 ->
    (ops <- aset (osc_params p2) num v ;; Some (set_osc p2 (osc_raw p1) ops (num + 1))) = Some q2 ->
    pc_synced q1 q2).
  { intros v. destruct (aset (osc_params p1) num v) as [a1|] eqn:A1; [|discriminate].
    destruct (aset (osc_params p2) num v) as [a2|] eqn:A2; [|discriminate].
    intros H1 H2. injection H1 as <-. injection H2 as <-. split; [reflexivity|]. split; [reflexivity|].
    cbn [set_osc osc_params osc_num_params]. intros i Hi.
    rewrite (pc_aset_get _ _ _ _ i A1), (pc_aset_get _ _ _ _ i A2).
    destruct (N.eqb_spec i num); [reflexivity|]. apply HO. lia. }
  destruct (num =? 0) eqn:E0; [apply K|].
  unfold csub. destruct (1 <=? num); [|discriminate].
  apply N.eqb_neq in E0. rewrite <- (HO (num - 1)) by lia.
  destruct (aget (osc_params p1) (num - 1)) as [[x y]|]; [apply K | discriminate].
Qed.

Lemma pc_slices_sync p1 p2 : pc_synced p1 p2 ->
  forall fuel i, osc_slices fuel p1 i = osc_slices fuel p2 i.
Proof.
  intros (HR & HN & HO). induction fuel as [|f IH]; intros i; [reflexivity|].
  cbn [osc_slices]. rewrite <- HN. destruct (osc_num_params p1 <=? i) eqn:L; [reflexivity|].
  apply N.leb_gt in L. rewrite <- (HO i L), <- HR.
  destruct (aget (osc_params p1) i) as [[x y]|]; [|reflexivity].
  destruct (slice (osc_raw p1) x y); [|reflexivity]. now rewrite IH.
Qed.

Lemma pc_dispatch_sync p1 p2 b : pc_synced p1 p2 -> osc_dispatch p1 b = osc_dispatch p2 b.
Proof.
  intros H. unfold osc_dispatch. rewrite (pc_slices_sync p1 p2 H). destruct H as (_ & <- & _). reflexivity.
Qed.

(* the simulation step: the events can differ only where they are computed from
   the OSC bookkeeping, in OscEnd; agreement of the live OSC bookkeeping is
   established by OscStart and preserved by every action *)
Lemma pc_action_sim c p1 p2 a b p1' e1 p2' e2 :
  pc_core p1 = pc_core p2 ->
  perform_action c p1 a b = Some (p1', e1) -> perform_action c p2 a b = Some (p2', e2) ->
  pc_core p1' = pc_core p2' /\
  ((a = AOscEnd -> pc_synced p1 p2) -> e1 = e2) /\
  (pc_synced p1 p2 \/ a = AOscStart -> pc_synced p1' p2').
Proof.
  intros HC H1 H2. destruct (pc_osc_action a) eqn:Ea.
  - pose proof (pc_osc_action_core c p1 a b Ea) as K1. rewrite H1 in K1. destruct K1 as [C1 N1].
    pose proof (pc_osc_action_core c p2 a b Ea) as K2. rewrite H2 in K2. destruct K2 as [C2 N2].
    assert (EV : a <> AOscEnd -> e1 = e2) by (intros NE; now rewrite (N1 NE), (N2 NE)).
    split; [congruence|]. destruct a; try discriminate Ea; clear Ea.
    + rewrite pc_end_is in H1, H2.
      destruct (osc_semi p1) as [q1|] eqn:F1; [|discriminate]. destruct (osc_semi p2) as [q2|] eqn:F2; [|discriminate].
      assert (S : pc_synced p1 p2 -> pc_synced q1 q2) by (intros S0; exact (pc_semi_sync _ _ _ _ S0 F1 F2)).
      destruct (osc_dispatch q1 b) as [v1|] eqn:D1; [|discriminate]. destruct (osc_dispatch q2 b) as [v2|] eqn:D2; [|discriminate].
      injection H1 as <- <-. injection H2 as <- <-. split.
      * intros S0. rewrite (pc_dispatch_sync _ _ b (S (S0 eq_refl))) in D1. congruence.
      * intros [S0|]; [exact (S S0) | discriminate].
    + split; [intros _; apply EV; discriminate|].
      intros [S0|]; [|discriminate]. rewrite pc_put_is in H1, H2.
      replace (osc_full c p2) with (osc_full c p1) in H2 by (unfold osc_full; now rewrite (proj1 S0)).
      destruct (osc_full c p1); [injection H1 as <-; injection H2 as <-; exact S0|].
      destruct (b =? 59).
      * destruct (osc_semi p1) as [q1|] eqn:F1; [|discriminate]. destruct (osc_semi p2) as [q2|] eqn:F2; [|discriminate].
        injection H1 as <-. injection H2 as <-. exact (pc_semi_sync _ _ _ _ S0 F1 F2).
      * injection H1 as <-. injection H2 as <-. destruct S0 as (HR & HN & HO).
        split; [exact (f_equal (fun r => r ++ [b]) HR) | exact (conj HN HO)].
    + split; [intros _; apply EV; discriminate|].
      intros _. injection H1 as <-. injection H2 as <-.
      split; [reflexivity|]. split; [reflexivity|]. intros i Hi. now apply N.nlt_0_r in Hi.
  - (* the same computation on the common core; the OSC bookkeeping is carried along *)
    rewrite pc_action_core in H1, H2 by exact Ea. rewrite HC in H1.
    destruct (perform_action c (pc_core p2) a b) as [[k e]|]; [|discriminate].
    injection H1 as <- <-. injection H2 as <- <-.
    split; [reflexivity|]. split; [reflexivity|]. intros [S0| ->]; [exact S0 | discriminate Ea].
Qed.

Lemma pc_sync_step c p1 p2 b p1' e1 p2' e2 :
  pc_core p1 = pc_core p2 ->
  advance c p1 b = Some (p1', e1) -> advance c p2 b = Some (p2', e2) ->
  pc_core p1' = pc_core p2' /\ (pc_sync p1 p2 -> e1 = e2 /\ pc_sync p1' p2').
Proof.
  intros HC. pose proof (pc_core_state _ _ HC) as HS.
  (* a single action other than OscEnd; the next state is the old one, or Ground *)
  assert (ONE : forall a, a <> AOscEnd ->
    perform_action c p1 a b = Some (p1', e1) -> perform_action c p2 a b = Some (p2', e2) ->
    pc_core p1' = pc_core p2' /\ (pc_sync p1 p2 -> e1 = e2 /\ pc_sync p1' p2')).
  { intros a NE H1 H2. destruct (pc_action_sim c p1 p2 a b _ _ _ _ HC H1 H2) as (Q1 & Q2 & Q3).
    split; [exact Q1|].
    intros [_ SY]. refine (conj _ (conj Q1 _)).
    - (* the same effects *)
      apply Q2. intros ->. contradiction.
    - (* the bookkeeping: the state is OscString after the action, hence was before *)
      intros X. apply Q3. left. apply SY.
      pose proof (pc_action_state c p1 a b) as S. rewrite H1 in S. destruct S as [S|[_ S]]; congruence. }
  rewrite !pc_advance_cases, <- HS.
  destruct (state_eqb (pstate p1) Utf8); [apply ONE; discriminate|].
  destruct (state_change (pstate p1) b) as [[s a]|] eqn:ES; [|discriminate].
  pose proof (pc_table _ _ _ _ ES) as T.
  assert (NE : a <> AOscEnd) by (intros ->; exact T).
  destruct (state_eqb s Anywhere); [exact (ONE a NE)|]. intros H1 H2.
  (* a transition: exit action, action, entry action *)
  apply pc_psc3_inv in H1, H2.
  destruct H1 as (q1 & x1 & q2 & x2 & q3 & x3 & X1 & X2 & X3 & -> & ->).
  destruct H2 as (r1 & y1 & r2 & y2 & r3 & y3 & Y1 & Y2 & Y3 & -> & ->).
  rewrite <- HS in Y1.
  destruct (pc_action_sim _ _ _ _ _ _ _ _ _ HC X1 Y1) as (C1 & N1 & _).
  destruct (pc_action_sim _ _ _ _ _ _ _ _ _ C1 X2 Y2) as (C2 & N2 & _).
  destruct (pc_action_sim _ _ _ _ _ _ _ _ _ C2 X3 Y3) as (C3 & N3 & S3).
  split; [now apply pc_core_set_state|]. intros [_ SY]. split.
  - f_equal; [|f_equal].
    + apply N1. intros E. apply SY. destruct (pstate p1); first [reflexivity | discriminate E].
    + apply N2. intros ->. contradiction.
    + apply N3. destruct s; discriminate.
  - split; [now apply pc_core_set_state|]. intros X. change (s = OscString) in X. subst s. apply S3. now right.
Qed.

(* fixed buffer against heap: a byte the fixed buffer drops changes the OSC
   bookkeeping of the heap parser only, and none is dropped while the two are
   in sync and the byte fits *)
Lemma pc_fixed_step cap u pf pd b pf' ef pd' ed :
  pc_core pf = pc_core pd ->
  advance (mkCfg (Some cap) u) pf b = Some (pf', ef) ->
  advance (mkCfg None u) pd b = Some (pd', ed) ->
  pc_core pf' = pc_core pd' /\
  (pc_sync pf pd -> pc_puts pd b && pc_full cap pd = false -> ef = ed /\ pc_sync pf' pd').
Proof.
  intros HC HF HD. destruct (pc_puts pf b && pc_full cap pf) eqn:D.
  - apply andb_prop in D. destruct D as [D1 D2].
    rewrite (pc_advance_drop cap u pf b D1 D2) in HF. injection HF as <- _.
    destruct (pc_puts_inv _ _ D1) as [Ep _].
    unfold pc_puts in D1. rewrite (pc_core_state _ _ HC) in D1. fold (pc_puts pd b) in D1.
    rewrite (pc_advance_put _ _ _ D1) in HD.
    pose proof (pc_osc_action_core (mkCfg None u) pd AOscPut b eq_refl) as K. rewrite HD in K.
    split; [destruct K; congruence|]. intros [_ SY] N. exfalso.
    unfold pc_full in *. rewrite D1, <- (proj1 (SY Ep)), D2 in N. discriminate N.
  - rewrite (pc_advance_cap cap u pf b D) in HF.
    destruct (pc_sync_step _ _ _ _ _ _ _ _ HC HF HD) as [Q1 Q2]. split; [exact Q1 | intros S _; exact (Q2 S)].
Qed.

Lemma pc_fixed_run cap u : forall bs pf pd pf' ef pd' ed,
  pc_core pf = pc_core pd ->
  run (mkCfg (Some cap) u) pf bs = Some (pf', ef) ->
  run (mkCfg None u) pd bs = Some (pd', ed) ->
  pc_core pf' = pc_core pd' /\
  (pc_sync pf pd -> pc_fitb cap u pd bs = true -> ef = ed /\ pc_sync pf' pd').
Proof.
  induction bs as [|b bs IH]; intros pf pd pf' ef pd' ed HC HF HD.
  - injection HF as <- <-. injection HD as <- <-. auto.
  - apply pc_run_cons_inv in HF, HD.
    destruct HF as (pf1 & ef1 & ef2 & AF & RF & ->). destruct HD as (pd1 & ed1 & ed2 & AD & RD & ->).
    destruct (pc_fixed_step _ _ _ _ _ _ _ _ _ HC AF AD) as [C1 Q].
    destruct (IH _ _ _ _ _ _ C1 RF RD) as [C2 R]. split; [exact C2|].
    intros S F. cbn [pc_fitb] in F. rewrite AD in F. apply andb_prop in F. destruct F as [F1 F2].
    apply negb_true_iff in F1. destruct (Q S F1) as [E1 S1]. destruct (R S1 F2) as [E2 S2].
    split; [congruence | exact S2].
Qed.

(* C20, second half.  Feed any input [bs1] to the fixed-buffer parser and to
   the heap parser; whenever that leaves the parsers outside an OSC string (for
   instance right after the terminator of an oversize OSC string):
   - parser state and every piece of bookkeeping outside the (now dead) OSC
     fields are equal;
   - on every continuation [bs2] whose own OSC payloads fit, both emit the same
     events and end in states that are again equal up to dead OSC data. *)
Lemma pc_after_osc_unaffected cap u bs1 bs2 pf1 ef1 pd1 ed1 pf2 ef2 pd2 ed2 :
  run (mkCfg (Some cap) u) parser_new bs1 = Some (pf1, ef1) ->
  run (mkCfg None u) parser_new bs1 = Some (pd1, ed1) ->
  pstate pd1 <> OscString ->
  pc_fitb cap u pd1 bs2 = true ->
  run (mkCfg (Some cap) u) pf1 bs2 = Some (pf2, ef2) ->
  run (mkCfg None u) pd1 bs2 = Some (pd2, ed2) ->
  pc_core pf1 = pc_core pd1 /\ ef2 = ed2 /\ pc_sync pf2 pd2.
Proof.
  intros R1 R2 N F S1 S2.
  destruct (pc_fixed_run cap u bs1 _ _ _ _ _ _ eq_refl R1 R2) as [HC _].
  split; [exact HC|]. exact (proj2 (pc_fixed_run cap u bs2 _ _ _ _ _ _ HC S1 S2) (pc_sync_outside _ _ HC N) F).
Qed.

Lemma pc_core_always cap u bs pf ef pd ed :
  run (mkCfg (Some cap) u) parser_new bs = Some (pf, ef) ->
  run (mkCfg None u) parser_new bs = Some (pd, ed) ->
  pstate pf = pstate pd /\ intermediates pf = intermediates pd /\
  intermediate_idx pf = intermediate_idx pd /\ pparams pf = pparams pd /\
  pparam pf = pparam pd /\ ignoring pf = ignoring pd /\ utf8_parser pf = utf8_parser pd.
Proof.
  intros R1 R2. exact (pc_core_fields _ _ (proj1 (pc_fixed_run cap u bs _ _ _ _ _ _ eq_refl R1 R2))).
Qed.

Lemma pc_cut_zero body : pc_cut 0 body = [].
Proof. destruct body; reflexivity. Qed.

Lemma pc_trunc_full cap u p : forall body,
  pstate p = OscString -> Forall (fun b => 32 <= b < 256) body -> pc_full cap p = true ->
  pc_trunc cap u p body = [].
Proof.
  induction body as [|b body IH]; intros Ep HB F; [reflexivity|].
  inversion HB; subst. cbn [pc_trunc]. rewrite (pc_puts_payload p b Ep), F by assumption.
  cbn [andb]. now apply IH.
Qed.

(* inside an OSC string, on payload bytes, [pc_trunc] keeps exactly the bytes up
   to and excluding the first one that arrives when [cap] bytes other than ';'
   have been stored: [pc_cut] with the free room *)
Lemma pc_trunc_payload cap u : forall body p p' e,
  pstate p = OscString -> Forall (fun b => 32 <= b < 256) body -> pc_within cap p ->
  run (mkCfg None u) p body = Some (p', e) ->
  pc_trunc cap u p body = pc_cut (N.to_nat (cap - N.of_nat (length (osc_raw p)))) body.
Proof.
  induction body as [|b body IH]; intros p p' e Ep HB W R; [reflexivity|].
  inversion HB as [|? ? Hb HB']; subst.
  destruct (pc_full cap p) eqn:F.
  - rewrite (pc_trunc_full cap u p (b :: body) Ep HB F). unfold pc_full in F. apply N.eqb_eq in F.
    rewrite F, N.sub_diag. reflexivity.
  - cbn [pc_trunc]. rewrite F, andb_false_r.
    apply pc_run_cons_inv in R. destruct R as (p1 & e1 & e2 & A & R1 & _). rewrite A.
    rewrite (pc_advance_put _ _ _ (pc_puts_payload p b Ep Hb)) in A.
    destruct (pc_put_raw _ _ _ _ _ A) as [S PF].
    unfold pc_full in F. apply N.eqb_neq in F. unfold pc_within in W.
    assert (W1 : pc_within cap p1).
    { unfold pc_within. rewrite PF. destruct (b =? 59); [exact W|].
      rewrite app_length. cbn [length]. lia. }
    rewrite (IH _ _ _ (eq_trans S Ep) HB' W1 R1).
    destruct (N.to_nat (cap - N.of_nat (length (osc_raw p)))) as [|k] eqn:K; [lia|].
    cbn [pc_cut]. do 2 f_equal. rewrite PF. destruct (b =? 59); [exact K|].
    rewrite app_length. cbn [length]. lia.
Qed.

Lemma pc_run_payload u : forall body p,
  pstate p = OscString -> Forall (fun b => 32 <= b < 256 /\ b <> 59) body ->
  run (mkCfg None u) p body = Some (set_osc p (osc_raw p ++ body) (osc_params p) (osc_num_params p), []).
Proof.
  induction body as [|b body IH]; intros p Ep HB.
  - cbn [run]. now rewrite app_nil_r, pc_set_osc_id.
  - inversion HB as [|? ? [Hb N59] HB']; subst. apply N.eqb_neq in N59.
    rewrite pc_run_cons, (pc_advance_put _ _ _ (pc_puts_payload p b Ep Hb)), pc_put_is.
    change (osc_full (mkCfg None u) p) with false. cbv iota.
    rewrite N59, (IH (set_osc p (osc_raw p ++ [b]) (osc_params p) (osc_num_params p)) Ep HB').
    cbn. now rewrite <- app_assoc.
Qed.

Lemma pc_cut_plain : forall body room, Forall (fun b => b <> 59) body -> pc_cut room body = firstn room body.
Proof.
  induction body as [|b body IH]; intros [|k] HB; try reflexivity.
  inversion HB as [|? ? N59 HB']; subst. apply N.eqb_neq in N59.
  cbn [pc_cut firstn]. rewrite N59, (IH k HB'). reflexivity.
Qed.

Lemma pc_run_payload_fixed cap u body p :
  pstate p = OscString -> Forall (fun b => 32 <= b < 256 /\ b <> 59) body -> pc_within cap p ->
  run (mkCfg (Some cap) u) p body =
  Some (set_osc p (osc_raw p ++ firstn (N.to_nat (cap - N.of_nat (length (osc_raw p)))) body)
                (osc_params p) (osc_num_params p), []).
Proof.
  intros Ep HB W.
  assert (HB1 : Forall (fun b => 32 <= b < 256) body) by (eapply Forall_impl; [|exact HB]; now intros b [H _]).
  assert (HB2 : Forall (fun b => b <> 59) body) by (eapply Forall_impl; [|exact HB]; now intros b [_ H]).
  rewrite pc_run_trunc, (pc_trunc_payload cap u body p _ _ Ep HB1 W (pc_run_payload u body p Ep HB)), (pc_cut_plain _ _ HB2).
  apply pc_run_payload; [exact Ep|].
  rewrite <- (firstn_skipn (N.to_nat (cap - N.of_nat (length (osc_raw p)))) body) in HB. exact (proj1 (proj1 (Forall_app _ _ _) HB)).
Qed.
