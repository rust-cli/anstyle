(* The no-panic theorems of C04 carried over to the translated code
   (Generated/*Fn.v): a translated function answers [None] exactly where the Rust code would
   panic (index, slice, checked arithmetic, unwrap, fuel), so "never None" on the translation
   is panic-freedom of the function as written in the source. *)
From Coq Require Import NArith List Bool.
From AV Require Import Generated.Table Spec.Vt Spec.Lossy Model.Base Model.Imp Model.Utf8parse Model.Parser Model.Strip Model.Wincon
  Model.Lossy Model.Git Model.Ls Model.Roff Model.Text
  Proofs.NoPanic Proofs.ParserSim Proofs.ParserCor Proofs.StripStr Proofs.StripSim Proofs.WinconRuns Proofs.Lossy Proofs.Git Proofs.LsParse Proofs.Roff
  Generated.ParserFn Proofs.ParserGen Generated.StripFn Proofs.StripGen Generated.WinconFn Proofs.WinconGen
  Generated.LossyFn Proofs.LossyGen Generated.LsFn Proofs.LsGen Generated.GitFn Proofs.GitGen Generated.RoffFn Proofs.RoffGen.
Import ListNotations.
Local Open Scope N_scope.

Theorem translated_parser_never_panics bs :
  Forall (fun b => b < 256) bs -> g_run cfg_default parser_new [] bs <> None.
Proof.
  intros H. rewrite translated_parser_is_model.
  pose proof (parser_never_panics bs H) as E. unfold events_model in E.
  destruct (run cfg_default parser_new bs) as [[? ?]|]; congruence.
Qed.

Theorem translated_strip_bytes_never_panics input :
  Forall (fun b => b < 256) input -> g_stripped_bytes_into_vec (g_strip_bytes input) <> None.
Proof.
  intros H. rewrite g_strip_bytes_into_vec_is_model.
  destruct (strip_bytes_model_total input H) as [out E]. congruence.
Qed.

Theorem translated_strip_str_never_panics input :
  Forall (fun b => b < 256) input -> g_strip_str_to_string input <> None.
Proof.
  intros H. rewrite g_strip_str_to_string_is_model.
  destruct (strip_str_model_total input H) as [out E]. congruence.
Qed.

Theorem translated_extract_next_never_panics bs p v c :
  Forall (fun b => b < 256) bs -> R p v -> g_extract_next bs p c <> None.
Proof.
  intros H HR. rewrite translated_extract_next_is_model.
  destruct (extract_next_total bs p v c H HR) as (its & p' & c' & E & _). congruence.
Qed.

Theorem translated_lossy_never_panics col p :
  color_ok col -> palette_ok p ->
  g_color_to_rgb col p <> None /\ g_color_to_xterm col <> None /\ g_color_to_ansi col p <> None.
Proof.
  intros Hc Hp. destruct (translated_lossy_is_model col p) as (E1 & E2 & E3). rewrite E1, E2, E3.
  destruct (conversions_total col p Hc Hp) as ((r & Er & _) & (i & Ei & _) & (a & Ea & _)).
  repeat split; congruence.
Qed.

Theorem translated_ls_parse_never_panics s : g_ls_parse s <> None.
Proof. rewrite g_ls_parse_eq. apply ls_no_panic. Qed.

Theorem translated_git_parse_never_panics s : g_git_parse s <> None.
Proof.
  intros E. pose proof (g_git_parse_eq s) as H. rewrite E in H. cbn in H.
  symmetry in H. exact (git_no_panic s H).
Qed.

Theorem translated_to_roff_never_panics input : g_to_roff input <> None.
Proof.
  intros E. pose proof (translated_to_roff_is_model input) as H. rewrite E in H. cbn in H.
  destruct (rf_to_roff_total input) as [doc D]. congruence.
Qed.
