(* [filter] as the selection of a sublist of a fixed enumeration: the lemmas by which the
   proofs about effect sets (C13), their rendering (C05) and the library renderings (C16) say "the members / the
   parameters printed are those of the effects that are set, in table order". *)
From Coq Require Import List Bool Lia.
Import ListNotations.

Lemma filter_andb {A} (r q : A -> bool) l : filter (fun x => r x && q x) l = filter q (filter r l).
Proof.
  induction l as [|x t IH]; [reflexivity|]. cbn [filter].
  destruct (r x); cbn [andb filter]; rewrite IH; reflexivity.
Qed.

Lemma filter_comm {A} (f g : A -> bool) l : filter f (filter g l) = filter g (filter f l).
Proof. rewrite <- !filter_andb. apply filter_ext. intros x. apply andb_comm. Qed.

Lemma Forall_filter_keep {A} (P : A -> Prop) f l : Forall P l -> Forall P (filter f l).
Proof.
  rewrite !Forall_forall. intros H x Hx. apply filter_In in Hx. now apply H.
Qed.

Lemma filter_map_inv {A B} (f : A -> B) (g : B -> A) (p : A -> bool) l : (forall x, g (f x) = x) ->
  map f (filter p l) = filter (fun y => p (g y)) (map f l).
Proof.
  intros H. induction l as [|x t IH]; [reflexivity|]. cbn [filter map]. rewrite H.
  destruct (p x); cbn [map]; rewrite IH; reflexivity.
Qed.

Lemma filter_selection {A} (q r : A -> bool) l :
  (forall y, In y l -> q y = true <-> In y (filter r l)) -> filter q l = filter r l.
Proof.
  intros H. apply filter_ext_in. intros y Hy. apply eq_true_iff_eq.
  rewrite (H y Hy), filter_In. tauto.
Qed.

Lemma filter_flat_map {A} (p : A -> bool) l : filter p l = flat_map (fun x => if p x then [x] else []) l.
Proof. induction l as [|x t IH]; [reflexivity|]. cbn [filter flat_map]. rewrite IH. now destruct (p x). Qed.

Lemma map_if {A B} (f : A -> B) (b : bool) x : map f (if b then [x] else []) = if b then [f x] else [].
Proof. now destruct b. Qed.

Lemma filter_length_le {A} (p : A -> bool) l : (length (filter p l) <= length l)%nat.
Proof. induction l as [|x t IH]; [constructor|]. cbn [filter]. destruct (p x); cbn [length]; lia. Qed.

Lemma filter_nil {A} (p : A -> bool) l : filter p l = [] -> forall x, In x l -> p x = false.
Proof.
  intros E x Hx. destruct (p x) eqn:P; [|reflexivity].
  assert (I : In x (filter p l)) by now apply filter_In. rewrite E in I. destruct I.
Qed.
