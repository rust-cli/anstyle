(* C16: every conversion of Model/Adapters.v, read through the meaning tables of Spec/Targets.v, is the projection of
   the source style onto what the target can express ([ad_convert_meaning]); what the property says about hues,
   brightness and effects is read off that equation, for any library.  The 16 colour arms of an adapter are checked row
   by row inside the kernel.  The effects are not enumerated: [ad_conv_effects] keeps the rows whose bit is set, so its
   result means [N.land e (ad_mask tbl)] for EVERY bit set [e] as soon as each row names the attribute of its own bit
   ([ad_attrs_conv]). *)
From Coq Require Import NArith List Bool Lia.
From AV Require Import Generated.Adapters Spec.Vt Spec.Sgr Spec.Targets Model.Adapters Proofs.SgrRender.
Import ListNotations.
Local Open Scope N_scope.

(* [k-1; ...; 0], by recursion on the binary number (no unary nat) *)
Definition ad_below (k : N) : list N := N.recursion [] (fun i acc => i :: acc) k.

Lemma ad_below_In : forall k x, x < k -> In x (ad_below k).
Proof.
  intros k. induction k using N.peano_ind; intros x Hx; [lia|].
  unfold ad_below. rewrite (N.recursion_succ eq); [|reflexivity|].
  - cbn [In]. destruct (N.eq_dec x k) as [->|Hne]; [now left|right]. apply IHk. lia.
  - intros a b -> c d ->. reflexivity.
Qed.

Lemma ad_forall_below (k : N) (P : N -> bool) :
  forallb P (ad_below k) = true -> forall x, x < k -> P x = true.
Proof. intros H x Hx. rewrite forallb_forall in H. apply H, ad_below_In, Hx. Qed.

Definition ad_means_ansi (m : option (option colour)) (j : N) : bool :=
  match m with Some (Some (CAnsi k)) => k =? j | _ => false end.

Lemma ad_means_ansi_eq m j : ad_means_ansi m j = true -> m = Some (Some (CAnsi j)).
Proof. destruct m as [[[k|?|? ? ?]|]|]; try discriminate. intros H. apply N.eqb_eq in H. now subst. Qed.

(* colours: the generic shape `slot.map(to_*_color)` *)

Definition ad_chk_colours (l : ad_lib) (tbl : list (N * list N)) : bool :=
  forallb (fun i => ad_means_ansi (ad_colour_meaning l (ad_conv_colour tbl (CAnsi i)))
                                  (if ad_has_bright l then i else i mod 8))
          (ad_below 16).

Lemma ad_slot_conv l tbl : ad_chk_colours l tbl = true ->
  forall oc, ad_colour_ok oc ->
    ad_slot_meaning l (option_map (ad_conv_colour tbl) oc) = Some (ad_project_colour l oc).
Proof.
  intros H [[i|n|r g b]|] Hok; try reflexivity.
  exact (ad_means_ansi_eq _ _ (ad_forall_below 16 _ H i Hok)).
Qed.

Lemma ad_hue_from_project l src tgt :
  ad_slot_meaning l tgt = Some (ad_project_colour l src) -> ad_hue_kept l src tgt.
Proof.
  intros Hm i ->. rewrite Hm. cbn [ad_project_colour ad_hue_of].
  destruct (ad_has_bright l); [reflexivity|]. rewrite N.mod_mod by discriminate. reflexivity.
Qed.

Lemma ad_bright_from_project l src tgt : ad_has_bright l = true ->
  ad_slot_meaning l tgt = Some (ad_project_colour l src) -> ad_brightness_kept l src tgt.
Proof.
  intros Hb Hm i ->. rewrite Hm. cbn [ad_project_colour ad_bright_of]. rewrite Hb. reflexivity.
Qed.

Definition ad_mask (tbl : list (N * list N)) : N := fold_right (fun p acc => N.lor (bit (fst p)) acc) 0 tbl.

Definition ad_rows_ok (l : ad_lib) (tbl : list (N * list N)) : bool :=
  forallb (fun p => match ad_assoc (snd p) (ad_attr_table l) with Some k => k =? fst p | None => false end) tbl.

Lemma ad_attrs_conv l tbl e : ad_rows_ok l tbl = true ->
  ad_attrs_meaning l (ad_conv_effects tbl e) = Some (N.land e (ad_mask tbl)).
Proof.
  unfold ad_rows_ok, ad_mask.
  induction tbl as [|[k name] t IH]; cbn [forallb fold_right ad_conv_effects fst snd]; intros H.
  - now rewrite N.land_0_r.
  - apply andb_true_iff in H. destruct H as [Hr Ht]. rewrite N.land_lor_distr_r, land_bit.
    destruct (N.testbit e k); [|exact (IH Ht)].
    cbn [ad_attrs_meaning]. rewrite (IH Ht).
    destruct (ad_assoc name (ad_attr_table l)) as [k'|]; [|discriminate]. apply N.eqb_eq in Hr. now subst.
Qed.

Definition ad_chk_effects (l : ad_lib) (tbl : list (N * list N)) : bool :=
  ad_rows_ok l tbl && (ad_mask tbl =? ad_expressible l).

Lemma ad_mask_expressible l tbl : ad_chk_effects l tbl = true -> ad_mask tbl = ad_expressible l.
Proof. intros H. apply andb_true_iff in H. now apply N.eqb_eq. Qed.

Lemma ad_effects_conv l tbl : ad_chk_effects l tbl = true ->
  forall e, ad_attrs_meaning l (ad_conv_effects tbl e) = Some (N.land e (ad_expressible l)).
Proof.
  intros H e. rewrite <- (ad_mask_expressible l tbl H). apply ad_attrs_conv.
  now apply andb_true_iff in H.
Qed.

Lemma ad_chk_colours_crossterm : ad_chk_colours AdCrossterm ad_gen_crossterm_colors = true.
Proof. reflexivity. Qed.
Lemma ad_chk_colours_owo : ad_chk_colours AdOwo ad_gen_owo_colors = true.
Proof. reflexivity. Qed.
Lemma ad_chk_colours_termcolor : ad_chk_colours AdTermcolor ad_gen_termcolor_colors = true.
Proof. reflexivity. Qed.
Lemma ad_chk_colours_yansi : ad_chk_colours AdYansi ad_gen_yansi_colors = true.
Proof. reflexivity. Qed.

Lemma ad_chk_effects_ansi_term : ad_chk_effects AdAnsiTerm ad_gen_ansi_term_effects = true.
Proof. reflexivity. Qed.
Lemma ad_chk_effects_crossterm : ad_chk_effects AdCrossterm ad_gen_crossterm_effects = true.
Proof. reflexivity. Qed.
Lemma ad_chk_effects_owo : ad_chk_effects AdOwo ad_gen_owo_effects = true.
Proof. reflexivity. Qed.
Lemma ad_chk_effects_termcolor : ad_chk_effects AdTermcolor ad_gen_termcolor_effects = true.
Proof. reflexivity. Qed.
Lemma ad_chk_effects_yansi : ad_chk_effects AdYansi ad_gen_yansi_effects = true.
Proof. reflexivity. Qed.

(* which effects each target can express, spelled out: 3855 = 0xF0F, all but DOUBLE / CURLY / DOTTED / DASHED_UNDERLINE
   (bits 4-7); 4095 = all twelve; 15 = bold, dimmed, italic, underline *)
Lemma ad_expressible_values :
  ad_expressible AdAnsiTerm = 3855 /\ ad_expressible AdCrossterm = 4095 /\ ad_expressible AdOwo = 3855 /\
  ad_expressible AdTermcolor = 15 /\ ad_expressible AdYansi = 3855.
Proof. repeat split. Qed.

Lemma ad_indexed_rgb_ctors :
  (ad_gen_ansi_term_fixed = ad_fixed_ctor AdAnsiTerm /\ ad_gen_ansi_term_rgb = ad_rgb_ctor AdAnsiTerm) /\
  (ad_gen_crossterm_fixed = ad_fixed_ctor AdCrossterm /\ ad_gen_crossterm_rgb = ad_rgb_ctor AdCrossterm) /\
  (ad_gen_owo_fixed = ad_fixed_ctor AdOwo /\ ad_gen_owo_rgb = ad_rgb_ctor AdOwo) /\
  (ad_gen_termcolor_fixed = ad_fixed_ctor AdTermcolor /\ ad_gen_termcolor_rgb = ad_rgb_ctor AdTermcolor) /\
  (ad_gen_yansi_fixed = ad_fixed_ctor AdYansi /\ ad_gen_yansi_rgb = ad_rgb_ctor AdYansi).
Proof. repeat split. Qed.

(* yansi: an absent colour is `Primary` *)

Definition ad_yansi_slot (dflt : list N) (oc : option colour) : option ad_tcolor :=
  Some (match oc with Some c => ad_conv_colour ad_gen_yansi_colors c | None => AdNamed dflt end).

Lemma ad_slot_yansi dflt : ad_colour_meaning AdYansi (AdNamed dflt) = Some None ->
  forall oc, ad_colour_ok oc ->
    ad_slot_meaning AdYansi (ad_yansi_slot dflt oc) = Some (ad_project_colour AdYansi oc).
Proof.
  intros Hd [c|] Hok; [exact (ad_slot_conv _ _ ad_chk_colours_yansi (Some c) Hok) | exact Hd].
Qed.

(* ansi_term: colour + "also bold" flag *)

Definition ad_at_slot (oc : option colour) : option ad_tcolor := option_map fst (option_map ad_at_colour oc).

Lemma ad_at_colour_ansi : forall i, i < 16 ->
  ad_colour_meaning AdAnsiTerm (fst (ad_at_colour (CAnsi i))) = Some (Some (CAnsi (i mod 8))) /\
  snd (ad_at_colour (CAnsi i)) = (8 <=? i).
Proof.
  assert (H : forallb (fun i => ad_means_ansi (ad_colour_meaning AdAnsiTerm (fst (ad_at_colour (CAnsi i)))) (i mod 8) &&
                              Bool.eqb (snd (ad_at_colour (CAnsi i))) (8 <=? i)) (ad_below 16) = true) by reflexivity.
  intros i Hi.
  pose proof (ad_forall_below 16 _ H i Hi) as E. cbv beta in E.
  apply andb_true_iff in E. destruct E as [E1 E2].
  exact (conj (ad_means_ansi_eq _ _ E1) (Bool.eqb_prop _ _ E2)).
Qed.

Lemma ad_slot_ansi_term : forall oc, ad_colour_ok oc ->
  ad_slot_meaning AdAnsiTerm (ad_at_slot oc) = Some (ad_project_colour AdAnsiTerm oc).
Proof.
  intros [[i|n|r g b]|] Hok; try reflexivity.
  exact (proj1 (ad_at_colour_ansi i Hok)).
Qed.

(* the attribute calls: the foreground's bold flag first, then the effects *)
Lemma ad_attrs_ansi_term s : ad_colour_ok (s_fg s) ->
  ad_attrs_meaning AdAnsiTerm (ad_t_attrs (ad_to_ansi_term s)) = Some (ad_project_effects AdAnsiTerm s).
Proof.
  intros Hf. unfold ad_to_ansi_term, ad_project_effects. cbn [ad_t_attrs].
  assert (B : (if ad_is_bright (s_fg s) then [ad_gen_ansi_term_fg_bold] else [])
              = match option_map ad_at_colour (s_fg s) with Some (_, true) => [ad_gen_ansi_term_fg_bold] | _ => [] end).
  { destruct (s_fg s) as [[i|n|r g b]|]; try reflexivity.
    cbn [option_map ad_is_bright]. rewrite <- (proj2 (ad_at_colour_ansi i Hf)).
    destruct (ad_at_colour (CAnsi i)) as [c []]; reflexivity. }
  rewrite <- B. destruct (ad_is_bright (s_fg s)); cbn [app ad_attrs_meaning];
    rewrite (ad_effects_conv _ _ ad_chk_effects_ansi_term); [rewrite N.lor_comm | rewrite N.lor_0_r]; reflexivity.
Qed.

Lemma ad_lor_bit e E k (b : bool) : N.testbit E k = true ->
  let m := N.lor (N.land e E) (if b then bit k else 0) in
  N.testbit m k = (N.testbit e k || b) /\ N.ldiff m (bit k) = N.land (N.ldiff e (bit k)) E.
Proof.
  intros HE. split.
  - rewrite N.lor_spec, N.land_spec, HE, andb_true_r.
    destruct b; [rewrite bit_testbit, N.eqb_refl | rewrite N.bits_0]; reflexivity.
  - apply N.bits_inj. intros n.
    rewrite N.ldiff_spec, N.lor_spec, !N.land_spec, N.ldiff_spec, bit_testbit.
    destruct b; rewrite ?bit_testbit, ?N.bits_0;
      destruct (N.testbit e n), (N.testbit E n), (k =? n); reflexivity.
Qed.

Theorem ad_convert_meaning : forall l s, ad_src_ok s ->
  ad_meaning l (ad_convert l s) = Some (ad_project l s).
Proof.
  intros l s (Hf & Hb & Hu & He). unfold ad_meaning, ad_project.
  destruct l; cbn [ad_convert ad_has_ul].
  - rewrite (ad_attrs_ansi_term s Hf). unfold ad_to_ansi_term. cbn [ad_t_fg ad_t_bg ad_t_ul].
    fold (ad_at_slot (s_fg s)). fold (ad_at_slot (s_bg s)).
    rewrite (ad_slot_ansi_term _ Hf), (ad_slot_ansi_term _ Hb). reflexivity.
  - unfold ad_to_crossterm, ad_project_effects. cbn [ad_t_fg ad_t_bg ad_t_ul ad_t_attrs].
    rewrite !(ad_slot_conv _ _ ad_chk_colours_crossterm) by assumption.
    rewrite (ad_effects_conv _ _ ad_chk_effects_crossterm), N.lor_0_r. reflexivity.
  - unfold ad_to_owo, ad_project_effects. cbn [ad_t_fg ad_t_bg ad_t_ul ad_t_attrs].
    rewrite !(ad_slot_conv _ _ ad_chk_colours_owo) by assumption.
    rewrite (ad_effects_conv _ _ ad_chk_effects_owo), N.lor_0_r. reflexivity.
  - unfold ad_to_termcolor, ad_project_effects. cbn [ad_t_fg ad_t_bg ad_t_ul ad_t_attrs].
    rewrite !(ad_slot_conv _ _ ad_chk_colours_termcolor) by assumption.
    rewrite (ad_effects_conv _ _ ad_chk_effects_termcolor), N.lor_0_r. reflexivity.
  - unfold ad_to_yansi, ad_project_effects. cbn [ad_t_fg ad_t_bg ad_t_ul ad_t_attrs].
    fold (ad_yansi_slot ad_gen_yansi_default_fg (s_fg s)). fold (ad_yansi_slot ad_gen_yansi_default_bg (s_bg s)).
    rewrite (ad_slot_yansi ad_gen_yansi_default_fg eq_refl _ Hf), (ad_slot_yansi ad_gen_yansi_default_bg eq_refl _ Hb).
    rewrite (ad_effects_conv _ _ ad_chk_effects_yansi), N.lor_0_r. reflexivity.
Qed.

Lemma ad_meaning_slots l t s : ad_meaning l t = Some s ->
  ad_slot_meaning l (ad_t_fg t) = Some (s_fg s) /\ ad_slot_meaning l (ad_t_bg t) = Some (s_bg s) /\
  ad_attrs_meaning l (ad_t_attrs t) = Some (s_eff s).
Proof.
  unfold ad_meaning.
  destruct (ad_slot_meaning l (ad_t_fg t)), (ad_slot_meaning l (ad_t_bg t)); try discriminate.
  destruct (if ad_has_ul l then _ else _), (ad_attrs_meaning l (ad_t_attrs t)); try discriminate.
  intros [= <-]. repeat split.
Qed.

Lemma ad_hue_all l s : ad_src_ok s ->
  ad_hue_kept l (s_fg s) (ad_t_fg (ad_convert l s)) /\ ad_hue_kept l (s_bg s) (ad_t_bg (ad_convert l s)).
Proof.
  intros H. destruct (ad_meaning_slots _ _ _ (ad_convert_meaning l s H)) as (F & B & _).
  split; apply ad_hue_from_project; assumption.
Qed.

Lemma ad_bright_all l : ad_has_bright l = true -> forall s, ad_src_ok s ->
  ad_brightness_kept l (s_fg s) (ad_t_fg (ad_convert l s)) /\ ad_brightness_kept l (s_bg s) (ad_t_bg (ad_convert l s)).
Proof.
  intros L s H. destruct (ad_meaning_slots _ _ _ (ad_convert_meaning l s H)) as (F & B & _).
  split; apply ad_bright_from_project; assumption.
Qed.

Lemma ad_effects_all l s : ad_src_ok s ->
  ad_attrs_meaning l (ad_t_attrs (ad_convert l s)) = Some (ad_project_effects l s).
Proof. intros H. apply (ad_meaning_slots _ _ _ (ad_convert_meaning l s H)). Qed.

Lemma ad_exact_conv l tbl oc : ad_exact_kept l oc (option_map (ad_conv_colour tbl) oc).
Proof. split; intros; subst; split; reflexivity. Qed.

Lemma ad_exact_all l s :
  ad_exact_kept l (s_fg s) (ad_t_fg (ad_convert l s)) /\ ad_exact_kept l (s_bg s) (ad_t_bg (ad_convert l s)).
Proof.
  destruct s as [fg bg ul e].
  destruct l; split; split; intros; cbn [s_fg s_bg] in *; subst; split; reflexivity.
Qed.

Lemma ad_effects_ansi_term : forall s, ad_src_ok s ->
  ad_attrs_meaning AdAnsiTerm (ad_t_attrs (ad_to_ansi_term s)) = Some (ad_project_effects AdAnsiTerm s).
Proof. exact (ad_effects_all AdAnsiTerm). Qed.

(* crossterm has an underline colour as well *)
Lemma ad_hue_crossterm : forall s, ad_src_ok s ->
  ad_hue_kept AdCrossterm (s_fg s) (ad_t_fg (ad_to_crossterm s)) /\
  ad_hue_kept AdCrossterm (s_bg s) (ad_t_bg (ad_to_crossterm s)) /\
  ad_hue_kept AdCrossterm (s_ul s) (ad_t_ul (ad_to_crossterm s)).
Proof.
  intros s H. destruct (ad_hue_all AdCrossterm s H) as [F B]. refine (conj F (conj B _)).
  apply ad_hue_from_project, (ad_slot_conv _ _ ad_chk_colours_crossterm), H.
Qed.

Lemma ad_bright_crossterm : forall s, ad_src_ok s ->
  ad_brightness_kept AdCrossterm (s_fg s) (ad_t_fg (ad_to_crossterm s)) /\
  ad_brightness_kept AdCrossterm (s_bg s) (ad_t_bg (ad_to_crossterm s)) /\
  ad_brightness_kept AdCrossterm (s_ul s) (ad_t_ul (ad_to_crossterm s)).
Proof.
  intros s H. destruct (ad_bright_all AdCrossterm eq_refl s H) as [F B]. refine (conj F (conj B _)).
  apply ad_bright_from_project, (ad_slot_conv _ _ ad_chk_colours_crossterm), H. reflexivity.
Qed.

Lemma ad_exact_crossterm : forall s,
  ad_exact_kept AdCrossterm (s_fg s) (ad_t_fg (ad_to_crossterm s)) /\
  ad_exact_kept AdCrossterm (s_bg s) (ad_t_bg (ad_to_crossterm s)) /\
  ad_exact_kept AdCrossterm (s_ul s) (ad_t_ul (ad_to_crossterm s)).
Proof. intros s. destruct (ad_exact_all AdCrossterm s) as [F B]. exact (conj F (conj B (ad_exact_conv _ _ _))). Qed.

(* how ansi_term gets its brightness: a bright foreground switches bold on, a
   bright background is shown normal, and nothing else changes *)
Lemma ad_ansi_term_bright_is_bold : forall s, ad_src_ok s ->
  exists m, ad_attrs_meaning AdAnsiTerm (ad_t_attrs (ad_to_ansi_term s)) = Some m /\
    N.testbit m BOLD = (N.testbit (s_eff s) BOLD || ad_is_bright (s_fg s)) /\
    N.ldiff m (bit BOLD) = N.land (N.ldiff (s_eff s) (bit BOLD)) (ad_expressible AdAnsiTerm) /\
    (forall i, s_fg s = Some (CAnsi i) ->
       ad_slot_meaning AdAnsiTerm (ad_t_fg (ad_to_ansi_term s)) = Some (Some (CAnsi (i mod 8)))) /\
    (forall i, s_bg s = Some (CAnsi i) ->
       ad_slot_meaning AdAnsiTerm (ad_t_bg (ad_to_ansi_term s)) = Some (Some (CAnsi (i mod 8)))).
Proof.
  intros s (Hf & Hb & _). exists (ad_project_effects AdAnsiTerm s).
  split; [exact (ad_attrs_ansi_term s Hf)|].
  destruct (ad_lor_bit (s_eff s) (ad_expressible AdAnsiTerm) BOLD (ad_is_bright (s_fg s)) eq_refl) as [T D].
  refine (conj T (conj D (conj _ _))); intros i Hi.
  - change (ad_t_fg (ad_to_ansi_term s)) with (ad_at_slot (s_fg s)).
    rewrite (ad_slot_ansi_term _ Hf), Hi. reflexivity.
  - change (ad_t_bg (ad_to_ansi_term s)) with (ad_at_slot (s_bg s)).
    rewrite (ad_slot_ansi_term _ Hb), Hi. reflexivity.
Qed.

(* both sides test the three flag bits of [font], in different orders (for every [font]: the bound is that of the
   Rust type) *)
Lemma ad_syntect_keeps : forall r g b a r' g' b' a' font, font < 256 ->
  let s := ad_from_syntect (r, g, b, a) (r', g', b', a') font in
  s = ad_syntect_expected (r, g, b, a) (r', g', b', a') font /\
  s_fg s = Some (CRgb r g b) /\ s_bg s = Some (CRgb r' g' b') /\ s_ul s = None /\
  N.testbit (s_eff s) BOLD = N.testbit font 0 /\
  N.testbit (s_eff s) UNDERLINE = N.testbit font 1 /\
  N.testbit (s_eff s) ITALIC = N.testbit font 2 /\
  N.ldiff (s_eff s) (N.lor (bit BOLD) (N.lor (bit UNDERLINE) (bit ITALIC))) = 0.
Proof.
  intros r g b a r' g' b' a' font _. cbv zeta.
  unfold ad_from_syntect, ad_syntect_expected, ad_syntect_effects. cbn [s_fg s_bg s_ul s_eff].
  cbv [ad_syntect_conv_effects ad_gen_syntect_flags ad_syntect_flags ad_assoc ad_name_eqb fold_right fst snd
       N.eqb Pos.eqb andb].
  destruct (N.testbit font 0), (N.testbit font 1), (N.testbit font 2); repeat split.
Qed.
