(* Lemmas for C14 (SVG rendering): the escaping is read back by an XML processor, the printed
   template is in the grammar of Spec/SvgSpec, split_lines and the class lists meet their
   specifications; last, in one section, the theorems about a rendered document. *)
From Coq Require Import NArith List Bool Lia.
From AV Require Import Generated.Table Generated.Style Generated.Palette Generated.Svg
  Spec.Vt Spec.Sgr Spec.Lossy Spec.SvgSpec
  Model.Base Model.Parser Model.Strip Model.Wincon Model.Lossy Model.Svg
  Proofs.BaseFacts Proofs.TableFacts Proofs.Lossy.
Import ListNotations.
Local Open Scope N_scope.

Lemma svg_unescape_skip : forall p r, xml_unescape_go (length p) (p ++ r) = xml_unescape_go 0 r.
Proof. induction p as [|c p IH]; intros r; [reflexivity | exact (IH r)]. Qed.

Lemma svg_encode_cons c r :
  svg_encode_text (c :: r) =
  (if c =? 38 then [38; 97; 109; 112; 59] else if c =? 60 then [38; 108; 116; 59] else if c =? 62 then [38; 103; 116; 59] else [c])
  ++ svg_encode_text r.
Proof. reflexivity. Qed.

Definition svg_refs : list (list N * N) :=
  [(xml_ent_amp, 38); (xml_ent_lt, 60); (xml_ent_gt, 62); (xml_ref_cr, 13)].

Lemma svg_ref_unescape e c r : In (e, c) svg_refs -> xml_unescape_go 0 (e ++ r) = c :: xml_unescape_go 0 r.
Proof. intros [[= <- <-]|[[= <- <-]|[[= <- <-]|[[= <- <-]|[]]]]]; reflexivity. Qed.

Lemma svg_ref_plain e c : In (e, c) svg_refs -> xml_is_ref e /\ ~ In 60 e /\ ~ In 13 e.
Proof.
  unfold xml_is_ref. intros [[= <- <-]|[[= <- <-]|[[= <- <-]|[[= <- <-]|[]]]]]; cbn; intuition discriminate.
Qed.

Definition svg_escapes (bad : list N) (f : N -> list N) : Prop :=
  forall c, (f c = [c] /\ ~ In c bad) \/ In (f c, c) svg_refs.

Lemma svg_xml_char_text c : xml_char c = true -> c <> 38 -> c <> 60 -> c <> 62 -> xml_text_char c = true.
Proof.
  intros H A B C. apply N.eqb_neq in A, B, C. unfold xml_text_char, xml_lt, xml_amp, xml_gt. rewrite H, A, B, C. reflexivity.
Qed.

Section Escapes.
  Variables (bad : list N) (f : N -> list N).
  Hypothesis Hf : svg_escapes bad f.

  Lemma svg_escapes_unescape : In 38 bad -> forall t, xml_unescape (flat_map f t) = t.
  Proof.
    intros Hb. unfold xml_unescape. induction t as [|c r IH]; [reflexivity|]. cbn [flat_map].
    destruct (Hf c) as [[-> Hc]|Hc].
    - cbn [app xml_unescape_go]. destruct (N.eqb_spec c xml_amp) as [->|_]; [contradiction|]. rewrite IH. reflexivity.
    - rewrite (svg_ref_unescape _ _ _ Hc), IH. reflexivity.
  Qed.

  Lemma svg_escapes_escaped : In 38 bad -> In 60 bad -> forall t, XEscaped (flat_map f t).
  Proof.
    intros Ha Hl. induction t as [|c r IH]; [constructor|]. cbn [flat_map].
    destruct (Hf c) as [[-> Hc]|Hc].
    - apply XS_char; [intros -> | intros -> | exact IH]; contradiction.
    - apply XS_ref; [apply (svg_ref_plain _ _ Hc) | exact IH].
  Qed.

  Lemma svg_escapes_avoids x : In x bad -> x = 60 \/ x = 13 -> forall t, ~ In x (flat_map f t).
  Proof.
    intros Hb Hx. induction t as [|c r IH]; [intros []|]. cbn [flat_map]. intros H.
    apply in_app_or in H as [H|H]; [|exact (IH H)].
    destruct (Hf c) as [[E Hc]|Hc].
    - rewrite E in H. destruct H as [->|[]]. contradiction.
    - destruct (svg_ref_plain _ _ Hc) as (_ & A & B). destruct Hx as [->| ->]; contradiction.
  Qed.

  Lemma svg_escapes_content : incl [38; 60; 62] bad -> forall t, forallb xml_char t = true -> XContent (flat_map f t).
  Proof.
    intros Hb. induction t as [|c r IH]; intros H; [constructor|].
    cbn [forallb] in H. apply andb_true_iff in H as [Hc Hr]. cbn [flat_map].
    destruct (Hf c) as [[-> Hn]|Hn].
    - apply XC_char; [|exact (IH Hr)].
      apply svg_xml_char_text; [exact Hc | intros -> ..]; apply Hn, Hb; cbn; auto.
    - apply XC_ref; [apply (svg_ref_plain _ _ Hn) | exact (IH Hr)].
  Qed.
End Escapes.

(* html_escape::encode_text, character by character *)
Definition svg_text_piece (c : N) : list N :=
  if c =? 38 then xml_ent_amp else if c =? 60 then xml_ent_lt else if c =? 62 then xml_ent_gt else [c].

(* the foreground fragment: encode_text, then CR -> &#13; *)
Definition svg_fg_piece (c : N) : list N := if c =? 13 then xml_ref_cr else svg_text_piece c.

Lemma svg_encode_text_pieces t : svg_encode_text t = flat_map svg_text_piece t.
Proof. induction t as [|c r IH]; [reflexivity|]. rewrite svg_encode_cons, IH. reflexivity. Qed.

Lemma svg_encode_fg_pieces t : svg_encode_fg t = flat_map svg_fg_piece t.
Proof.
  unfold svg_encode_fg, svg_replace_cr. rewrite svg_encode_text_pieces.
  induction t as [|c r IH]; [reflexivity|]. cbn [flat_map]. rewrite flat_map_app, IH. f_equal.
  unfold svg_fg_piece, svg_text_piece.
  destruct (N.eqb_spec c 38) as [->|_]; [reflexivity|].
  destruct (N.eqb_spec c 60) as [->|_]; [reflexivity|].
  destruct (N.eqb_spec c 62) as [->|_]; [reflexivity|].
  cbn [flat_map]. destruct (c =? 13); reflexivity.
Qed.

Lemma svg_text_piece_escapes : svg_escapes [38; 60; 62] svg_text_piece.
Proof.
  intros c. unfold svg_text_piece.
  destruct (N.eqb_spec c 38) as [->|A]; [right; cbn; auto|].
  destruct (N.eqb_spec c 60) as [->|B]; [right; cbn; auto|].
  destruct (N.eqb_spec c 62) as [->|C]; [right; cbn; auto|].
  left. split; [reflexivity|]. cbn [In]. lia.
Qed.

Lemma svg_fg_piece_escapes : svg_escapes [38; 60; 62; 13] svg_fg_piece.
Proof.
  intros c. unfold svg_fg_piece. destruct (N.eqb_spec c 13) as [->|D]; [right; cbn; auto 6|].
  destruct (svg_text_piece_escapes c) as [[E H]|H]; [left | right; exact H].
  split; [exact E|]. cbn [In] in *. lia.
Qed.

Lemma svg_escape_roundtrip : forall t, xml_unescape (svg_encode_text t) = t.
Proof. intros t. rewrite svg_encode_text_pieces. apply (svg_escapes_unescape _ _ svg_text_piece_escapes). cbn; auto. Qed.

Lemma svg_encoded_escaped : forall t, XEscaped (svg_encode_text t).
Proof. intros t. rewrite svg_encode_text_pieces. apply (svg_escapes_escaped _ _ svg_text_piece_escapes); cbn; auto. Qed.

Lemma svg_encoded_no_lt : forall t, ~ In 60 (svg_encode_text t).
Proof. intros t. rewrite svg_encode_text_pieces. apply (svg_escapes_avoids _ _ svg_text_piece_escapes); cbn; auto. Qed.

Lemma svg_fg_escaped : forall t, XEscaped (svg_encode_fg t) /\ ~ In 60 (svg_encode_fg t) /\ ~ In 13 (svg_encode_fg t).
Proof.
  intros t. rewrite svg_encode_fg_pieces. pose proof svg_fg_piece_escapes as H. repeat split.
  - apply (svg_escapes_escaped _ _ H); cbn; auto.
  - apply (svg_escapes_avoids _ _ H); cbn; auto.
  - apply (svg_escapes_avoids _ _ H); cbn; auto 6.
Qed.

Lemma svg_eol_id : forall x, ~ In 13 x -> xml_eol_go false x = x.
Proof.
  induction x as [|c r IH]; intros H; [reflexivity|].
  cbn [xml_eol_go]. destruct (N.eqb_spec c 13) as [->|_]; [exfalso; apply H; left; reflexivity|].
  rewrite andb_false_r. f_equal. apply IH. intros Hr. apply H. right. exact Hr.
Qed.

Lemma svg_fg_unescape : forall t, xml_unescape (svg_encode_fg t) = t.
Proof. intros t. rewrite svg_encode_fg_pieces. apply (svg_escapes_unescape _ _ svg_fg_piece_escapes). cbn; auto. Qed.

Lemma svg_parsed_text_roundtrip : forall t, xml_text_value (svg_encode_fg t) = t.
Proof.
  intros t. unfold xml_text_value, xml_eol. rewrite svg_eol_id by apply svg_fg_escaped. apply svg_fg_unescape.
Qed.

(* why the CR has to be a reference: written literally it comes back as LF *)
Lemma svg_parsed_text_cr_witness : xml_text_value (svg_encode_text [97; 13; 98]) = [97; 10; 98].
Proof. vm_compute. reflexivity. Qed.

Lemma svg_XContent_app : forall a b, XContent a -> XContent b -> XContent (a ++ b).
Proof.
  intros a b Ha Hb. induction Ha as [|c r Hc Hr IH|e r He Hr IH|e r He Hr IH].
  - exact Hb.
  - cbn [app]. apply XC_char; assumption.
  - rewrite <- app_assoc. apply XC_ref; assumption.
  - rewrite <- app_assoc. apply XC_elem; assumption.
Qed.

Lemma svg_XContent_chars : forall t, forallb xml_text_char t = true -> XContent t.
Proof.
  induction t as [|c r IH]; intros H; [constructor|].
  cbn [forallb] in H. apply andb_true_iff in H. destruct H as [Hc Hr]. apply XC_char; auto.
Qed.

Lemma svg_XContent_text t r : forallb xml_text_char t = true -> XContent r -> XContent (t ++ r).
Proof. intros Ht Hr. apply svg_XContent_app; [apply svg_XContent_chars, Ht | exact Hr]. Qed.

Lemma svg_XContent_encode t : forallb xml_char t = true -> XContent (svg_encode_fg t).
Proof.
  rewrite svg_encode_fg_pieces. apply (svg_escapes_content _ _ svg_fg_piece_escapes).
  intros c Hc. cbn [In] in *. tauto.
Qed.

Lemma svg_elem_wf n atts c : xml_name n = true -> xml_atts_ok atts -> XContent c -> XElement (svg_elem n atts c).
Proof. intros Hn Ha Hc. exact (XE_full n atts c Hn Ha Hc). Qed.

Lemma svg_empty_elem_wf n atts : xml_name n = true -> xml_atts_ok atts -> XElement (svg_empty_elem n atts).
Proof. intros Hn Ha. exact (XE_empty n atts true Hn Ha). Qed.

Lemma svg_name_char_iff c :
  xml_name_char c = true <->
  97 <= c <= 122 \/ 65 <= c <= 90 \/ c = 95 \/ c = 58 \/ 48 <= c <= 57 \/ c = 45 \/ c = 46.
Proof.
  unfold xml_name_char, xml_name_start, svg_in_rng. rewrite !orb_true_iff, !andb_true_iff, !N.leb_le, !N.eqb_eq. tauto.
Qed.

Lemma svg_range_chars c : 39 <= c <= 122 -> c <> 60 -> c <> 62 -> xml_text_char c = true /\ xml_att_char c = true.
Proof.
  intros H A B. unfold xml_text_char, xml_att_char, xml_char, svg_in_rng, xml_lt, xml_gt, xml_amp, xml_quot.
  assert ((32 <=? c) && (c <=? 55295) = true) as -> by (rewrite andb_true_iff, !N.leb_le; lia).
  rewrite !orb_true_r. cbn [orb andb].
  assert ((c =? 60) = false) as -> by (apply N.eqb_neq; exact A).
  assert ((c =? 62) = false) as -> by (apply N.eqb_neq; exact B).
  assert ((c =? 38) = false) as -> by (apply N.eqb_neq; lia).
  assert ((c =? 34) = false) as -> by (apply N.eqb_neq; lia).
  split; reflexivity.
Qed.

Lemma svg_name_char_ok c : xml_name_char c = true -> xml_text_char c = true /\ xml_att_char c = true.
Proof. intros H. apply svg_name_char_iff in H. apply svg_range_chars; lia. Qed.

Lemma svg_digit_name d : d < 10 -> xml_name_char (48 + d) = true.
Proof. intros H. apply svg_name_char_iff. lia. Qed.

Lemma svg_forallb_impl {A} (P Q : A -> bool) l : (forall x, P x = true -> Q x = true) -> forallb P l = true -> forallb Q l = true.
Proof.
  intros H. induction l as [|x r IH]; [reflexivity|]. cbn [forallb]. rewrite !andb_true_iff. intros [A1 B1]. auto.
Qed.

Lemma svg_forallb_flat_map {A} (P : N -> bool) (f : A -> list N) l :
  (forall x, In x l -> forallb P (f x) = true) -> forallb P (flat_map f l) = true.
Proof.
  induction l as [|x r IH]; intros H; [reflexivity|].
  cbn [flat_map]. rewrite forallb_app, andb_true_iff. split; [apply H; left; reflexivity|].
  apply IH. intros y Hy. apply H. right. exact Hy.
Qed.

Lemma svg_names_text l : forallb xml_name_char l = true -> forallb xml_text_char l = true.
Proof. apply svg_forallb_impl. intros c Hc. apply svg_name_char_ok, Hc. Qed.

Lemma svg_names_att l : forallb xml_name_char l = true -> forallb xml_att_char l = true.
Proof. apply svg_forallb_impl. intros c Hc. apply svg_name_char_ok, Hc. Qed.

Lemma svg_text_app a b :
  forallb xml_text_char a = true -> forallb xml_text_char b = true -> forallb xml_text_char (a ++ b) = true.
Proof. intros Ha Hb. rewrite forallb_app, Ha, Hb. reflexivity. Qed.

Lemma svg_dec_go_name : forall fuel n acc, forallb xml_name_char acc = true -> forallb xml_name_char (svg_dec_go fuel n acc) = true.
Proof.
  induction fuel as [|f IH]; intros n acc H; [exact H|].
  cbn [svg_dec_go].
  assert (forallb xml_name_char ((48 + n mod 10) :: acc) = true) as H1.
  { cbn [forallb]. rewrite H, svg_digit_name by (apply N.mod_lt; discriminate). reflexivity. }
  destruct (n <? 10); [exact H1 | apply IH; exact H1].
Qed.

Lemma svg_px_name n : forallb xml_name_char (svg_px n) = true.
Proof. unfold svg_px, svg_dec. rewrite forallb_app, svg_dec_go_name; reflexivity. Qed.

Lemma svg_px_att n : forallb xml_att_char (svg_px n) = true.
Proof. apply svg_names_att, svg_px_name. Qed.

Lemma svg_px_text n : forallb xml_text_char (svg_px n) = true.
Proof. apply svg_names_text, svg_px_name. Qed.

(* what Props/C14.v [c14_print_doc_wf] asks of a document *)
Definition svg_class_ok (c : list N) : bool := forallb xml_name_char c.
Definition svg_span_ok (sp : svg_span) : bool := forallb svg_class_ok (fst sp) && forallb xml_char (snd sp).
Definition svg_line_ok (l : svg_line) : bool :=
  match svg_l_bg l with Some bg => forallb (fun sp => forallb svg_class_ok (fst sp)) bg | None => true end
  && forallb svg_span_ok (svg_l_fg l).
Definition svg_css_ok (v : list N) : bool := forallb xml_text_char v.
Definition svg_doc_ok (d : svg_document) : bool :=
  svg_css_ok (svg_d_fg d) && svg_css_ok (svg_d_bg d)
  && forallb (fun e => svg_class_ok (fst e) && svg_css_ok (snd e)) (svg_d_sheet d)
  && forallb svg_line_ok (svg_d_lines d).

Lemma svg_join_att : forall cl, forallb svg_class_ok cl = true -> forallb xml_att_char (svg_join [32] cl) = true.
Proof.
  induction cl as [|x r IH]; intros H; [reflexivity|].
  cbn [forallb] in H. apply andb_true_iff in H as [Hx Hr]. apply svg_names_att in Hx.
  destruct r as [|y r']; [exact Hx|].
  change (svg_join [32] (x :: y :: r')) with (x ++ [32] ++ svg_join [32] (y :: r')).
  rewrite !forallb_app, Hx, (IH Hr). reflexivity.
Qed.

Lemma svg_class_attr_ok cl : forallb svg_class_ok cl = true -> xml_atts_ok (svg_class_attr cl).
Proof.
  intros H. unfold svg_class_attr. destruct cl as [|x r]; cbn [svg_is_nil].
  - split; constructor.
  - split; [repeat constructor; intros []|]. constructor; [|constructor]. split; [reflexivity|].
    apply svg_join_att, H.
Qed.

Lemma svg_fg_span_wf sp : svg_span_ok sp = true -> XElement (svg_print_fg_span sp).
Proof.
  unfold svg_span_ok. rewrite andb_true_iff. intros [Hc Ht]. unfold svg_print_fg_span.
  apply svg_elem_wf; [reflexivity | apply svg_class_attr_ok, Hc | apply svg_XContent_encode, Ht].
Qed.

Lemma svg_repeat_text c n : xml_text_char c = true -> forallb xml_text_char (repeat c n) = true.
Proof. intros H. induction n as [|n IH]; [reflexivity|]. cbn [repeat forallb]. rewrite H, IH. reflexivity. Qed.

Lemma svg_bg_span_wf wf sp : forallb svg_class_ok (fst sp) = true -> XElement (svg_print_bg_span wf sp).
Proof.
  intros Hc. unfold svg_print_bg_span.
  apply svg_elem_wf; [reflexivity | apply svg_class_attr_ok, Hc |].
  apply svg_XContent_chars, svg_repeat_text. destruct (svg_is_nil (fst sp)); reflexivity.
Qed.

Lemma svg_flat_map_elems {A} (f : A -> list N) l : (forall x, In x l -> XElement (f x)) -> XContent (flat_map f l).
Proof.
  induction l as [|x r IH]; intros H; [constructor|].
  cbn [flat_map]. apply XC_elem; [apply H; left; reflexivity|]. apply IH. intros y Hy. apply H. right. exact Hy.
Qed.

Lemma svg_row_wf y spans : XContent spans -> XContent (svg_print_row y spans).
Proof.
  intros H. unfold svg_print_row. apply svg_XContent_text; [reflexivity|].
  apply XC_elem; [|apply svg_XContent_chars; reflexivity].
  apply svg_elem_wf; [reflexivity| |].
  - split; [repeat constructor; cbn; intuition discriminate|].
    repeat constructor; cbn [fst snd]; try reflexivity; apply svg_px_att.
  - apply svg_XContent_app; [exact H | apply svg_XContent_chars; reflexivity].
Qed.

Lemma svg_line_wf wf y l : svg_line_ok l = true -> XContent (svg_print_line wf y l).
Proof.
  unfold svg_line_ok. rewrite andb_true_iff. intros [Hb Hf]. unfold svg_print_line.
  apply svg_XContent_app.
  - destruct (svg_l_bg l) as [bg|]; [|constructor].
    apply svg_row_wf, svg_flat_map_elems. intros sp Hsp. apply svg_bg_span_wf.
    rewrite forallb_forall in Hb. exact (Hb sp Hsp).
  - apply svg_row_wf, svg_flat_map_elems. intros sp Hsp. apply svg_fg_span_wf.
    rewrite forallb_forall in Hf. exact (Hf sp Hsp).
Qed.

Lemma svg_lines_wf wf : forall ls y, forallb svg_line_ok ls = true -> XContent (svg_print_lines wf y ls).
Proof.
  induction ls as [|l r IH]; intros y H; [constructor|].
  cbn [forallb] in H. apply andb_true_iff in H. destruct H as [Hl Hr].
  cbn [svg_print_lines]. apply svg_XContent_app; [apply svg_line_wf, Hl | apply IH, Hr].
Qed.

Lemma svg_rule_text name body :
  svg_class_ok name = true -> forallb xml_text_char body = true -> forallb xml_text_char (svg_rule name body) = true.
Proof.
  intros Hn Hb. apply svg_names_text in Hn. unfold svg_rule. rewrite !forallb_app, Hn, Hb. reflexivity.
Qed.

Lemma svg_sheet_entry_text e :
  svg_class_ok (fst e) = true -> svg_css_ok (snd e) = true -> forallb xml_text_char (svg_print_sheet_entry e) = true.
Proof.
  destruct e as [name rgb]. cbn [fst snd]. unfold svg_css_ok. intros Hn Hv. unfold svg_print_sheet_entry.
  assert (forall (b : bool) body, forallb xml_text_char body = true ->
            forallb xml_text_char (if b then svg_rule name body else []) = true) as K
    by (intros [] body Hb; [apply svg_rule_text; assumption | reflexivity]).
  repeat apply svg_text_app; apply K; repeat apply svg_text_app; try reflexivity; exact Hv.
Qed.

Lemma svg_effect_rules_text e : forallb xml_text_char (flat_map (svg_print_effect_rule e) svg_effect_rules) = true.
Proof.
  apply svg_forallb_flat_map. intros r Hr.
  assert (forallb (fun r => forallb xml_text_char (svg_rule (snd (fst r)) (snd r))) svg_effect_rules = true) as H by (vm_compute; reflexivity).
  rewrite forallb_forall in H. specialize (H r Hr). destruct r as [[m name] body]. cbn [fst snd] in H.
  unfold svg_print_effect_rule. destruct (svg_contains e m); [exact H | reflexivity].
Qed.

Lemma svg_style_text_ok d : svg_doc_ok d = true -> forallb xml_text_char (svg_style_text d) = true.
Proof.
  unfold svg_doc_ok, svg_css_ok. rewrite !andb_true_iff. intros [[[Hfg Hbg] Hsheet] _].
  pose proof (svg_effect_rules_text (svg_d_effects d)) as Heff. unfold svg_style_text.
  (* a concatenation of literal text, the two default colours, the sheet and the effect rules *)
  revert Heff. generalize (flat_map (svg_print_effect_rule (svg_d_effects d)) svg_effect_rules). intros rules Heff.
  repeat apply svg_text_app; try reflexivity; try assumption.
  apply svg_forallb_flat_map. intros e He. rewrite forallb_forall in Hsheet.
  specialize (Hsheet e He). apply andb_true_iff in Hsheet as [Hn Hv]. apply svg_sheet_entry_text; assumption.
Qed.

Lemma svg_rect_wf : XElement svg_rect.
Proof.
  unfold svg_rect. apply svg_empty_elem_wf; [reflexivity|].
  split; [repeat constructor; cbn; intuition discriminate|].
  repeat constructor; reflexivity.
Qed.

Theorem svg_print_doc_wf : forall width_px wf d, svg_doc_ok d = true -> WF (svg_print width_px wf d).
Proof.
  intros W wf d Hd. unfold svg_print, WF. eexists. exists [10]. split; [reflexivity|]. split; [|reflexivity].
  apply svg_elem_wf; [reflexivity| |].
  - split; [repeat constructor; cbn; intuition discriminate|].
    repeat constructor; cbn [fst snd]; try reflexivity; apply svg_px_att.
  - do 2 (apply svg_XContent_text; [reflexivity|]).
    apply XC_elem.
    { apply svg_elem_wf; [reflexivity | split; constructor | apply svg_XContent_chars, svg_style_text_ok, Hd]. }
    do 2 (apply svg_XContent_text; [reflexivity|]).
    apply svg_XContent_app.
    { destruct (svg_d_background d); [|constructor].
      apply svg_XContent_text; [reflexivity|].
      apply XC_elem; [apply svg_rect_wf | apply svg_XContent_chars; reflexivity]. }
    apply svg_XContent_text; [reflexivity|].
    apply XC_elem; [|apply svg_XContent_chars; reflexivity].
    apply svg_elem_wf; [reflexivity| |].
    + split; [repeat constructor; cbn; intuition discriminate|].
      repeat constructor; reflexivity.
    + apply svg_XContent_text; [reflexivity|].
      apply svg_XContent_app; [|apply svg_XContent_chars; reflexivity].
      apply svg_lines_wf. unfold svg_doc_ok in Hd. rewrite !andb_true_iff in Hd. apply Hd.
Qed.

Lemma svg_visible_app a b : svg_visible (a ++ b) = svg_visible a ++ svg_visible b.
Proof. unfold svg_visible. rewrite map_app, concat_app. reflexivity. Qed.

Lemma svg_strip_is_drop : forall t, svg_strip_cr t = svg_drop_cr t.
Proof. induction t as [|c r IH]; [reflexivity|]. cbn [svg_strip_cr svg_drop_cr]. destruct r; [reflexivity|]. rewrite IH. reflexivity. Qed.

Lemma svg_drop_cr_app : forall a b, b <> [] -> svg_drop_cr (a ++ b) = a ++ svg_drop_cr b.
Proof.
  induction a as [|c a IH]; intros b Hb; [reflexivity|].
  cbn [app svg_drop_cr]. destruct (a ++ b) eqn:E.
  - apply app_eq_nil in E. destruct E as [_ E]. contradiction.
  - rewrite <- E, IH by exact Hb. reflexivity.
Qed.

Lemma svg_drop_cr_cases : forall t, svg_drop_cr t = t \/ t = svg_drop_cr t ++ [13].
Proof.
  induction t as [|c r IH]; [left; reflexivity|].
  cbn [svg_drop_cr]. destruct r as [|c' r'].
  - destruct (c =? 13) eqn:E; [right; apply N.eqb_eq in E; subst; reflexivity | left; reflexivity].
  - destruct IH as [IH|IH]; [left; rewrite IH; reflexivity | right; cbn [app]; rewrite <- IH; reflexivity].
Qed.

Lemma svg_drop_cr_snoc13 t : svg_drop_cr (t ++ [13]) = t.
Proof. rewrite svg_drop_cr_app by discriminate. cbn. apply app_nil_r. Qed.

Lemma svg_strip_nil_cases t : svg_strip_cr t = [] -> t = [] \/ t = [13].
Proof.
  destruct t as [|c r]; [left; reflexivity|]. cbn [svg_strip_cr]. destruct r as [|c' r'].
  - destruct (c =? 13) eqn:E; [intros _; right; apply N.eqb_eq in E; subst; reflexivity | discriminate].
  - discriminate.
Qed.

Definition svg_J (cl : list (sstyle * list N)) : Prop :=
  match cl with [] => True | _ :: tl => Forall (fun p => snd p <> []) tl end.

Lemma svg_strip_last_txt : forall cl, svg_J cl -> svg_visible (svg_strip_last cl) = svg_drop_cr (svg_visible cl).
Proof.
  induction cl as [|x r IH]; intros HJ; [reflexivity|].
  cbn [svg_strip_last]. destruct r as [|y r'].
  - unfold svg_visible. cbn. rewrite !app_nil_r. apply svg_strip_is_drop.
  - change (svg_visible (x :: svg_strip_last (y :: r'))) with (snd x ++ svg_visible (svg_strip_last (y :: r'))).
    change (svg_visible (x :: y :: r')) with (snd x ++ svg_visible (y :: r')).
    cbn [svg_J] in HJ. rewrite IH.
    + symmetry. apply svg_drop_cr_app. inversion HJ as [|? ? Hy _]. subst.
      change (svg_visible (y :: r')) with (snd y ++ svg_visible r'). intros E. apply app_eq_nil in E. destruct E. contradiction.
    + cbn [svg_J]. inversion HJ. assumption.
Qed.

Lemma svg_J_snoc cl style cur : svg_J cl -> cur <> [] \/ cl = [] -> svg_J (cl ++ [(style, cur)]).
Proof.
  intros HJ HQ. destruct cl as [|x tl]; [constructor|]. cbn [app svg_J] in *. apply Forall_app. split; [exact HJ|].
  constructor; [|constructor]. destruct HQ as [HQ|HQ]; [exact HQ | discriminate].
Qed.

Lemma svg_closed_line_visible style cur cl : svg_J cl ->
  svg_visible ((if svg_is_nil cur then svg_strip_last cl else cl) ++ [(style, svg_strip_cr cur)])
  = svg_drop_cr (svg_visible cl ++ cur).
Proof.
  intros HJ. rewrite svg_visible_app. change (svg_visible [(style, svg_strip_cr cur)]) with (svg_strip_cr cur ++ []).
  rewrite app_nil_r. destruct cur as [|x cur']; cbn [svg_is_nil].
  - cbn [svg_strip_cr]. rewrite !app_nil_r. apply svg_strip_last_txt, HJ.
  - rewrite svg_strip_is_drop. symmetry. apply svg_drop_cr_app. discriminate.
Qed.

(* one run, then whatever [k] does with the lines and the open line: if [k] goes on
   splitting over the text [tl], the whole is the split over [next ++ tl] *)
Lemma svg_run_loop_spec style k tl :
  (forall cl lines, svg_J cl -> cl <> [] ->
     map svg_visible (k lines cl) = map svg_visible lines ++ svg_split_acc (svg_visible cl) tl) ->
  forall next cur cl lines, svg_J cl -> (cur <> [] \/ cl = [] \/ next <> []) ->
  map svg_visible (let (l1, c1) := svg_run_loop style next cur cl lines in k l1 c1)
  = map svg_visible lines ++ svg_split_acc (svg_visible cl ++ cur) (next ++ tl).
Proof.
  intros Hk. induction next as [|c r IH]; intros cur cl lines HJ HQ.
  - cbn [svg_run_loop app]. rewrite Hk, svg_visible_app.
    + change (svg_visible [(style, cur)]) with (cur ++ []). rewrite !app_nil_r. reflexivity.
    + apply svg_J_snoc; [exact HJ|]. destruct HQ as [HQ|[HQ|HQ]]; [left; exact HQ | right; exact HQ | contradiction].
    + intros E. apply app_eq_nil in E as [_ E]. discriminate.
  - cbn [svg_run_loop app svg_split_acc]. destruct (c =? 10).
    + rewrite (IH [] [] _ I (or_intror (or_introl eq_refl))), map_app, <- app_assoc.
      cbn [map app]. rewrite svg_closed_line_visible by exact HJ. reflexivity.
    + rewrite (IH (cur ++ [c]) cl lines HJ), app_assoc; [reflexivity|].
      left. intros E. apply app_eq_nil in E as [_ E]. discriminate.
Qed.

Lemma svg_split_go_spec : forall styled cl lines,
  Forall (fun p => snd p <> []) styled -> svg_J cl -> cl <> [] ->
  map svg_visible (svg_split_go styled cl lines) = map svg_visible lines ++ svg_split_acc (svg_visible cl) (svg_visible styled).
Proof.
  induction styled as [|[s t] rest IH]; intros cl lines Hne HJ Hcl.
  - cbn [svg_split_go]. destruct cl; [contradiction|]. cbn [svg_is_nil]. rewrite map_app. reflexivity.
  - inversion Hne as [|? ? Ht Hrest]. subst. cbn [svg_split_go].
    change (svg_visible ((s, t) :: rest)) with (t ++ svg_visible rest). rewrite <- (app_nil_r (svg_visible cl)).
    apply (svg_run_loop_spec s (fun l c => svg_split_go rest c l)); [|exact HJ|auto].
    intros cl' lines' HJ' Hcl'. apply IH; assumption.
Qed.

Lemma svg_split_lines_spec styled :
  Forall (fun p => snd p <> []) styled ->
  map svg_visible (svg_split_lines styled) = svg_split_nl_dropping_cr (svg_visible styled).
Proof.
  intros Hne. destruct styled as [|[s t] rest]; [reflexivity|].
  inversion Hne as [|? ? Ht Hrest]. subst. cbn [snd] in Ht.
  unfold svg_split_lines, svg_split_nl_dropping_cr. cbn [svg_split_go].
  change (svg_visible ((s, t) :: rest)) with (t ++ svg_visible rest).
  destruct (t ++ svg_visible rest) eqn:E; [apply app_eq_nil in E as [E _]; contradiction|]. rewrite <- E.
  apply (svg_run_loop_spec s (fun l c => svg_split_go rest c l) _ (fun cl lines => svg_split_go_spec rest cl lines Hrest) t [] [] []);
    [exact I | auto].
Qed.

Definition svg_colour_ok (c : colour) : bool :=
  match c with
  | CAnsi a => a <? 16
  | CIdx i => i <? 256
  | CRgb r g b => (r <? 256) && (g <? 256) && (b <? 256)
  end.
Definition svg_ocol_ok (c : option colour) : bool := match c with None => true | Some c => svg_colour_ok c end.
Definition svg_style_ok (s : sstyle) : bool := svg_ocol_ok (s_fg s) && svg_ocol_ok (s_bg s) && svg_ocol_ok (s_ul s).

Lemma svg_style_ok_intro f b u e : svg_ocol_ok f = true -> svg_ocol_ok b = true -> svg_ocol_ok u = true -> svg_style_ok (mkStyle f b u e) = true.
Proof. intros A B C. unfold svg_style_ok. cbn [s_fg s_bg s_ul]. rewrite A, B, C. reflexivity. Qed.

Lemma svg_style_ok_elim s : svg_style_ok s = true -> svg_ocol_ok (s_fg s) = true /\ svg_ocol_ok (s_bg s) = true /\ svg_ocol_ok (s_ul s) = true.
Proof. unfold svg_style_ok. rewrite !andb_true_iff. tauto. Qed.

Lemma svg_ok_set_target t s c : svg_style_ok s = true -> svg_ocol_ok c = true -> svg_style_ok (set_target t s c) = true.
Proof.
  intros Hs Hc. apply svg_style_ok_elim in Hs. destruct Hs as (A & B & C).
  destruct t; cbn [set_target set_fg set_bg set_ulc]; apply svg_style_ok_intro; assumption.
Qed.

Lemma svg_to_ansi_color_ok x c : to_ansi_color x = Some c -> c <= 7.
Proof. unfold to_ansi_color. destruct (x <=? 7) eqn:E; [|discriminate]. intros H. injection H as <-. apply N.leb_le, E. Qed.

(* the form in which an invariant is stated of code that may fail *)
Definition svg_when {A} (P : A -> Prop) (o : option A) : Prop := match o with Some a => P a | None => True end.

Lemma svg_when_if {A} (P : A -> Prop) (b : bool) x y : svg_when P x -> svg_when P y -> svg_when P (if b then x else y).
Proof. destruct b; auto. Qed.

Lemma svg_when_bind {A B} (P : A -> Prop) (Q : B -> Prop) o (f : A -> option B) :
  svg_when P o -> (forall a, P a -> svg_when Q (f a)) -> svg_when Q (match o with Some a => f a | None => None end).
Proof. destruct o; cbn; auto. Qed.

Definition svg_d_ok (d : dstate) : Prop := svg_style_ok (d_style d) = true.

Lemma svg_value_step_ok d v : svg_d_ok d -> svg_when (fun r => svg_d_ok (fst r)) (value_step d v).
Proof.
  unfold svg_d_ok. intros Hs. unfold value_step.
  destruct (d_state d); [| | |destruct (d_r d), (d_g d)|]; repeat apply svg_when_if.
  (* the four ranges of palette colours *)
  all: try (destruct (csub v _) as [x|]; [destruct (to_ansi_color x) as [a|] eqn:E; [apply svg_to_ansi_color_ok in E|]|]).
  all: cbn [svg_when fst d_style set_d]; try exact I.
  (* the new style is the default, or the old one up to its effects ... *)
  all: try exact Hs; try reflexivity.
  (* ... or the old one with one colour slot set, to a colour in range *)
  all: first [apply (svg_ok_set_target TFg); [exact Hs|] | apply (svg_ok_set_target TBg); [exact Hs|] | apply svg_ok_set_target; [exact Hs|]].
  all: cbn [svg_ocol_ok svg_colour_ok]; rewrite ?andb_true_iff, ?N.ltb_lt; repeat split; try lia; apply N.mod_lt; discriminate.
Qed.

Lemma svg_values_loop_ok : forall vs d, svg_d_ok d -> svg_when svg_d_ok (values_loop d vs).
Proof.
  induction vs as [|v rest IH]; intros d Hs; cbn [values_loop]; [exact Hs|].
  apply (svg_when_bind _ _ _ _ (svg_value_step_ok d v Hs)). intros [d1 brk] H1. destruct brk; [exact H1 | apply IH, H1].
Qed.

Lemma svg_params_loop_ok : forall ps d, svg_d_ok d -> svg_when svg_d_ok (params_loop d ps).
Proof.
  induction ps as [|q rest IH]; intros d Hs; cbn [params_loop]; [exact Hs|].
  apply (svg_when_bind _ _ _ _ (svg_values_loop_ok q d Hs)). intros d1 H1. apply IH. destruct (d_state d1); exact H1.
Qed.

Lemma svg_sgr_dispatch_ok s ps : svg_style_ok s = true -> svg_when (fun s' => svg_style_ok s' = true) (sgr_dispatch s ps).
Proof.
  intros Hs. apply (svg_when_bind _ _ _ _ (svg_params_loop_ok ps (mkD s WNormal None None TFg) Hs)). intros d H. exact H.
Qed.

Definition svg_cap_ok (c : capture) : Prop :=
  svg_style_ok (c_style c) = true /\ svg_when (fun s => svg_style_ok s = true) (c_ready c).

Lemma svg_capture_event_ok c e : svg_cap_ok c -> svg_when svg_cap_ok (capture_event c e).
Proof.
  intros Hc. destruct e; cbn [capture_event]; repeat apply svg_when_if; try exact Hc.
  apply (svg_when_bind _ _ _ _ (svg_sgr_dispatch_ok _ ps (proj1 Hc))). intros style Hst. split; [exact Hst|].
  cbn [c_ready]. destruct (_ && _); apply Hc.
Qed.

Lemma svg_capture_events_ok : forall es c, svg_cap_ok c -> svg_when svg_cap_ok (capture_events c es).
Proof.
  induction es as [|e rest IH]; intros c Hc; cbn [capture_events]; [exact Hc|].
  exact (svg_when_bind _ _ _ _ (svg_capture_event_ok c e Hc) (IH)).
Qed.

Lemma svg_wn_loop_ok : forall bs p c, svg_cap_ok c -> svg_when (fun r => svg_cap_ok (snd r)) (wn_loop bs p c).
Proof.
  induction bs as [|b rest IH]; intros p c Hc; cbn [wn_loop]; destruct (c_ready c); try exact Hc.
  destruct (advance cfg_default p b) as [[p1 evs]|]; [|exact I].
  apply (svg_when_bind _ _ _ _ (svg_capture_events_ok evs c Hc)). intros c1 H1. apply IH, H1.
Qed.

Definition svg_run_ok (it : sstyle * list N) : Prop := svg_style_ok (fst it) = true /\ snd it <> [].

Lemma svg_wincon_next_ok bs p c : svg_cap_ok c ->
  svg_when (fun r => svg_cap_ok (snd r) /\ svg_when svg_run_ok (fst (fst (fst r)))) (wincon_next bs p c).
Proof.
  intros [Hs _]. unfold wincon_next.
  apply (svg_when_bind _ _ _ _ (svg_wn_loop_ok bs p (mkCap (c_style c) (c_printable c) None) (conj Hs I))).
  intros [[bs1 p1] c1] [Hs1 Hr1]. cbn [snd] in Hs1, Hr1. destruct (c_printable c1) as [|x txt]; cbn [svg_when fst snd]; [repeat split; assumption|].
  split; [split; assumption|]. split; [|discriminate]. cbn [fst]. destruct (c_ready c1); assumption.
Qed.

Lemma svg_wincon_iter_ok : forall fuel bs p c, svg_cap_ok c -> svg_when (fun r => Forall svg_run_ok (fst (fst r))) (wincon_iter fuel bs p c).
Proof.
  induction fuel as [|f IH]; intros bs p c Hc; [exact I|]. cbn [wincon_iter].
  apply (svg_when_bind _ _ _ _ (svg_wincon_next_ok bs p c Hc)). intros [[[[it|] bs1] p1] c1] [Hc1 Hi]; [|constructor].
  apply (svg_when_bind _ _ _ _ (IH bs1 p1 c1 Hc1)). intros [[its p2] c2] Hits. constructor; assumption.
Qed.

Lemma svg_extract_next_ok bs its p' c' :
  extract_next bs parser_new capture_default = Some (its, p', c') ->
  Forall (fun it => svg_style_ok (fst it) = true /\ snd it <> []) its.
Proof.
  intros H. change (svg_when (fun r => Forall svg_run_ok (fst (fst r))) (Some (its, p', c'))). rewrite <- H.
  apply svg_wincon_iter_ok. split; [reflexivity | exact I].
Qed.

Lemma svg_spans_text cls : forall line sp, svg_spans cls line = Some sp -> svg_line_text sp = svg_visible line.
Proof.
  induction line as [|[s t] rest IH]; intros sp H; cbn [svg_spans] in H.
  - injection H as <-. reflexivity.
  - change (svg_visible ((s, t) :: rest)) with (t ++ svg_visible rest).
    destruct t as [|x t']; cbn [svg_is_nil] in H; [cbn [app]; apply IH, H|].
    destruct (cls s) as [cl|]; [|discriminate]. destruct (svg_spans cls rest) as [r|]; [|discriminate].
    injection H as <-. change (svg_line_text ((cl, x :: t') :: r)) with ((x :: t') ++ svg_line_text r).
    rewrite (IH r eq_refl). reflexivity.
Qed.

Lemma svg_line_of_spans line l : svg_line_of line = Some l ->
  svg_spans svg_fg_classes line = Some (svg_l_fg l)
  /\ match svg_l_bg l with Some bg => svg_spans svg_bg_classes line = Some bg | None => True end.
Proof.
  unfold svg_line_of. destruct (svg_spans svg_fg_classes line) as [fg|]; [|discriminate].
  destruct (svg_has_bg line); [destruct (svg_spans svg_bg_classes line) as [bg|]; [|discriminate]|];
    intros [= <-]; cbn [svg_l_fg svg_l_bg]; auto.
Qed.

Lemma svg_lines_of_text : forall lines ls, svg_lines_of lines = Some ls -> map (fun l => svg_line_text (svg_l_fg l)) ls = map svg_visible lines.
Proof.
  induction lines as [|l rest IH]; intros ls H; cbn [svg_lines_of] in H.
  - injection H as <-. reflexivity.
  - destruct (svg_line_of l) as [x|] eqn:E; [|discriminate]. destruct (svg_lines_of rest) as [r|]; [|discriminate].
    injection H as <-. cbn [map]. rewrite (IH r eq_refl). f_equal.
    apply svg_line_of_spans in E as [Ef _]. exact (svg_spans_text _ _ _ Ef).
Qed.

Definition svg_inverted (t : svg_term) (runs : list (sstyle * list N)) : list (sstyle * list N) :=
  map (fun p => (svg_invert t (fst p), snd p)) runs.

Lemma svg_inverted_visible t runs : svg_visible (svg_inverted t runs) = svg_visible runs.
Proof. unfold svg_visible, svg_inverted. rewrite map_map. reflexivity. Qed.

Lemma svg_inverted_nonempty t runs :
  Forall svg_run_ok runs -> Forall (fun p => snd p <> []) (svg_inverted t runs).
Proof.
  intros H. unfold svg_inverted. apply Forall_map. eapply Forall_impl; [|exact H]. intros a [_ Ha]. exact Ha.
Qed.

(* a CR, a style change, then CR LF: only the CR directly before the LF is dropped *)
Lemma svg_text_two_cr_example :
  exists d, svg_doc svg_term_new [97; 13; 27; 91; 51; 49; 109; 13; 10; 98] = Some d /\
    map svg_line_text (svg_fg_lines d) = [[97; 13]; [98]].
Proof. eexists. split; vm_compute; reflexivity. Qed.

Lemma svg_lines_of_length lines ls : svg_lines_of lines = Some ls -> length ls = length lines.
Proof. intros H. apply svg_lines_of_text, (f_equal (@length _)) in H. rewrite !map_length in H. exact H. Qed.

Definition svg_sub (frag t0 : list N) : Prop := exists pre post, t0 = pre ++ frag ++ post.
Definition svg_from (styled : list (sstyle * list N)) (f : sstyle * list N) : Prop :=
  exists t0, In (fst f, t0) styled /\ svg_sub (snd f) t0.

Lemma svg_strip_prefix t : exists x, t = svg_strip_cr t ++ x.
Proof.
  rewrite svg_strip_is_drop. destruct (svg_drop_cr_cases t) as [H|H].
  - exists []. rewrite H, app_nil_r. reflexivity.
  - exists [13]. exact H.
Qed.

Lemma svg_sub_strip f t0 : svg_sub f t0 -> svg_sub (svg_strip_cr f) t0.
Proof.
  intros (pre & post & ->). destruct (svg_strip_prefix f) as [x Hx].
  exists pre, (x ++ post). rewrite Hx at 1. rewrite <- app_assoc. reflexivity.
Qed.

Lemma svg_strip_last_from styled : forall cl, Forall (svg_from styled) cl -> Forall (svg_from styled) (svg_strip_last cl).
Proof.
  induction cl as [|x r IH]; intros H; [constructor|].
  inversion H as [|? ? Hx Hr]. subst. cbn [svg_strip_last]. destruct r as [|y r'].
  - constructor; [|constructor]. destruct Hx as (t0 & Hin & Hs). exists t0. split; [exact Hin | apply svg_sub_strip, Hs].
  - constructor; [exact Hx | apply IH, Hr].
Qed.

Lemma svg_run_loop_from styled style : forall next cur cl lines pre,
  In (style, pre ++ cur ++ next) styled -> Forall (svg_from styled) cl -> Forall (Forall (svg_from styled)) lines ->
  Forall (Forall (svg_from styled)) (fst (svg_run_loop style next cur cl lines))
  /\ Forall (svg_from styled) (snd (svg_run_loop style next cur cl lines)).
Proof.
  induction next as [|c r IH]; intros cur cl lines pre Hin Hcl Hl.
  - cbn [svg_run_loop fst snd]. split; [exact Hl|]. apply Forall_app. split; [exact Hcl|].
    constructor; [|constructor]. exists (pre ++ cur ++ []). split; [exact Hin|]. exists pre, []. reflexivity.
  - cbn [svg_run_loop]. destruct (c =? 10) eqn:E.
    + apply N.eqb_eq in E. subst c. apply (IH [] [] _ (pre ++ cur ++ [10])).
      * rewrite <- !app_assoc. exact Hin.
      * constructor.
      * apply Forall_app. split; [exact Hl|]. constructor; [|constructor].
        apply Forall_app. split.
        -- destruct (svg_is_nil cur); [apply svg_strip_last_from|]; exact Hcl.
        -- constructor; [|constructor]. exists (pre ++ cur ++ 10 :: r). split; [exact Hin|].
           apply svg_sub_strip. exists pre, (10 :: r). reflexivity.
    + apply (IH (cur ++ [c]) cl lines pre); [|exact Hcl|exact Hl]. rewrite <- app_assoc. exact Hin.
Qed.

Lemma svg_split_go_from styled : forall rem cl lines,
  incl rem styled -> Forall (svg_from styled) cl -> Forall (Forall (svg_from styled)) lines ->
  Forall (Forall (svg_from styled)) (svg_split_go rem cl lines).
Proof.
  induction rem as [|[s t] rest IH]; intros cl lines Hinc Hcl Hl.
  - cbn [svg_split_go]. destruct (svg_is_nil cl); [exact Hl|]. apply Forall_app. split; [exact Hl|]. constructor; [exact Hcl|constructor].
  - cbn [svg_split_go].
    assert (In (s, [] ++ [] ++ t) styled) as Hin by (apply Hinc; left; reflexivity).
    destruct (svg_run_loop_from styled s t [] cl lines [] Hin Hcl Hl) as [A B].
    destruct (svg_run_loop s t [] cl lines) as [lines1 cl1]. cbn [fst snd] in A, B.
    apply IH; [|exact B|exact A]. intros x Hx. apply Hinc. right. exact Hx.
Qed.

Lemma svg_split_lines_from styled : Forall (Forall (svg_from styled)) (svg_split_lines styled).
Proof. apply svg_split_go_from; [apply incl_refl | constructor | constructor]. Qed.

Lemma svg_spans_from cls : forall line sp span, svg_spans cls line = Some sp -> In span sp ->
  snd span <> [] /\ exists s, In (s, snd span) line /\ cls s = Some (fst span).
Proof.
  induction line as [|[s t] rest IH]; intros sp span H Hin; cbn [svg_spans] in H.
  - injection H as <-. destruct Hin.
  - destruct t as [|x t']; cbn [svg_is_nil] in H.
    { destruct (IH _ _ H Hin) as (A & s' & Hs & Hc). eauto using in_cons. }
    destruct (cls s) as [cl|] eqn:Ec; [|discriminate]. destruct (svg_spans cls rest) as [r|]; [|discriminate].
    injection H as <-. destruct Hin as [<-|Hin].
    + split; [discriminate|]. exists s. split; [left; reflexivity | exact Ec].
    + destruct (IH _ _ eq_refl Hin) as (A & s' & Hs & Hc). eauto using in_cons.
Qed.

Lemma svg_lines_of_spans : forall lines ls, svg_lines_of lines = Some ls ->
  forall l, In l ls -> exists line, In line lines /\ svg_line_of line = Some l.
Proof.
  induction lines as [|x rest IH]; intros ls H l Hl; cbn [svg_lines_of] in H.
  - injection H as <-. destruct Hl.
  - destruct (svg_line_of x) as [y|] eqn:E; [|discriminate]. destruct (svg_lines_of rest) as [r|]; [|discriminate].
    injection H as <-. destruct Hl as [<-|Hl]; [exists x; split; [left; reflexivity | exact E]|].
    destruct (IH r eq_refl l Hl) as (line & A & B). exists line. split; [right; exact A | exact B].
Qed.

Definition svg_name_of (prefix : list N) (c : colour) : list N :=
  match svg_color_name prefix c with Some n => n | None => [] end.
Definition svg_tuple (s : sstyle) : option colour * option colour * option colour * N := (s_fg s, s_bg s, s_ul s, s_eff s).

(* the style the renderer draws a run with: INVERT swapped against the defaults *)
Definition svg_drawn (t : svg_term) (s : sstyle) : option colour * option colour * option colour * N :=
  svg_spec_invert colour eff_invert (svg_t_fg t) (svg_t_bg t) (svg_tuple s).

Lemma svg_invert_image t s : svg_tuple (svg_invert t s) = svg_drawn t s.
Proof.
  unfold svg_drawn, svg_tuple, svg_invert, svg_spec_invert, svg_has_effect, svg_contains.
  destruct (N.land (s_eff s) eff_invert =? eff_invert); reflexivity.
Qed.

Lemma svg_opt_class_some p c l :
  svg_opt_class p c = Some l ->
  l = match c with Some col => [svg_name_of p col] | None => [] end
  /\ match c with Some col => svg_color_name p col = Some (svg_name_of p col) | None => True end.
Proof.
  unfold svg_opt_class, svg_name_of. destruct c as [col|]; [destruct (svg_color_name p col); [|discriminate]|];
    intros [= <-]; split; reflexivity || exact I.
Qed.

Lemma svg_opt_class_mem p c l cls :
  svg_opt_class p c = Some l -> In cls l -> exists col, c = Some col /\ svg_color_name p col = Some cls.
Proof.
  intros H Hin. apply svg_opt_class_some in H as [-> E]. destruct c as [col|]; [|destruct Hin].
  destruct Hin as [<-|[]]. eauto.
Qed.

(* The effect classes are abstracted before the equation between the two lists is taken
   apart: [injection] would normalise [filter .. svg_effect_classes] under the undetermined
   effect set *)
Lemma svg_fg_classes_some s cl :
  svg_fg_classes s = Some cl ->
  exists fgc ulc, svg_opt_class svg_fg_prefix (s_fg s) = Some fgc /\ svg_opt_class svg_underline_prefix (s_ul s) = Some ulc
    /\ cl = fgc ++ ulc ++ map snd (filter (fun p => svg_contains (s_eff s) (fst p)) svg_effect_classes).
Proof.
  unfold svg_fg_classes. destruct (svg_opt_class svg_fg_prefix (s_fg s)) as [fgc|]; [|discriminate].
  destruct (svg_opt_class svg_underline_prefix (s_ul s)) as [ulc|]; [|discriminate].
  generalize (map snd (filter (fun p => svg_contains (s_eff s) (fst p)) svg_effect_classes)).
  intros effs [= <-]. eauto.
Qed.

Lemma svg_fg_classes_image s cl :
  svg_fg_classes s = Some cl ->
  cl = svg_spec_classes colour (svg_name_of svg_fg_prefix) (svg_name_of svg_underline_prefix) svg_effect_classes (svg_tuple s).
Proof.
  intros H. destruct (svg_fg_classes_some _ _ H) as (fgc & ulc & Hf & Hu & ->).
  apply svg_opt_class_some in Hf as [-> _]. apply svg_opt_class_some in Hu as [-> _]. reflexivity.
Qed.

Lemma svg_bg_classes_image s cl :
  svg_bg_classes s = Some cl ->
  cl = match s_bg s with Some c => [svg_name_of svg_bg_prefix c] | None => [] end.
Proof. intros H. apply svg_opt_class_some in H as [-> _]. reflexivity. Qed.

Lemma svg_fg_classes_mem s cl cls : svg_fg_classes s = Some cl -> In cls cl ->
  (exists f, s_fg s = Some f /\ svg_color_name svg_fg_prefix f = Some cls)
  \/ (exists u, s_ul s = Some u /\ svg_color_name svg_underline_prefix u = Some cls)
  \/ In cls (map snd svg_effect_classes).
Proof.
  intros H Hin. destruct (svg_fg_classes_some _ _ H) as (fgc & ulc & Hf & Hu & ->).
  apply in_app_or in Hin as [Hin|Hin]; [left; exact (svg_opt_class_mem _ _ _ _ Hf Hin)|].
  apply in_app_or in Hin as [Hin|Hin]; [right; left; exact (svg_opt_class_mem _ _ _ _ Hu Hin)|].
  right. right. apply in_map_iff in Hin as (q & Eq & Hq). apply in_map_iff. exists q. split; [exact Eq|].
  apply filter_In in Hq. apply Hq.
Qed.

Lemma svg_inverted_in t runs s x : In (s, x) (svg_inverted t runs) -> exists s0, In (s0, x) runs /\ s = svg_invert t s0.
Proof.
  unfold svg_inverted. rewrite in_map_iff. intros ([s0 x0] & E & Hin). cbn [fst snd] in E. injection E as <- <-.
  exists s0. split; [exact Hin | reflexivity].
Qed.

(* for both: [injection] on an equation between numerals would normalise the digits [48 + ..] *)
Lemma svg_cons_inj {A} (x y : A) l m : x :: l = y :: m -> x = y /\ l = m.
Proof. intros H. split; [exact (f_equal (hd x) H) | exact (f_equal (@tl A) H)]. Qed.

Lemma svg_some_inj {A} (x y : A) : Some x = Some y -> x = y.
Proof. intros H. exact (f_equal (fun o => match o with Some z => z | None => x end) H). Qed.

Lemma svg_app_inj_length {A} : forall a a' b b' : list A, length a = length a' -> a ++ b = a' ++ b' -> a = a' /\ b = b'.
Proof.
  induction a as [|x a IH]; intros [|x' a'] b b' L H; try discriminate L; [split; [reflexivity | exact H]|].
  apply svg_cons_inj in H as [-> H]. destruct (IH a' b b') as [-> ->]; [exact (eq_add_S _ _ L) | exact H | split; reflexivity].
Qed.

Lemma svg_dec3_inj i j : svg_dec3 i = svg_dec3 j -> i = j.
Proof.
  unfold svg_dec3. intros H.
  apply svg_cons_inj in H as [A H]. apply svg_cons_inj in H as [B H]. apply svg_cons_inj in H as [C _].
  apply N.add_cancel_l in A, B, C.
  pose proof (N.div_mod' i 10) as Hi. pose proof (N.div_mod' (i / 10) 10) as Hi'.
  pose proof (N.div_mod' j 10) as Hj. pose proof (N.div_mod' (j / 10) 10) as Hj'.
  rewrite N.div_div in Hi', Hj' by discriminate. change (10 * 10) with 100 in Hi', Hj'. congruence.
Qed.

Lemma svg_hex_digit_inj d e : svg_hex_digit d = svg_hex_digit e -> d = e.
Proof. unfold svg_hex_digit. destruct (N.ltb_spec d 10), (N.ltb_spec e 10); lia. Qed.

Lemma svg_hex2_inj i j : svg_hex2 i = svg_hex2 j -> i = j.
Proof.
  unfold svg_hex2. intros H. apply svg_cons_inj in H as [A H]. apply svg_cons_inj in H as [B _].
  apply svg_hex_digit_inj in A, B. rewrite (N.div_mod' i 16), (N.div_mod' j 16), A, B. reflexivity.
Qed.

(* what follows `<prefix>-` *)
Definition svg_ansi_name (a : N) : option (list N) := index <- from_ansi a ;; aget svg_ansi_names index.
Definition svg_name_rest (c : colour) : option (list N) :=
  match c with
  | CAnsi a => svg_ansi_name a
  | CIdx i => Some ([97; 110; 115; 105; 50; 53; 54; 45] ++ svg_dec3 i)
  | CRgb r g b => Some ([114; 103; 98; 45] ++ svg_hex2 r ++ svg_hex2 g ++ svg_hex2 b)
  end.

Lemma svg_color_name_rest p c : svg_color_name p c = option_map (fun rest => p ++ 45 :: rest) (svg_name_rest c).
Proof.
  destruct c as [a|i|r g b]; [|reflexivity..]. cbn [svg_color_name svg_name_rest]. unfold svg_ansi_name.
  destruct (from_ansi a) as [ix|]; [|reflexivity]. destruct (aget svg_ansi_names ix); reflexivity.
Qed.

Lemma svg_color_name_shape p c k : svg_color_name p c = Some k -> exists rest, k = p ++ 45 :: rest /\ svg_name_rest c = Some rest.
Proof.
  rewrite svg_color_name_rest. destruct (svg_name_rest c) as [rest|]; [|discriminate]. intros [= <-]. eauto.
Qed.

Lemma svg_lists_eqb_refl : forall a, svg_lists_eqb a a = true.
Proof. induction a as [|x a IH]; [reflexivity|]. cbn [svg_lists_eqb]. rewrite N.eqb_refl, IH. reflexivity. Qed.

Lemma svg_ansi_name_inj a b n : a < 16 -> b < 16 -> svg_ansi_name a = Some n -> svg_ansi_name b = Some n -> a = b.
Proof.
  intros Ha Hb Ea Eb.
  assert (forallb (fun i => forallb (fun j =>
            match svg_ansi_name i, svg_ansi_name j with
            | Some x, Some y => implb (svg_lists_eqb x y) (i =? j)
            | _, _ => true
            end) (range_from 0 16)) (range_from 0 16) = true) as H by (vm_compute; reflexivity).
  pose proof (forall_range _ 16 (forall_range _ 16 H a Ha) b Hb) as K. cbv beta in K.
  rewrite Ea, Eb, svg_lists_eqb_refl in K. apply N.eqb_eq, K.
Qed.

Lemma svg_starts_app : forall p x, svg_starts p (p ++ x) = true.
Proof. induction p as [|c p IH]; intros x; [reflexivity|]. cbn [app svg_starts]. rewrite N.eqb_refl, IH. reflexivity. Qed.

Lemma svg_ansi_name_not_other a n : a < 16 -> svg_ansi_name a = Some n ->
  svg_starts [97; 110; 115; 105; 50; 53; 54; 45] n = false /\ svg_starts [114; 103; 98; 45] n = false.
Proof.
  intros Ha E.
  assert (forallb (fun i => match svg_ansi_name i with
                           | Some n => negb (svg_starts [97; 110; 115; 105; 50; 53; 54; 45] n) && negb (svg_starts [114; 103; 98; 45] n)
                           | None => true end) (range_from 0 16) = true) as H by (vm_compute; reflexivity).
  pose proof (forall_range _ 16 H a Ha) as K. cbv beta in K. rewrite E in K.
  apply andb_true_iff in K as [A B]. apply negb_true_iff in A, B. auto.
Qed.

Lemma svg_name_rest_inj c c' rest :
  svg_colour_ok c = true -> svg_colour_ok c' = true -> svg_name_rest c = Some rest -> svg_name_rest c' = Some rest -> c = c'.
Proof.
  intros Hc Hc' E E'.
  destruct c as [a|i|r g b], c' as [a'|i'|r' g' b']; cbn [svg_name_rest svg_colour_ok] in *;
    try apply N.ltb_lt in Hc; try apply N.ltb_lt in Hc'.
  - f_equal. eapply svg_ansi_name_inj; eauto.
  - destruct (svg_ansi_name_not_other a rest Hc E) as [A _]. apply svg_some_inj in E' as <-. rewrite svg_starts_app in A. discriminate A.
  - destruct (svg_ansi_name_not_other a rest Hc E) as [_ B]. apply svg_some_inj in E' as <-. rewrite svg_starts_app in B. discriminate B.
  - destruct (svg_ansi_name_not_other a' rest Hc' E') as [A _]. apply svg_some_inj in E as <-. rewrite svg_starts_app in A. discriminate A.
  - rewrite <- E' in E. apply svg_some_inj, app_inv_head, svg_dec3_inj in E. congruence.
  - rewrite <- E' in E. discriminate E.
  - destruct (svg_ansi_name_not_other a' rest Hc' E') as [_ B]. apply svg_some_inj in E as <-. rewrite svg_starts_app in B. discriminate B.
  - rewrite <- E' in E. discriminate E.
  - rewrite <- E' in E. apply svg_some_inj, app_inv_head in E.
    apply svg_app_inj_length in E as [Er E]; [|reflexivity]. apply svg_app_inj_length in E as [Eg Eb]; [|reflexivity].
    apply svg_hex2_inj in Er, Eg, Eb. congruence.
Qed.

Definition svg_prefixes : list (list N) := [svg_fg_prefix; svg_bg_prefix; svg_underline_prefix].

Lemma svg_color_name_inj p p' c c' k :
  In p svg_prefixes -> In p' svg_prefixes -> svg_colour_ok c = true -> svg_colour_ok c' = true ->
  svg_color_name p c = Some k -> svg_color_name p' c' = Some k -> p = p' /\ c = c'.
Proof.
  intros Hp Hp' Hc Hc' E E'.
  destruct (svg_color_name_shape _ _ _ E) as (rest & -> & R).
  destruct (svg_color_name_shape _ _ _ E') as (rest' & K & R').
  assert (p = p' /\ rest = rest') as [-> ->].
  { cbn [svg_prefixes In] in Hp, Hp'.
    destruct Hp as [<-|[<-|[<-|[]]]], Hp' as [<-|[<-|[<-|[]]]];
      first [ apply app_inv_head in K; injection K as ->; split; reflexivity | cbn in K; discriminate ]. }
  split; [reflexivity|]. eapply svg_name_rest_inj; eauto.
Qed.

Lemma svg_cmp_eq : forall a b, svg_cmp a b = Eq -> a = b.
Proof.
  induction a as [|x a IH]; intros [|y b] H; cbn [svg_cmp] in H; try discriminate; [reflexivity|].
  destruct (x ?= y) eqn:E; try discriminate. apply N.compare_eq in E. subst. f_equal. apply IH, H.
Qed.

Lemma svg_insert_in k v : forall m, In (k, v) (svg_map_insert k v m).
Proof.
  induction m as [|[k' v'] r IH]; cbn [svg_map_insert]; [left; reflexivity|].
  destruct (svg_cmp k k'); [left; reflexivity | left; reflexivity | right; exact IH].
Qed.

Lemma svg_insert_sub k v : forall m e, In e (svg_map_insert k v m) -> e = (k, v) \/ In e m.
Proof.
  induction m as [|[k' v'] r IH]; intros e H; cbn [svg_map_insert] in H.
  - destruct H as [<-|[]]. left. reflexivity.
  - destruct (svg_cmp k k').
    + destruct H as [<-|H]; [left; reflexivity | right; right; exact H].
    + destruct H as [<-|H]; [left; reflexivity | right; exact H].
    + destruct H as [<-|H]; [right; left; reflexivity|]. destruct (IH e H) as [->|H1]; [left; reflexivity | right; right; exact H1].
Qed.

Definition svg_good (pal : list rgb) (kv : list N * list N) : Prop :=
  exists p c, In p svg_prefixes /\ svg_colour_ok c = true /\ svg_color_name p c = Some (fst kv) /\ svg_rgb_value c pal = Some (snd kv).

Lemma svg_good_unique pal k v v' : svg_good pal (k, v) -> svg_good pal (k, v') -> v = v'.
Proof.
  intros (p & c & Hp & Hc & En & Ev) (p' & c' & Hp' & Hc' & En' & Ev'). cbn [fst snd] in *.
  destruct (svg_color_name_inj _ _ _ _ _ Hp Hp' Hc Hc' En En') as [_ <-]. rewrite Ev in Ev'. injection Ev' as <-. reflexivity.
Qed.

Lemma svg_insert_keeps pal k v : svg_good pal (k, v) ->
  forall m, Forall (svg_good pal) m -> forall e, In e m -> In e (svg_map_insert k v m).
Proof.
  intros Hg. induction m as [|[k' v'] r IH]; intros Hm e He; [destruct He|].
  inversion Hm as [|? ? Hh Hr]. subst. cbn [svg_map_insert]. destruct (svg_cmp k k') eqn:E.
  - apply svg_cmp_eq in E. subst k'. destruct He as [<-|He]; [|right; exact He].
    left. f_equal. eapply svg_good_unique; eauto.
  - right. exact He.
  - destruct He as [<-|He]; [left; reflexivity | right; apply IH; assumption].
Qed.

Lemma svg_insert_good pal k v m : svg_good pal (k, v) -> Forall (svg_good pal) m -> Forall (svg_good pal) (svg_map_insert k v m).
Proof.
  intros Hg Hm. apply Forall_forall. intros e He. destruct (svg_insert_sub _ _ _ _ He) as [->|H]; [exact Hg|].
  rewrite Forall_forall in Hm. apply Hm, H.
Qed.

Lemma svg_insert_colour_spec pal p c m m' :
  In p svg_prefixes -> svg_ocol_ok c = true -> Forall (svg_good pal) m -> svg_insert_colour pal p c m = Some m' ->
  Forall (svg_good pal) m' /\ (forall e, In e m -> In e m')
  /\ match c with Some col => exists k v, svg_color_name p col = Some k /\ svg_rgb_value col pal = Some v /\ In (k, v) m' | None => True end.
Proof.
  intros Hp Hc Hm H. unfold svg_insert_colour in H. destruct c as [col|]; [|injection H as <-; auto].
  destruct (svg_color_name p col) as [k|] eqn:Ek; [|discriminate].
  destruct (svg_rgb_value col pal) as [v|] eqn:Ev; [|discriminate]. injection H as <-.
  assert (svg_good pal (k, v)) as Hg by (exists p, col; auto).
  split; [apply svg_insert_good; assumption|]. split; [apply (svg_insert_keeps pal); assumption|].
  exists k, v. split; [reflexivity|]. split; [reflexivity|]. apply svg_insert_in.
Qed.

(* color_styles inserts the three colour slots of each style in turn *)
Definition svg_slots (s : sstyle) : list (list N * option colour) :=
  [(svg_fg_prefix, s_fg s); (svg_bg_prefix, s_bg s); (svg_underline_prefix, s_ul s)].

Fixpoint svg_insert_all (pal : list rgb) (l : list (list N * option colour)) (m : list (list N * list N))
  : option (list (list N * list N)) :=
  match l with
  | [] => Some m
  | pc :: r => m1 <- svg_insert_colour pal (fst pc) (snd pc) m ;; svg_insert_all pal r m1
  end.

Lemma svg_color_styles_slots pal : forall styled m,
  svg_color_styles styled pal m = svg_insert_all pal (flat_map (fun x => svg_slots (fst x)) styled) m.
Proof.
  induction styled as [|[s x] rest IH]; intros m; [reflexivity|].
  cbn [svg_color_styles flat_map svg_slots app svg_insert_all fst snd].
  destruct (svg_insert_colour pal svg_fg_prefix (s_fg s) m) as [m1|]; [|reflexivity].
  destruct (svg_insert_colour pal svg_bg_prefix (s_bg s) m1) as [m2|]; [|reflexivity].
  destruct (svg_insert_colour pal svg_underline_prefix (s_ul s) m2) as [m3|]; [apply IH | reflexivity].
Qed.

Lemma svg_slots_ok s p c : svg_style_ok s = true -> In (p, c) (svg_slots s) -> In p svg_prefixes /\ svg_ocol_ok c = true.
Proof.
  intros Hs H. apply svg_style_ok_elim in Hs as (A & B & C).
  destruct H as [[= <- <-]|[[= <- <-]|[[= <- <-]|[]]]]; (split; [cbn; auto | assumption]).
Qed.

Lemma svg_insert_all_spec pal : forall l m m',
  Forall (fun pc => In (fst pc) svg_prefixes /\ svg_ocol_ok (snd pc) = true) l -> Forall (svg_good pal) m ->
  svg_insert_all pal l m = Some m' ->
  Forall (svg_good pal) m' /\ (forall e, In e m -> In e m')
  /\ (forall p col, In (p, Some col) l ->
        exists k v, svg_color_name p col = Some k /\ svg_rgb_value col pal = Some v /\ In (k, v) m').
Proof.
  induction l as [|[p c] r IH]; intros m m' Hl Hm H; cbn [svg_insert_all fst snd] in H.
  - injection H as <-. split; [exact Hm|]. split; [auto|]. intros ? ? [].
  - inversion Hl as [|? ? [Hp Hc] Hr]. subst. cbn [fst snd] in Hp, Hc.
    destruct (svg_insert_colour pal p c m) as [m1|] eqn:E1; [|discriminate].
    destruct (svg_insert_colour_spec pal p c m m1 Hp Hc Hm E1) as (G1 & K1 & P1).
    destruct (IH m1 m' Hr G1 H) as (G & K & P).
    split; [exact G|]. split; [auto|].
    intros p' col [[= -> ->]|Hin]; [|exact (P _ _ Hin)].
    destruct P1 as (k & v & A & B & C). exists k, v. auto.
Qed.

Lemma svg_color_styles_spec pal styled m' :
  Forall (fun p => svg_style_ok (fst p) = true) styled -> svg_color_styles styled pal [] = Some m' ->
  Forall (svg_good pal) m'
  /\ (forall s x p col, In (s, x) styled -> In (p, Some col) (svg_slots s) ->
        exists k v, svg_color_name p col = Some k /\ svg_rgb_value col pal = Some v /\ In (k, v) m').
Proof.
  intros Hs H. rewrite svg_color_styles_slots in H. rewrite Forall_forall in Hs.
  apply svg_insert_all_spec in H as (G & _ & P); [| |constructor].
  - split; [exact G|]. intros s x p col Hin Hslot. apply P, in_flat_map. exists (s, x). auto.
  - apply Forall_forall. intros [p c] Hin. apply in_flat_map in Hin as ([s x] & Hsx & Hpc).
    exact (svg_slots_ok _ _ _ (Hs _ Hsx) Hpc).
Qed.

Lemma svg_cmp_antisym : forall a b, svg_cmp a b = CompOpp (svg_cmp b a).
Proof.
  induction a as [|x a IH]; intros [|y b]; cbn [svg_cmp]; try reflexivity.
  rewrite (N.compare_antisym y x). destruct (y ?= x); cbn [CompOpp]; [apply IH | reflexivity | reflexivity].
Qed.

Lemma svg_cmp_trans : forall a b c, svg_cmp a b = Lt -> svg_cmp b c = Lt -> svg_cmp a c = Lt.
Proof.
  induction a as [|x a IH]; intros [|y b] [|z c]; cbn [svg_cmp]; try discriminate; try reflexivity.
  destruct (x ?= y) eqn:Exy; try discriminate.
  - apply N.compare_eq in Exy. subst y. destruct (x ?= z); try discriminate; [apply IH | reflexivity].
  - intros _. destruct (y ?= z) eqn:Eyz; try discriminate.
    + apply N.compare_eq in Eyz. subst z. rewrite Exy. reflexivity.
    + intros _. rewrite N.compare_lt_iff in *. assert (x < z) as H by lia. apply N.compare_lt_iff in H. rewrite H. reflexivity.
Qed.

Fixpoint svg_sorted (m : list (list N * list N)) : Prop :=
  match m with
  | [] => True
  | e :: r => (forall e', In e' r -> svg_cmp (fst e) (fst e') = Lt) /\ svg_sorted r
  end.

Lemma svg_insert_sorted k v : forall m, svg_sorted m -> svg_sorted (svg_map_insert k v m).
Proof.
  induction m as [|[k' v'] r IH]; intros H; cbn [svg_map_insert]; [split; [intros ? []|exact I]|].
  destruct H as [Hb Hr]. cbn [fst] in Hb. destruct (svg_cmp k k') eqn:E.
  - apply svg_cmp_eq in E. subst k'. split; [exact Hb | exact Hr].
  - split; [|split; assumption]. cbn [fst]. intros e' [<-|He']; [exact E|]. eapply svg_cmp_trans; [exact E | apply Hb, He'].
  - split; [|apply IH, Hr]. cbn [fst]. intros e' He'. destruct (svg_insert_sub _ _ _ _ He') as [->|H1]; [|apply Hb, H1].
    cbn [fst]. rewrite svg_cmp_antisym, E. reflexivity.
Qed.

Lemma svg_insert_colour_sorted pal p c m : svg_sorted m -> svg_when svg_sorted (svg_insert_colour pal p c m).
Proof.
  intros Hm. unfold svg_insert_colour. destruct c as [col|]; [|exact Hm].
  destruct (svg_color_name p col); [|exact I]. destruct (svg_rgb_value col pal); [|exact I]. apply svg_insert_sorted, Hm.
Qed.

Lemma svg_insert_all_sorted pal : forall l m, svg_sorted m -> svg_when svg_sorted (svg_insert_all pal l m).
Proof.
  induction l as [|pc r IH]; intros m Hm; cbn [svg_insert_all]; [exact Hm|].
  exact (svg_when_bind _ _ _ _ (svg_insert_colour_sorted pal _ _ m Hm) IH).
Qed.

Lemma svg_color_styles_sorted pal styled m : svg_sorted m -> svg_when svg_sorted (svg_color_styles styled pal m).
Proof. rewrite svg_color_styles_slots. apply svg_insert_all_sorted. Qed.

Lemma svg_invert_ok t s :
  svg_colour_ok (svg_t_fg t) = true -> svg_colour_ok (svg_t_bg t) = true -> svg_style_ok s = true -> svg_style_ok (svg_invert t s) = true.
Proof.
  intros Hf Hb Hs. apply svg_style_ok_elim in Hs. destruct Hs as (A & B & C). unfold svg_invert.
  destruct (svg_contains (s_eff s) eff_invert); [|unfold svg_style_ok; rewrite A, B, C; reflexivity].
  apply svg_style_ok_intro; [destruct (s_bg s); assumption | destruct (s_fg s); assumption | assumption].
Qed.

Definition svg_is_colour_class (cls : list N) : bool := existsb (fun p => svg_starts (p ++ [45]) cls) svg_prefixes.

Lemma svg_effect_class_not_colour cls : In cls (map snd svg_effect_classes) -> svg_is_colour_class cls = false.
Proof.
  intros H. assert (forallb (fun c => negb (svg_is_colour_class c)) (map snd svg_effect_classes) = true) as K by (vm_compute; reflexivity).
  rewrite forallb_forall in K. apply negb_true_iff, K, H.
Qed.

Lemma svg_inverted_ok t runs :
  svg_colour_ok (svg_t_fg t) = true -> svg_colour_ok (svg_t_bg t) = true ->
  Forall svg_run_ok runs ->
  Forall (fun q => svg_style_ok (fst q) = true) (svg_inverted t runs).
Proof.
  intros Hf Hb H. unfold svg_inverted. apply Forall_map. eapply Forall_impl; [|exact H].
  intros a [Ha _]. cbn [fst]. apply svg_invert_ok; assumption.
Qed.

Lemma svg_dec3_class i : i < 1000 -> forallb xml_name_char (svg_dec3 i) = true.
Proof.
  intros H. unfold svg_dec3. cbn [forallb].
  rewrite !svg_digit_name; [reflexivity | apply N.mod_lt; discriminate .. | apply N.div_lt_upper_bound; [discriminate | exact H]].
Qed.

Lemma svg_hex_digit_name d : d < 16 -> xml_name_char (svg_hex_digit d) = true.
Proof.
  intros H. unfold svg_hex_digit. destruct (N.ltb_spec d 10) as [L|L]; [apply svg_digit_name, L|].
  apply svg_name_char_iff. lia.
Qed.

Lemma svg_hex2_class b : b < 256 -> forallb xml_name_char (svg_hex2 b) = true.
Proof.
  intros H. unfold svg_hex2. cbn [forallb].
  rewrite !svg_hex_digit_name; [reflexivity | apply N.mod_lt; discriminate | apply N.div_lt_upper_bound; [discriminate | exact H]].
Qed.

Lemma svg_color_name_class_ok p c k :
  In p svg_prefixes -> svg_colour_ok c = true -> svg_color_name p c = Some k -> svg_class_ok k = true.
Proof.
  intros Hp Hc H. destruct (svg_color_name_shape _ _ _ H) as (rest & -> & R).
  unfold svg_class_ok. rewrite forallb_app. apply andb_true_iff. split.
  - cbn [svg_prefixes In] in Hp. destruct Hp as [<-|[<-|[<-|[]]]]; reflexivity.
  - cbn [forallb]. apply andb_true_iff. split; [reflexivity|].
    destruct c as [a|i|r g b]; cbn [svg_name_rest svg_colour_ok] in *.
    + apply N.ltb_lt in Hc.
      assert (forallb (fun i => match svg_ansi_name i with Some n => forallb xml_name_char n | None => true end) (range_from 0 16) = true) as K
        by (vm_compute; reflexivity).
      pose proof (forall_range _ 16 K a Hc) as Ka. cbv beta in Ka. rewrite R in Ka. exact Ka.
    + apply N.ltb_lt in Hc. apply svg_some_inj in R as <-. rewrite forallb_app, svg_dec3_class by lia. reflexivity.
    + rewrite !andb_true_iff, !N.ltb_lt in Hc. destruct Hc as [[Hr Hg] Hb]. apply svg_some_inj in R as <-.
      rewrite !forallb_app, !svg_hex2_class by assumption. reflexivity.
Qed.

Lemma svg_colour_ok_color c : svg_colour_ok c = true -> color_ok (svg_to_color c).
Proof.
  destruct c as [a|i|r g b]; cbn [svg_colour_ok svg_to_color color_ok rgb_ok]; rewrite ?andb_true_iff, ?N.ltb_lt; tauto.
Qed.

Lemma svg_rgb_hex_css v : rgb_ok v -> svg_css_ok (svg_rgb_hex v) = true.
Proof.
  destruct v as [[r g] b]. cbn [rgb_ok]. intros (Hr & Hg & Hb). unfold svg_css_ok, svg_rgb_hex.
  repeat apply svg_text_app; try reflexivity; apply svg_names_text, svg_hex2_class; assumption.
Qed.

Lemma svg_rgb_value_css pal c v : palette_ok pal -> svg_colour_ok c = true -> svg_rgb_value c pal = Some v -> svg_css_ok v = true.
Proof.
  intros Hp Hc H. unfold svg_rgb_value in H.
  destruct (conversions_total _ _ (svg_colour_ok_color _ Hc) Hp) as ((r & Er & Hr) & _). rewrite Er in H. injection H as <-.
  apply svg_rgb_hex_css, Hr.
Qed.

Lemma svg_effect_class_ok cls : In cls (map snd svg_effect_classes) -> svg_class_ok cls = true.
Proof.
  intros H. assert (forallb svg_class_ok (map snd svg_effect_classes) = true) as K by (vm_compute; reflexivity).
  rewrite forallb_forall in K. apply K, H.
Qed.

Lemma svg_sub_forallb (P : N -> bool) f t0 : svg_sub f t0 -> forallb P t0 = true -> forallb P f = true.
Proof. intros (pre & post & ->). rewrite !forallb_app, !andb_true_iff. tauto. Qed.

Lemma svg_visible_forallb (P : N -> bool) : forall runs s t0, forallb P (svg_visible runs) = true -> In (s, t0) runs -> forallb P t0 = true.
Proof.
  induction runs as [|[s' x] rest IH]; intros s t0 H Hin; [destruct Hin|].
  change (svg_visible ((s', x) :: rest)) with (x ++ svg_visible rest) in H. rewrite forallb_app, andb_true_iff in H.
  destruct Hin as [E|Hin]; [injection E as <- <-; apply H | eapply IH; [apply H | exact Hin]].
Qed.

Lemma svg_has_effect_bit e k : svg_has_effect e (N.shiftl 1 k) = N.testbit e k.
Proof.
  unfold svg_has_effect. rewrite N.shiftl_1_l. destruct (N.testbit e k) eqn:T.
  - apply N.eqb_eq. apply N.bits_inj. intros n. rewrite N.land_spec, N.pow2_bits_eqb.
    destruct (N.eqb_spec k n) as [<-|_]; [rewrite T; reflexivity | apply andb_false_r].
  - apply N.eqb_neq. intros H.
    assert (N.testbit (N.land e (2 ^ k)) k = N.testbit (2 ^ k) k) as H0 by (rewrite H; reflexivity).
    rewrite N.land_spec, N.pow2_bits_true, T in H0. discriminate.
Qed.

Lemma svg_has_effect_bit_ldiff e k : k <> 9 -> svg_has_effect (N.ldiff e eff_invert) (N.shiftl 1 k) = N.testbit e k.
Proof.
  intros Hk. rewrite svg_has_effect_bit, N.ldiff_spec. unfold eff_invert. rewrite N.shiftl_1_l, N.pow2_bits_eqb.
  destruct (N.eqb_spec 9 k) as [E|_]; [symmetry in E; contradiction | apply andb_true_r].
Qed.

Lemma svg_contains_bit e k : svg_contains e (N.shiftl 1 k) = N.testbit e k.
Proof. exact (svg_has_effect_bit e k). Qed.

Lemma svg_invert_cases t s :
  (N.testbit (s_eff s) INVERT = true
   /\ svg_invert t s = mkStyle (Some (match s_bg s with Some c => c | None => svg_t_bg t end))
                               (Some (match s_fg s with Some c => c | None => svg_t_fg t end))
                               (s_ul s) (N.ldiff (s_eff s) eff_invert))
  \/ (N.testbit (s_eff s) INVERT = false /\ svg_invert t s = s).
Proof.
  unfold svg_invert. rewrite (svg_contains_bit (s_eff s) INVERT : svg_contains (s_eff s) eff_invert = _).
  destruct (N.testbit (s_eff s) INVERT); [left | right]; split; reflexivity.
Qed.

(* the generated effect list of write_fg_span is the documented one *)
Definition svg_effect_rel (a b : N * list N) : Prop := snd a = snd b /\ fst a = N.shiftl 1 (fst b) /\ fst b <> 9.

Lemma svg_effect_tables : Forall2 svg_effect_rel svg_effect_classes svg_spec_effect_table.
Proof. repeat constructor; cbn; discriminate. Qed.

Lemma svg_effect_filter e e' :
  (forall k, k <> 9 -> svg_has_effect e' (N.shiftl 1 k) = N.testbit e k) ->
  forall t1 t2, Forall2 svg_effect_rel t1 t2 ->
  map snd (filter (fun p => svg_has_effect e' (fst p)) t1) = map snd (filter (fun p => N.testbit e (fst p)) t2).
Proof.
  intros He t1 t2 H. induction H as [|a b t1 t2 (Hs & Hm & Hk) _ IH]; [reflexivity|].
  cbn [filter]. rewrite Hm, (He _ Hk). destruct (N.testbit e (fst b)); cbn [map]; rewrite IH, ?Hs; reflexivity.
Qed.

Lemma svg_ansi_name_spec a : a < 16 -> svg_ansi_name a = Some (nth (N.to_nat a) svg_spec_ansi_names []).
Proof. apply (range_ext svg_ansi_name (fun a => Some (nth (N.to_nat a) svg_spec_ansi_names [])) 16). reflexivity. Qed.

Lemma svg_spec_name_agrees prefix c : svg_colour_ok c = true -> svg_color_name prefix c = Some (svg_spec_colour_name prefix c).
Proof.
  intros Hc. rewrite svg_color_name_rest. destruct c as [a|i|r g b]; [|reflexivity..].
  cbn [svg_name_rest]. rewrite svg_ansi_name_spec by (apply N.ltb_lt, Hc). reflexivity.
Qed.

Lemma svg_spec_name_of prefix c : svg_colour_ok c = true -> svg_name_of prefix c = svg_spec_colour_name prefix c.
Proof. intros Hc. unfold svg_name_of. rewrite svg_spec_name_agrees by exact Hc. reflexivity. Qed.

Lemma svg_drawn_fg_spec t s :
  svg_colour_ok (svg_t_fg t) = true -> svg_colour_ok (svg_t_bg t) = true -> svg_style_ok s = true ->
  svg_spec_classes colour (svg_name_of svg_fg_prefix) (svg_name_of svg_underline_prefix) svg_effect_classes (svg_drawn t s)
  = svg_spec_fg_classes (svg_t_fg t) (svg_t_bg t) s.
Proof.
  intros Hdf Hdb Hs. apply svg_style_ok_elim in Hs as (Of & Ob & Ou).
  assert (match s_ul s with Some c => [svg_name_of svg_underline_prefix c] | None => [] end
          = match s_ul s with Some c => [svg_spec_colour_name svg_underline_prefix c] | None => [] end) as Hu.
  { destruct (s_ul s) as [u|]; [rewrite svg_spec_name_of by exact Ou|]; reflexivity. }
  unfold svg_drawn, svg_tuple, svg_spec_invert, svg_spec_fg_classes, svg_spec_drawn_fg.
  change eff_invert with (N.shiftl 1 INVERT) at 1. rewrite svg_has_effect_bit.
  destruct (N.testbit (s_eff s) INVERT); unfold svg_spec_classes; (f_equal; [|f_equal; [exact Hu|]]).
  - rewrite svg_spec_name_of; [reflexivity|]. destruct (s_bg s); assumption.
  - apply svg_effect_filter; [intros k; apply svg_has_effect_bit_ldiff | exact svg_effect_tables].
  - destruct (s_fg s) as [f|]; [rewrite svg_spec_name_of by exact Of|]; reflexivity.
  - apply svg_effect_filter; [intros k _; apply svg_has_effect_bit | exact svg_effect_tables].
Qed.

Lemma svg_drawn_bg_spec t s :
  svg_colour_ok (svg_t_fg t) = true -> svg_colour_ok (svg_t_bg t) = true -> svg_style_ok s = true ->
  match snd (fst (fst (svg_drawn t s))) with Some col => [svg_name_of svg_bg_prefix col] | None => [] end
  = match svg_spec_bg_class (svg_t_fg t) (svg_t_bg t) s with Some cls => [cls] | None => [] end.
Proof.
  intros Hdf Hdb Hs. apply svg_style_ok_elim in Hs as (Of & Ob & Ou).
  unfold svg_drawn, svg_tuple, svg_spec_invert, svg_spec_bg_class, svg_spec_drawn_bg.
  change eff_invert with (N.shiftl 1 INVERT) at 1. rewrite svg_has_effect_bit.
  destruct (N.testbit (s_eff s) INVERT); cbn [fst snd].
  - rewrite svg_spec_name_of; [reflexivity|]. destruct (s_fg s); assumption.
  - destruct (s_bg s) as [b|]; [rewrite svg_spec_name_of by exact Ob|]; reflexivity.
Qed.


(* The theorems of C14 about one document: [d] is rendered from [input], whose runs are [runs];
   each theorem takes of the five hypotheses the ones it names *)
Section Document.
  Variables (t : svg_term) (input : list N) (d : svg_document).
  Variables (runs : list (sstyle * list N)) (p : parser) (c : capture).
  Hypothesis Hpal : palette_ok (svg_t_palette t).
  Hypothesis Hdf : svg_colour_ok (svg_t_fg t) = true.
  Hypothesis Hdb : svg_colour_ok (svg_t_bg t) = true.
  Hypothesis He : extract_next input parser_new capture_default = Some (runs, p, c).
  Hypothesis Hd : svg_doc t input = Some d.

  Theorem svg_sheet_sorted : svg_sorted (svg_d_sheet d).
  Proof using Hd.
    (* without He (sortedness needs no runs), hence proved before svg_doc_parts *)
    pose proof Hd as H. unfold svg_doc in H. destruct (svg_styled t input) as [styled|]; [|discriminate].
    destruct (svg_rgb_value (svg_t_fg t) (svg_t_palette t)); [|discriminate].
    destruct (svg_rgb_value (svg_t_bg t) (svg_t_palette t)); [|discriminate].
    destruct (svg_color_styles styled (svg_t_palette t) []) as [sheet|] eqn:E; [|discriminate].
    destruct (svg_lines_of (svg_split_lines styled)); [|discriminate]. injection H as H. rewrite <- H. cbn [svg_d_sheet].
    pose proof (svg_color_styles_sorted (svg_t_palette t) styled [] I) as K. rewrite E in K. exact K.
  Qed.

  Lemma svg_doc_parts :
    svg_lines_of (svg_split_lines (svg_inverted t runs)) = Some (svg_d_lines d)
    /\ svg_color_styles (svg_inverted t runs) (svg_t_palette t) [] = Some (svg_d_sheet d)
    /\ svg_d_height d = N.of_nat (length (svg_split_lines (svg_inverted t runs))) * svg_line_height + svg_padding * 2
    /\ svg_rgb_value (svg_t_fg t) (svg_t_palette t) = Some (svg_d_fg d)
    /\ svg_rgb_value (svg_t_bg t) (svg_t_palette t) = Some (svg_d_bg d)
    /\ svg_d_effects d = svg_effects_in_use (svg_inverted t runs)
    /\ svg_d_background d = svg_t_background t.
  Proof using He Hd.
    pose proof Hd as H. unfold svg_doc, svg_styled in H. rewrite He in H. fold (svg_inverted t runs) in H.
    destruct (svg_rgb_value (svg_t_fg t) (svg_t_palette t)) as [fgc|]; [|discriminate].
    destruct (svg_rgb_value (svg_t_bg t) (svg_t_palette t)) as [bgc|]; [|discriminate].
    destruct (svg_color_styles (svg_inverted t runs) (svg_t_palette t) []) as [sheet|]; [|discriminate].
    destruct (svg_lines_of (svg_split_lines (svg_inverted t runs))) as [lines|]; [|discriminate].
    injection H as H. rewrite <- H. cbn. repeat split; reflexivity.
  Qed.

  Lemma svg_runs_ok : Forall svg_run_ok runs.
  Proof using He. exact (svg_extract_next_ok _ _ _ _ He). Qed.

  Theorem svg_text_preserved : map svg_line_text (svg_fg_lines d) = svg_split_nl_dropping_cr (svg_visible runs).
  Proof using He Hd.
    destruct svg_doc_parts as (Hl & _). unfold svg_fg_lines.
    rewrite map_map, (svg_lines_of_text _ _ Hl), <- (svg_inverted_visible t runs).
    apply svg_split_lines_spec, svg_inverted_nonempty, svg_runs_ok.
  Qed.

  Theorem svg_height_counts_lines :
    svg_d_height d = N.of_nat (length (svg_d_lines d)) * svg_line_height + svg_padding * 2
    /\ length (svg_d_lines d) = length (svg_split_nl_dropping_cr (svg_visible runs)).
  Proof using He Hd.
    destruct svg_doc_parts as (Hl & _ & Hh & _). split.
    - rewrite Hh, (svg_lines_of_length _ _ Hl). reflexivity.
    - rewrite <- svg_text_preserved. unfold svg_fg_lines. rewrite !map_length. reflexivity.
  Qed.

  Definition svg_shown (cls : sstyle -> option (list (list N))) (span : svg_span) : Prop :=
    snd span <> [] /\ exists s0 t0, In (s0, t0) runs /\ svg_sub (snd span) t0 /\ cls (svg_invert t s0) = Some (fst span).

  Lemma svg_span_origin l : In l (svg_d_lines d) ->
    (forall span, In span (svg_l_fg l) -> svg_shown svg_fg_classes span)
    /\ (forall bg span, svg_l_bg l = Some bg -> In span bg -> svg_shown svg_bg_classes span).
  Proof using He Hd.
    intros Hl. destruct svg_doc_parts as (Hlines & _).
    destruct (svg_lines_of_spans _ _ Hlines l Hl) as (line & Hline & E). apply svg_line_of_spans in E as [Hfg Hbg].
    pose proof (svg_split_lines_from (svg_inverted t runs)) as Hfrom. rewrite Forall_forall in Hfrom.
    specialize (Hfrom line Hline). rewrite Forall_forall in Hfrom.
    assert (forall cls sp span, svg_spans cls line = Some sp -> In span sp -> svg_shown cls span) as K.
    { intros cls sp span Hsp Hin. destruct (svg_spans_from cls line sp span Hsp Hin) as (Hne & s & Hs & Hc). split; [exact Hne|].
      destruct (Hfrom (s, snd span) Hs) as (t0 & Hin0 & Hsub). cbn [fst snd] in Hin0, Hsub.
      destruct (svg_inverted_in _ _ _ _ Hin0) as (s0 & Hr & ->). exists s0, t0. auto. }
    split.
    - intros span Hin. eapply K; eauto.
    - intros bg span Eb Hin. rewrite Eb in Hbg. eapply K; eauto.
  Qed.

  Theorem svg_classes_denote_style :
    forall l, In l (svg_d_lines d) ->
    (forall span, In span (svg_l_fg l) ->
       exists s0 t0, In (s0, t0) runs /\ svg_sub (snd span) t0 /\ snd span <> [] /\
         fst span = svg_spec_classes colour (svg_name_of svg_fg_prefix) (svg_name_of svg_underline_prefix) svg_effect_classes (svg_drawn t s0))
    /\ (forall bg span, svg_l_bg l = Some bg -> In span bg ->
       exists s0 t0, In (s0, t0) runs /\ svg_sub (snd span) t0 /\ snd span <> [] /\
         fst span = match snd (fst (fst (svg_drawn t s0))) with Some col => [svg_name_of svg_bg_prefix col] | None => [] end).
  Proof using He Hd.
    intros l Hl. destruct (svg_span_origin l Hl) as [F B]. split.
    - intros span Hin. destruct (F span Hin) as (Hne & s0 & t0 & Hr & Hs & Hc). exists s0, t0. repeat split; auto.
      rewrite <- svg_invert_image. apply svg_fg_classes_image, Hc.
    - intros bg span Eb Hin. destruct (B bg span Eb Hin) as (Hne & s0 & t0 & Hr & Hs & Hc). exists s0, t0. repeat split; auto.
      rewrite <- svg_invert_image. apply svg_bg_classes_image, Hc.
  Qed.

  Theorem svg_classes_denote_spec_style :
    forall l, In l (svg_d_lines d) ->
    (forall span, In span (svg_l_fg l) ->
       exists s0 t0, In (s0, t0) runs /\ svg_sub (snd span) t0 /\ snd span <> [] /\
         fst span = svg_spec_fg_classes (svg_t_fg t) (svg_t_bg t) s0)
    /\ (forall bg span, svg_l_bg l = Some bg -> In span bg ->
       exists s0 t0, In (s0, t0) runs /\ svg_sub (snd span) t0 /\ snd span <> [] /\
         fst span = match svg_spec_bg_class (svg_t_fg t) (svg_t_bg t) s0 with Some cls => [cls] | None => [] end).
  Proof using Hdf Hdb He Hd.
    intros l Hl. destruct (svg_classes_denote_style l Hl) as [F B].
    pose proof svg_runs_ok as Hruns. rewrite Forall_forall in Hruns.
    split.
    - intros span Hin. destruct (F span Hin) as (s0 & t0 & Hr & Hs & Hne & Hc). exists s0, t0. repeat split; auto.
      rewrite Hc. apply svg_drawn_fg_spec; try assumption. apply (Hruns _ Hr).
    - intros bg span Eb Hin. destruct (B bg span Eb Hin) as (s0 & t0 & Hr & Hs & Hne & Hc). exists s0, t0. repeat split; auto.
      rewrite Hc. apply svg_drawn_bg_spec; try assumption. apply (Hruns _ Hr).
  Qed.

  Lemma svg_span_class_origin l span : In l (svg_d_lines d) ->
    (In span (svg_l_fg l) \/ exists bg, svg_l_bg l = Some bg /\ In span bg) ->
    forall cls, In cls (fst span) ->
    In cls (map snd svg_effect_classes)
    \/ exists s0 t0 prefix col,
         In (s0, t0) runs /\ In (prefix, Some col) (svg_slots (svg_invert t s0)) /\ svg_color_name prefix col = Some cls.
  Proof using He Hd.
    intros Hl Hspan cls Hcls. destruct (svg_span_origin l Hl) as [F B].
    destruct Hspan as [Hfg | (bg & Eb & Hbg)].
    - destruct (F span Hfg) as (_ & s0 & t0 & Hr & _ & Hc).
      destruct (svg_fg_classes_mem _ _ _ Hc Hcls) as [(f & Ef & En)|[(u & Eu & En)|K]]; [right | right | left; exact K].
      + exists s0, t0, svg_fg_prefix, f. rewrite <- Ef. cbn [svg_slots In]. auto.
      + exists s0, t0, svg_underline_prefix, u. rewrite <- Eu. cbn [svg_slots In]. auto 6.
    - destruct (B bg span Eb Hbg) as (_ & s0 & t0 & Hr & _ & Hc). right.
      destruct (svg_opt_class_mem _ _ _ _ Hc Hcls) as (b & Ebg & En).
      exists s0, t0, svg_bg_prefix, b. rewrite <- Ebg. cbn [svg_slots In]. auto.
  Qed.

  Lemma svg_sheet_spec :
    Forall (svg_good (svg_t_palette t)) (svg_d_sheet d)
    /\ (forall s x prefix col, In (s, x) (svg_inverted t runs) -> In (prefix, Some col) (svg_slots s) ->
          exists k v, svg_color_name prefix col = Some k /\ svg_rgb_value col (svg_t_palette t) = Some v /\ In (k, v) (svg_d_sheet d)).
  Proof using Hdf Hdb He Hd.
    destruct svg_doc_parts as (_ & Hsheet & _).
    exact (svg_color_styles_spec _ _ _ (svg_inverted_ok t runs Hdf Hdb svg_runs_ok) Hsheet).
  Qed.

  Theorem svg_classes_defined :
    forall l span, In l (svg_d_lines d) ->
    (In span (svg_l_fg l) \/ exists bg, svg_l_bg l = Some bg /\ In span bg) ->
    forall cls, In cls (fst span) -> svg_is_colour_class cls = true ->
    exists prefix col v,
      In prefix svg_prefixes /\ svg_color_name prefix col = Some cls
      /\ color_to_rgb (svg_to_color col) (svg_t_palette t) = Some v
      /\ In (cls, svg_rgb_hex v) (svg_d_sheet d)
      /\ forall v', In (cls, v') (svg_d_sheet d) -> v' = svg_rgb_hex v.
  Proof using Hdf Hdb He Hd.
    intros l span Hl Hspan cls Hcls Hcol.
    destruct (svg_span_class_origin l span Hl Hspan cls Hcls) as [K|(s0 & t0 & prefix & col & Hr & Hslot & Hname)].
    { rewrite (svg_effect_class_not_colour _ K) in Hcol. discriminate. }
    destruct svg_sheet_spec as (G & P). rewrite Forall_forall in G.
    pose proof (svg_inverted_ok t runs Hdf Hdb svg_runs_ok) as Hinv. rewrite Forall_forall in Hinv.
    assert (In (svg_invert t s0, t0) (svg_inverted t runs)) as Hi by (apply in_map_iff; exists (s0, t0); auto).
    destruct (P _ _ _ _ Hi Hslot) as (k & v' & A & Bv & C). rewrite Hname in A. injection A as <-.
    unfold svg_rgb_value in Bv. destruct (color_to_rgb (svg_to_color col) (svg_t_palette t)) as [v|] eqn:Ev; [|discriminate].
    injection Bv as <-. exists prefix, col, v. repeat split; auto.
    - exact (proj1 (svg_slots_ok _ _ _ (Hinv _ Hi) Hslot)).
    - intros v' Hv'. eapply svg_good_unique; [apply G, Hv' | apply G, C].
  Qed.

  Lemma svg_span_classes_ok l span : In l (svg_d_lines d) ->
    (In span (svg_l_fg l) \/ exists bg, svg_l_bg l = Some bg /\ In span bg) -> forallb svg_class_ok (fst span) = true.
  Proof using Hdf Hdb He Hd.
    intros Hl Hspan. apply forallb_forall. intros cls Hcls.
    destruct (svg_span_class_origin l span Hl Hspan cls Hcls)
      as [K|(s0 & t0 & prefix & col & Hr & Hslot & Hname)]; [exact (svg_effect_class_ok _ K)|].
    pose proof svg_runs_ok as Hruns. rewrite Forall_forall in Hruns.
    assert (svg_style_ok (svg_invert t s0) = true) as Hok by (apply svg_invert_ok, (Hruns _ Hr); assumption).
    destruct (svg_slots_ok _ _ _ Hok Hslot) as [Hp Hc]. exact (svg_color_name_class_ok _ _ _ Hp Hc Hname).
  Qed.

  Theorem svg_doc_is_ok : forallb xml_char (svg_visible runs) = true -> svg_doc_ok d = true.
  Proof using Hpal Hdf Hdb He Hd.
    intros Hx. destruct svg_doc_parts as (_ & _ & _ & Hfg & Hbg & _).
    destruct svg_sheet_spec as (G & _). rewrite Forall_forall in G.
    unfold svg_doc_ok. rewrite !andb_true_iff. split; [split; [split|]|].
    - exact (svg_rgb_value_css _ _ _ Hpal Hdf Hfg).
    - exact (svg_rgb_value_css _ _ _ Hpal Hdb Hbg).
    - apply forallb_forall. intros [k v] Hkv. destruct (G _ Hkv) as (pf & col & Hp & Hc & En & Ev).
      cbn [fst snd] in *. apply andb_true_iff. split; [eapply svg_color_name_class_ok; eauto | eapply svg_rgb_value_css; eauto].
    - apply forallb_forall. intros l Hl. unfold svg_line_ok. apply andb_true_iff. split.
      + destruct (svg_l_bg l) as [bg|] eqn:Eb; [|reflexivity]. apply forallb_forall. intros span Hin.
        apply (svg_span_classes_ok l); eauto.
      + apply forallb_forall. intros span Hin. unfold svg_span_ok. rewrite (svg_span_classes_ok l span Hl (or_introl Hin)).
        destruct (svg_span_origin l Hl) as [F _]. destruct (F span Hin) as (_ & s0 & t0 & Hr & Hs & _).
        eapply svg_sub_forallb; [exact Hs|]. eapply svg_visible_forallb; eauto.
  Qed.

  (* [wf]: whatever unicode_width answers *)
  Theorem svg_rendered_wf : forallb xml_char (svg_visible runs) = true -> forall width_px wf, WF (svg_print width_px wf d).
  Proof using Hpal Hdf Hdb He Hd. intros Hx width_px wf. apply svg_print_doc_wf, svg_doc_is_ok, Hx. Qed.
End Document.
