(* The anstream glue TRANSLATED from crates/anstream/src/{buffer.rs, stream.rs, lib.rs} (Generated/GlueFn.v, written
   by tools/gen_fn_glue.py on every run) does what the hand models and the vocabularies of the other translated areas
   assume about it: Buffer is an accept-all in-memory writer; every `impl IsTerminal` asks the polyfill about `self` /
   answers false / forwards to the pointee; `as_locked_write` of Stdout / Stderr takes the lock once and hands out the
   view of the same stream (what the LOCK translation of Generated/AutoFn.v assumes: lr_acquire, lr_w), every other
   impl hands out `self`; `anstream::stdout()` / `stderr()` are `AutoStream::auto` of the process's handle.
   A change to one of these Rust functions changes the translation; if it changes the meaning, a proof here fails. *)
From Coq Require Import NArith List Bool Lia.
From AV Require Import Generated.Table Spec.Io Model.Base Model.Imp Model.Utf8parse Model.Parser Model.Strip Model.Stream Model.Glue
  Generated.StreamFn Generated.AutoFn Generated.GlueFn.
Import ListNotations.
Local Open Scope N_scope.

(* buffer.rs.  Nothing below uses the first four: each is the tie of one translated function -- an edit of the
   Rust function that changes its meaning (`as_ref` answering an empty slice, say) fails here *)
Lemma g_buffer_new_eq : g_buffer_new = [].
Proof. reflexivity. Qed.
Lemma g_buffer_with_capacity_eq n : g_buffer_with_capacity n = [].
Proof. reflexivity. Qed.
Lemma g_buffer_as_bytes_eq b : g_buffer_as_bytes b = b.
Proof. reflexivity. Qed.
Lemma g_buffer_as_ref_eq b : g_buffer_as_ref b = b.
Proof. reflexivity. Qed.
Lemma g_buffer_write_eq b buf : g_buffer_write b buf = (b ++ buf, inl (N.of_nat (length buf))).
Proof. reflexivity. Qed.
Lemma g_buffer_flush_eq b : g_buffer_flush b = (b, inl tt).
Proof. reflexivity. Qed.

(* Buffer against the scripted writer of Spec/Io.v whose script is exhausted (an accept-all Vec writer) *)
Theorem buffer_write_simulates_writer b w buf :
  buf_rel b w ->
  let '(b', r) := g_buffer_write b buf in
  let '(w', r') := w_write w buf in
  r = r' /\ buf_rel b' w'.
Proof.
  intros [Hs Hr]. rewrite g_buffer_write_eq. unfold w_write. rewrite Hs. cbn [w_script w_received buf_rel].
  unfold buf_rel. cbn [w_script w_received]. rewrite Hr. repeat split.
Qed.

Theorem buffer_flush_simulates_writer b w :
  buf_rel b w ->
  let '(b', r) := g_buffer_flush b in
  r = inl tt /\ buf_rel b' (w_flush w).
Proof. intros [Hs Hr]. rewrite g_buffer_flush_eq. unfold buf_rel, w_flush. cbn [w_script w_received]. auto. Qed.

Fixpoint g_buffer_writes (b : list N) (bufs : list (list N)) : list N * list (N + ekind) :=
  match bufs with
  | [] => (b, [])
  | x :: rest => let '(b1, r) := g_buffer_write b x in let '(b2, rs) := g_buffer_writes b1 rest in (b2, r :: rs)
  end.

Theorem buffer_writes_concat bufs : forall b,
  g_buffer_writes b bufs = (b ++ concat bufs, map (fun x => inl (N.of_nat (length x))) bufs).
Proof.
  induction bufs as [|x rest IH]; intros b; cbn [g_buffer_writes concat map].
  - rewrite app_nil_r. reflexivity.
  - rewrite g_buffer_write_eq, IH, app_assoc. reflexivity.
Qed.

Theorem buffer_new_as_bytes bufs :
  g_buffer_as_bytes (fst (g_buffer_writes g_buffer_new bufs)) = concat bufs.
Proof. rewrite buffer_writes_concat. reflexivity. Qed.

(* stream.rs: IsTerminal *)
(* the streams backed by a descriptor ask the polyfill about THEMSELVES: the answer `raw.is_terminal()` has in the
   vocabulary of Generated/AutoFn.v *)
Definition g_is_terminal_fd_impls : list (acfg -> writer -> bool) :=
  [g_is_terminal_stdout; g_is_terminal_stdoutlock; g_is_terminal_stderr; g_is_terminal_stderrlock; g_is_terminal_file].
Definition g_is_terminal_mem_impls : list (acfg -> writer -> bool) :=
  [g_is_terminal_dyn; g_is_terminal_dyn_send; g_is_terminal_dyn_send_sync; g_is_terminal_vec; g_is_terminal_buffer].

(* Forall over the literal list: `repeat constructor` proves each element by conversion -- a new impl is one more
   list element, a wrong one fails here *)
Theorem translated_is_terminal_fd : forall f, In f g_is_terminal_fd_impls -> forall cf w, f cf w = raw_is_terminal cf w.
Proof. apply (proj1 (Forall_forall (fun f => forall cf w, f cf w = raw_is_terminal cf w) _)). repeat constructor. Qed.

Theorem translated_is_terminal_mem : forall f, In f g_is_terminal_mem_impls -> forall cf w, f cf w = false.
Proof. apply (proj1 (Forall_forall (fun f => forall (cf : acfg) (w : writer), f cf w = false) _)). repeat constructor. Qed.

(* `&T`, `&mut T`, `Box<T>`: the pointee's answer [tit] *)
Theorem translated_is_terminal_forward : forall cf tit w,
  g_is_terminal_ref cf tit w = tit w /\ g_is_terminal_refmut cf tit w = tit w /\ g_is_terminal_box cf tit w = tit w.
Proof. intros. exact (conj eq_refl (conj eq_refl eq_refl)). Qed.

(* stream.rs: AsLockedWrite *)
(* Stdout / Stderr: `self.lock()` -- one Acquire logged at the current length of the inner call history, the guard is
   the view of the SAME stream: exactly the reading of `x.as_locked_write()` in the LOCK translation (gl_* of AutoFn.v) *)
Theorem translated_as_locked_write_std : forall x,
  g_as_locked_write_stdout x = (lr_acquire x, lr_w x) /\ g_as_locked_write_stderr x = (lr_acquire x, lr_w x).
Proof. intros x. exact (conj eq_refl eq_refl). Qed.

(* an already locked handle and every stream that has no lock: the stream itself, no lock event *)
Definition g_as_locked_write_self_impls : list (lraw -> lraw * lraw) :=
  [g_as_locked_write_stdoutlock; g_as_locked_write_stderrlock; g_as_locked_write_dyn; g_as_locked_write_dyn_send;
   g_as_locked_write_dyn_send_sync; g_as_locked_write_vec; g_as_locked_write_file; g_as_locked_write_buffer].

Theorem translated_as_locked_write_self : forall f, In f g_as_locked_write_self_impls -> forall x, f x = (x, x).
Proof. apply (proj1 (Forall_forall (fun f => forall x : lraw, f x = (x, x)) _)). repeat constructor. Qed.

Theorem translated_as_locked_write_forward : forall G (talw : lraw -> lraw * G) x,
  g_as_locked_write_refmut G talw x = talw x /\ g_as_locked_write_box G talw x = talw x.
Proof. intros. unfold g_as_locked_write_refmut, g_as_locked_write_box. destruct (talw x). exact (conj eq_refl eq_refl). Qed.

(* the lock taken by `as_locked_write` and released by the guard's destructor brackets whatever happens in between:
   with the writer [w'] the inner calls leave behind, the log is lock_once (Model/Stream.v) *)
Theorem translated_stdout_lock_once : forall x w',
  let '(x1, g) := g_as_locked_write_stdout x in
  g = lr_w x /\ lr_log (lr_release (set_lr_w x1 w')) = lock_once (lr_log x) (lr_w x) w'.
Proof.
  intros x w'. cbn. split; [reflexivity|]. unfold lock_once. rewrite <- app_assoc. reflexivity.
Qed.

(* lib.rs *)
Theorem translated_stdout_is_auto : forall cf so se, g_stdout cf so se = g_as_auto cf so.
Proof. intros. unfold g_stdout. destruct (g_as_auto cf so); reflexivity. Qed.
Theorem translated_stderr_is_auto : forall cf so se, g_stderr cf so se = g_as_auto cf se.
Proof. intros. unfold g_stderr. destruct (g_as_auto cf se); reflexivity. Qed.
