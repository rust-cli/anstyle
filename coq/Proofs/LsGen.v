(* The function TRANSLATED from crates/anstyle-ls/src/lib.rs
   (Generated/LsFn.v, written by tools/gen_fn_text.py on every run: `parse` with its
   early return, the all-or-nothing split / parse::<u8> / collect, the `while let`
   loop with the look-ahead pop_fronts and breaks, the final Style) is extensionally
   equal to the hand model Model/Ls.v that the theorems of C12 are about: a change to
   the Rust function that changes its meaning fails the proof below. *)
From Coq Require Import NArith List Bool Lia.
From AV Require Import Generated.Ls Spec.StyleRec Model.Base Model.Imp Model.Text Model.Ls Generated.LsFn.
Import ListNotations.
Local Open Scope N_scope.

(* the loop state of the translation (parts, effects, fg_color, bg_color, underline_color)
   against the style record the hand model threads *)
Definition ls_st_of (s : list N * N * option tcolor * option tcolor * option tcolor) : tstyle :=
  let '(_, eff, fg, bg, ul) := s in mkTStyle fg bg ul eff.

Lemma res_ok_of_opt {T} (o : option T) : res_ok (res_of_opt o) = o.
Proof. destruct o; reflexivity. Qed.

(* `code.is_empty() || code == "0" || code == "00"` against the generated list of strings *)
Lemma ls_early_eq s :
  (is_empty s || list_eqb s [48] || list_eqb s [48; 48]) = existsb (list_eqb s) ls_none_strings.
Proof.
  unfold ls_none_strings. cbn [existsb].
  destruct s as [|a [|b [|c t]]]; cbn [is_empty list_eqb];
    repeat match goal with |- context [?x =? 48] => destruct (x =? 48) end; reflexivity.
Qed.

Ltac ls_simp :=
  cbn [pop_front ls_loop ls_apply set_target set_fg set_bg set_underline set_effects
       t_fg t_bg t_ul t_eff option_map ls_st_of fst snd negb andb orb].

(* one arm: straight-line arms go back to the loop (induction hypothesis) or break; the
   look-ahead arms are followed through every outcome of their pop_fronts *)
Ltac ls_arm IH :=
  ls_simp;
  first [ rewrite IH by (cbn [length] in *; lia); reflexivity
        | reflexivity
        | match goal with |- context [if (?a =? ?k) then _ else _] => destruct (a =? k); ls_arm IH end
        | match goal with |- context [pop_front ?l] => is_var l; destruct l as [|? ?]; ls_arm IH end ].

(* the arms in the order of the generated table *)
Ltac ls_walk_keys part keys IH :=
  lazymatch keys with
  | nil => ls_arm IH
  | cons ?k ?t => case (part =? k); [ls_arm IH | ls_walk_keys part t IH]
  end.

Theorem g_ls_parse_eq : forall s, g_ls_parse s = ls_parse s.
Proof.
  intros s. unfold g_ls_parse, ls_parse.
  match goal with |- context [while_fuel0 _ ?f _] => set (step := f) end.
  rewrite ls_early_eq. destruct (existsb (list_eqb s) ls_none_strings); [reflexivity|].
  rewrite (map_ext _ parse_u8) by (intros; apply res_ok_of_opt).
  unfold ls_separator.
  destruct (collect_option (map parse_u8 (split_on 59 s))) as [parts|]; [|reflexivity].
  cbv zeta.
  assert (L : forall fuel ps eff fg bg ul, (length ps < fuel)%nat ->
            option_map ls_st_of (while_fuel0 fuel step (ps, eff, fg, bg, ul))
            = Some (ls_loop ps (mkTStyle fg bg ul eff))).
  { induction fuel as [|f IH]; intros ps eff fg bg ul Hl; [lia|].
    destruct ps as [|part rest]; [reflexivity|].
    (* from here on the loop body is needed once, unfolded; the recursive calls go through IH *)
    cbn [while_fuel0]. unfold step at 1. clearbody step. cbv beta zeta.
    ls_simp. unfold ls_arms. cbn [ls_lookup].
    let keys := eval cbv in (map fst ls_arms) in ls_walk_keys part keys IH. }
  specialize (L (S (length parts)) parts fx_new None None None (le_n _)).
  destruct (while_fuel0 (S (length parts)) step (parts, fx_new, None, None, None)) as [[[[[p e] f] b] u]|];
    cbn [option_map ls_st_of] in L; [|discriminate L].
  injection L as L. change t_default with (mkTStyle None None None fx_new). rewrite <- L. reflexivity.
Qed.
