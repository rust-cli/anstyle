(* The bridge between the two specifications of C01: on
   valid UTF-8, what Spec/Strip keeps is exactly the UTF-8 encoding of the text
   the VT model of Spec/Vt shows (every printed character except DEL, every
   executed TAB / LF / FF / CR).  Both machines are run in lockstep together with
   the UTF-8 validity DFA ([vnext] of Proofs/StripStr).  Before that (Spec/Utf8
   only): decoding the encoding of a scalar value gives it back
   ([utf8_encode_decode]). *)
From Coq Require Import NArith List Bool Lia.
From AV Require Import Spec.Utf8 Spec.Vt Spec.Strip Proofs.BaseFacts Proofs.VtCancel Proofs.StripMachine Proofs.StripSim Proofs.StripStr.
Import ListNotations.
Local Open Scope N_scope.

Definition visible_of (e : event) : list N :=
  match e with
  | EPrint cp => if cp =? 127 then [] else [cp]
  | EExecute b => if is_ws_control b then [b] else []
  | _ => []
  end.

Definition visible_text (evs : list event) : list N :=
  flat_map utf8_encode (flat_map visible_of evs).

(* the continuation DFA over the bytes after the lead byte: [UMore u] = all
   accepted, [u] expected next; [UDone] = exactly one complete character *)
Fixpoint ucrun (u : ustate) (bs : list N) : ucont :=
  match bs with
  | [] => UMore u
  | b :: r =>
      match utf8_cont u b with
      | UMore u' => ucrun u' r
      | UDone => match r with [] => UDone | _ => UBad end
      | UBad => UBad
      end
  end.

Lemma ucrun_snoc : forall rest u0 u b,
  ucrun u0 rest = UMore u -> ucrun u0 (rest ++ [b]) = utf8_cont u b.
Proof.
  induction rest as [|x rest IH]; intros u0 u b H; cbn [ucrun app] in *.
  - injection H as <-. destruct (utf8_cont u0 b); reflexivity.
  - destruct (utf8_cont u0 x) as [u1| |]; [now apply IH| |discriminate].
    destruct rest; discriminate.
Qed.

Definition one_char (bs : list N) : bool :=
  match bs with
  | [] => false
  | a :: rest =>
      if a <? 128 then match rest with [] => true | _ => false end
      else match utf8_lead a with
           | Some u => match ucrun u rest with UDone => true | _ => false end
           | None => false
           end
  end.

Lemma dm64 x y : y < 64 -> (x * 64 + y) / 64 = x /\ (x * 64 + y) mod 64 = y.
Proof.
  intros H. split.
  - rewrite N.div_add_l by discriminate. rewrite (N.div_small y 64 H). apply N.add_0_r.
  - rewrite N.add_comm, N.mod_add by discriminate. apply N.mod_small, H.
Qed.

Lemma horner3 x y z : y < 64 -> z < 64 ->
  ((x * 64 + y) * 64 + z) / 4096 = x /\
  (((x * 64 + y) * 64 + z) / 64) mod 64 = y /\
  ((x * 64 + y) * 64 + z) mod 64 = z.
Proof.
  intros Hy Hz. destruct (dm64 (x * 64 + y) z Hz) as [D1 M1]. destruct (dm64 x y Hy) as [D2 M2].
  replace 4096 with (64 * 64) by reflexivity.
  rewrite <- N.div_div by discriminate. rewrite D1, D2, M1, M2. auto.
Qed.

Lemma horner4 x y z w : y < 64 -> z < 64 -> w < 64 ->
  (((x * 64 + y) * 64 + z) * 64 + w) / 262144 = x /\
  ((((x * 64 + y) * 64 + z) * 64 + w) / 4096) mod 64 = y /\
  ((((x * 64 + y) * 64 + z) * 64 + w) / 64) mod 64 = z /\
  (((x * 64 + y) * 64 + z) * 64 + w) mod 64 = w.
Proof.
  intros Hy Hz Hw. destruct (dm64 ((x * 64 + y) * 64 + z) w Hw) as [D0 M0].
  destruct (dm64 (x * 64 + y) z Hz) as [D1 M1]. destruct (dm64 x y Hy) as [D2 M2].
  replace 262144 with (64 * 64 * 64) by reflexivity.
  replace 4096 with (64 * 64) by reflexivity.
  rewrite <- !N.div_div by discriminate. rewrite D0, D1, D2, M0, M1, M2. auto.
Qed.

Lemma byte_split L m a : L * m <= a < L * m + m -> exists x, a = L * m + x /\ x < m.
Proof. intros H. exists (a - L * m). lia. Qed.

Lemma byte_digit L m x : x < m -> (L * m + x) mod m = x.
Proof. intros H. rewrite N.add_comm, N.mod_add by lia. apply N.mod_small, H. Qed.

(* The three lengths.  The lead byte is L + x and the continuation bytes are
   128 + y, ..., so the value is x, y, ... read in base 64.  The rows of Table 3-7
   that narrow the second byte (the last hypotheses) are what puts the value in the
   range for which the encoder picks the same length, and outside the surrogates *)
Lemma enc2 a b : 194 <= a <= 223 -> 128 <= b <= 191 ->
  utf8_encode (utf8_decode [a; b]) = [a; b] /\ 128 <= utf8_decode [a; b]
  /\ is_scalar (utf8_decode [a; b]) = true.
Proof.
  intros Ha Hb.
  destruct (byte_split 6 32 a) as (x & -> & Hx); [lia|]. destruct (byte_split 2 64 b) as (y & -> & Hy); [lia|].
  cbn [utf8_decode]. rewrite !byte_digit by assumption. destruct (dm64 x y Hy) as [D M].
  unfold utf8_encode, is_scalar. rewrite D, M.
  destruct (N.ltb_spec (x * 64 + y) 128); [lia|]. destruct (N.ltb_spec (x * 64 + y) 2048); [|lia].
  destruct (N.ltb_spec (x * 64 + y) 55296); [|lia].
  split; [reflexivity|]. split; [lia|reflexivity].
Qed.

Lemma enc3 a b c :
  224 <= a <= 239 -> 128 <= b <= 191 -> 128 <= c <= 191 -> (a = 224 -> 160 <= b) -> (a = 237 -> b <= 159) ->
  utf8_encode (utf8_decode [a; b; c]) = [a; b; c] /\ 128 <= utf8_decode [a; b; c]
  /\ is_scalar (utf8_decode [a; b; c]) = true.
Proof.
  intros Ha Hb Hc.
  destruct (byte_split 14 16 a) as (x & -> & Hx); [lia|]. destruct (byte_split 2 64 b) as (y & -> & Hy); [lia|].
  destruct (byte_split 2 64 c) as (z & -> & Hz); [lia|]. clear Ha Hb Hc.
  cbn [utf8_decode]. rewrite !byte_digit by assumption.
  replace (x * 4096 + y * 64 + z) with ((x * 64 + y) * 64 + z) by lia.
  destruct (horner3 x y z Hy Hz) as (E1 & E2 & E3).
  unfold utf8_encode, is_scalar. rewrite E1, E2, E3. clear E1 E2 E3.
  set (cp := (x * 64 + y) * 64 + z). assert (Hcp : cp = (x * 64 + y) * 64 + z) by reflexivity. clearbody cp.
  intros H0 H13.
  (* which branch of [utf8_encode] and of [is_scalar] cp falls in *)
  destruct (N.ltb_spec cp 128); [lia|]. destruct (N.ltb_spec cp 2048); [lia|].
  destruct (N.ltb_spec cp 65536); [|lia].
  split; [reflexivity|]. split; [lia|].
  destruct (N.ltb_spec cp 55296); [reflexivity|]. cbn [orb].
  destruct (N.leb_spec 57344 cp); [|lia]. destruct (N.ltb_spec cp 1114112); [reflexivity|lia].
Qed.

Lemma enc4 a b c d :
  240 <= a <= 244 -> 128 <= b <= 191 -> 128 <= c <= 191 -> 128 <= d <= 191 ->
  (a = 240 -> 144 <= b) -> (a = 244 -> b <= 143) ->
  utf8_encode (utf8_decode [a; b; c; d]) = [a; b; c; d] /\ 128 <= utf8_decode [a; b; c; d]
  /\ is_scalar (utf8_decode [a; b; c; d]) = true.
Proof.
  intros Ha Hb Hc Hd.
  destruct (byte_split 30 8 a) as (x & -> & Hx); [lia|]. destruct (byte_split 2 64 b) as (y & -> & Hy); [lia|].
  destruct (byte_split 2 64 c) as (z & -> & Hz); [lia|]. destruct (byte_split 2 64 d) as (w & -> & Hw); [lia|].
  assert (Hx4 : x <= 4) by lia. clear Ha Hb Hc Hd.
  cbn [utf8_decode]. rewrite !byte_digit by assumption.
  replace (x * 262144 + y * 4096 + z * 64 + w) with (((x * 64 + y) * 64 + z) * 64 + w) by lia.
  destruct (horner4 x y z w Hy Hz Hw) as (E1 & E2 & E3 & E4).
  unfold utf8_encode, is_scalar. rewrite E1, E2, E3, E4. clear E1 E2 E3 E4.
  set (cp := ((x * 64 + y) * 64 + z) * 64 + w).
  assert (Hcp : cp = ((x * 64 + y) * 64 + z) * 64 + w) by reflexivity. clearbody cp.
  intros H0 H4.
  (* as in [enc3], one range up *)
  destruct (N.ltb_spec cp 128); [lia|]. destruct (N.ltb_spec cp 2048); [lia|].
  destruct (N.ltb_spec cp 65536); [lia|].
  split; [reflexivity|]. split; [lia|].
  destruct (N.ltb_spec cp 55296); [lia|]. cbn [orb].
  destruct (N.leb_spec 57344 cp); [|lia]. destruct (N.ltb_spec cp 1114112); [reflexivity|lia].
Qed.

Ltac cont_step H :=
  cbn [ucrun utf8_cont] in H;
  match type of H with context [if ?c then _ else _] => destruct c eqn:? end;
  [|discriminate H].

(* row by row: peel off the continuation bytes the row asks for, then the lemma
   for that length applies *)
Lemma utf8_multi_roundtrip a rest u0 :
  utf8_lead a = Some u0 -> ucrun u0 rest = UDone ->
  utf8_encode (utf8_decode (a :: rest)) = a :: rest /\ 128 <= utf8_decode (a :: rest)
  /\ is_scalar (utf8_decode (a :: rest)) = true.
Proof.
  intros Hl Hr. pose proof (utf8_lead_cases _ _ Hl) as Ha.
  destruct u0;
    repeat (destruct rest as [|? rest]; [discriminate Hr|]; cont_step Hr);
    (destruct rest; [|discriminate Hr]); unfold in_range in *; tests_to_props;
    first [apply enc2 | apply enc3 | apply enc4]; lia.
Qed.

Lemma utf8_encode_ascii b : b < 128 -> utf8_encode b = [b].
Proof. intros H. unfold utf8_encode. apply N.ltb_lt in H. rewrite H. reflexivity. Qed.

Theorem utf8_encode_decode : forall bs,
  one_char bs = true ->
  utf8_encode (utf8_decode bs) = bs /\ is_scalar (utf8_decode bs) = true.
Proof.
  intros [|a rest]; [discriminate|]. cbn [one_char].
  destruct (a <? 128) eqn:Hlt.
  - destruct rest; [|discriminate]. intros _. cbn [utf8_decode]. apply N.ltb_lt in Hlt.
    split; [now apply utf8_encode_ascii|].
    unfold is_scalar. destruct (N.ltb_spec a 55296); [reflexivity|lia].
  - destruct (utf8_lead a) as [u|] eqn:Hl; [|discriminate].
    destruct (ucrun u rest) eqn:Hr; try discriminate. intros _.
    destruct (utf8_multi_roundtrip _ _ _ Hl Hr) as (? & _ & ?). auto.
Qed.

Lemma do_action_vis v a b : a <> TUtf8 ->
  flat_map visible_of (snd (do_action v a b)) = if keeps a b then [b] else [].
Proof.
  intros Ha. destruct a; cbn [do_action snd keeps flat_map visible_of]; try reflexivity.
  - destruct (b =? 127); reflexivity.
  - destruct (is_ws_control b); reflexivity.
  - destruct (final_params v); reflexivity.
  - contradiction.
Qed.

Lemma enter_vis v t b : flat_map visible_of (snd (enter v t b)) = [].
Proof. destruct t; cbn [enter snd]; try reflexivity. destruct (final_params v); reflexivity. Qed.

Lemma exit_vis v b : flat_map visible_of (exit_events v b) = [].
Proof. unfold exit_events. destruct (vs v); reflexivity. Qed.

Lemma vt_step_other v b tgt a :
  uni v = None -> vt_trans (vs v) b = (tgt, a) -> a <> TUtf8 ->
  vs (fst (vt_step v b)) = match tgt with Some t => t | None => vs v end /\
  uni (fst (vt_step v b)) = None /\
  flat_map visible_of (snd (vt_step v b)) = if keeps a b then [b] else [].
Proof.
  intros Hu Ht Ha. rewrite (vt_step_none v b Hu), Ht. cbn [fst snd]. destruct tgt as [t|]; cbn [fst snd].
  - rewrite enter_vs, enter_uni, (do_action_uni _ _ _ Ha), !flat_map_app, exit_vis, enter_vis,
      (do_action_vis _ _ _ Ha), app_nil_r. auto.
  - rewrite do_action_vs, (do_action_uni _ _ _ Ha), (do_action_vis _ _ _ Ha). auto.
Qed.

Lemma vt_step_lead v b tgt u :
  uni v = None -> vt_trans (vs v) b = (tgt, TUtf8) -> utf8_lead b = Some u ->
  vs (fst (vt_step v b)) = match tgt with Some t => t | None => vs v end /\
  uni (fst (vt_step v b)) = Some (u, [b]) /\
  flat_map visible_of (snd (vt_step v b)) = [].
Proof.
  intros Hu Ht Hl. rewrite (vt_step_none v b Hu), Ht. cbn [fst snd].
  assert (Hd : do_action v TUtf8 b = (set_uni v (Some (u, [b])), [])) by (cbn [do_action]; now rewrite Hl).
  destruct tgt as [t|]; rewrite Hd; cbn [fst snd].
  - rewrite enter_vs, enter_uni, !flat_map_app, exit_vis, enter_vis. auto.
  - auto.
Qed.

(* [pend]: bytes of the open character, already kept by Spec/Strip but not yet
   accounted for by an event of Spec/Vt *)
Definition SV (s : sstate) (v : vt) (vu : option ustate) (pend : list N) : Prop :=
  sv s = vs v /\
  match su s with
  | None => uni v = None /\ pend = []
  | Some u =>
      vu = Some u /\
      exists a rest u0, uni v = Some (u, a :: rest) /\ pend = a :: rest /\
                        utf8_lead a = Some u0 /\ ucrun u0 rest = UMore u
  end.

Lemma sv_step s v vu pend b vu' :
  b < 256 -> SV s v vu pend -> vnext vu b = Some vu' ->
  exists pend',
    SV (fst (strip_step s b)) (fst (vt_step v b)) vu' pend' /\
    pend ++ (if snd (strip_step s b) then [b] else []) = visible_text (snd (vt_step v b)) ++ pend'.
Proof.
  intros Hb (Hsv & HI) Hvn. unfold strip_step. destruct (su s) as [u|].
  - (* inside a character *)
    destruct HI as (-> & a & rest & u0 & Huni & -> & Hl & Hcr).
    destruct (vnext_cont _ _ _ Hvn) as [_ Ha]. change ((b <? 128) = false) in Ha. rewrite Ha. cbn [vnext] in Hvn.
    unfold vt_step. rewrite Huni. pose proof (ucrun_snoc rest u0 u b Hcr) as Hsn.
    destruct (utf8_cont u b) as [u'| |]; [| |discriminate]; injection Hvn as <-; cbn [fst snd].
    + exists ((a :: rest) ++ [b]). split; [|reflexivity].
      split; [exact Hsv|]. cbn [su]. split; [reflexivity|]. exists a, (rest ++ [b]), u0. auto.
    + exists []. split; [split; [exact Hsv|]; cbn; auto|].
      destruct (utf8_multi_roundtrip a (rest ++ [b]) u0 Hl Hsn) as (Henc & Hge & _).
      unfold visible_text. cbn [flat_map visible_of].
      replace (_ =? 127) with false by (symmetry; apply N.eqb_neq; cbn [app]; lia).
      cbn [flat_map app]. rewrite ?app_nil_r. symmetry. exact Henc.
  - (* outside a character: one step of the plain machine on both sides *)
    destruct HI as [Huni ->]. rewrite Hsv. destruct (vt_trans (vs v) b) as [tgt a] eqn:Ht.
    destruct (vact_utf8_dec a) as [->|Ha].
    + pose proof (trans_utf8_range _ _ _ Hb Ht) as Hr.
      rewrite (vnext_boundary _ _ _ Hvn (not_cont_high b ltac:(lia))) in Hvn.
      destruct (vnext_lead _ _ Hvn (proj2 (N.ltb_ge b 128) ltac:(lia))) as (u & Hl & -> & _).
      rewrite (plain_step_lead _ _ _ Ht), Hl.
      destruct (vt_step_lead v b tgt u Huni Ht Hl) as (Hvs & Hu1 & He). cbn [fst snd].
      exists [b]. unfold visible_text. rewrite He. split; [|reflexivity].
      split; [now rewrite Hvs|]. cbn [su]. split; [reflexivity|]. exists b, [], u. auto.
    + rewrite (plain_step_other _ _ _ _ Ht Ha).
      destruct (vt_step_other v b tgt a Huni Ht Ha) as (Hvs & Hu1 & He). cbn [fst snd].
      exists []. unfold visible_text. rewrite He, app_nil_r. split.
      * split; [now rewrite Hvs|]. cbn [su]. auto.
      * destruct (keeps a b) eqn:Hk; [|reflexivity]. cbn [flat_map].
        rewrite utf8_encode_ascii by (apply (keeps_ascii _ _ _ _ Hb Ht Ha Hk)). reflexivity.
Qed.

Lemma visible_text_app e1 e2 : visible_text (e1 ++ e2) = visible_text e1 ++ visible_text e2.
Proof. unfold visible_text. now rewrite !flat_map_app. Qed.

Lemma sv_run : forall bs s v vu pend,
  bytes_ok bs -> SV s v vu pend -> valid_from vu bs = true ->
  pend ++ snd (strip_run s bs) = visible_text (snd (vt_run v bs)).
Proof.
  induction bs as [|b bs IH]; intros s v vu pend Hok HSV Hv.
  - cbn [strip_run vt_run snd]. cbn [valid_from] in Hv. destruct vu; [discriminate|].
    destruct HSV as [_ HI]. destruct (su s); [destruct HI as [C _]; discriminate|].
    destruct HI as [_ ->]. reflexivity.
  - apply bytes_ok_cons in Hok as [Hb Hok'].
    rewrite valid_from_cons in Hv. destruct (vnext vu b) as [vu'|] eqn:Hvn; [|discriminate].
    destruct (sv_step _ _ _ _ _ _ Hb HSV Hvn) as (pend' & HSV' & Hout).
    cbn [strip_run vt_run].
    destruct (strip_step s b) as [s1 k]. destruct (vt_step v b) as [v1 e1]. cbn [fst snd] in *.
    specialize (IH s1 v1 vu' pend' Hok' HSV' Hv).
    destruct (strip_run s1 bs) as [s2 out]. destruct (vt_run v1 bs) as [v2 e2]. cbn [snd] in *.
    rewrite visible_text_app, <- IH, app_assoc, <- Hout, <- app_assoc. destruct k; reflexivity.
Qed.

Theorem strip_visible_text : forall input,
  Forall (fun b => b < 256) input -> valid_utf8 input = true ->
  spec_strip input = flat_map utf8_encode (flat_map visible_of (spec_events input)).
Proof.
  intros input Hok Hv. unfold spec_strip, spec_events.
  refine (sv_run input s_init vt_init None [] Hok _ Hv). split; [reflexivity|]. cbn. auto.
Qed.
