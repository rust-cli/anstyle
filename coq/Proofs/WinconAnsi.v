(* Proofs/WinconAnsi.v -- C17: the ANSI fallback of anstyle-wincon
   (Model/WinconAnsi.wa_write_colored) frames the data by complete SGR sequences
   and reports true progress, for every colour pair in {None, 16 colours}^2, every
   data and every inner-writer script. *)
From Coq Require Import NArith List Bool Lia.
From AV Require Import Generated.Style Generated.WinconAnsi
  Spec.Utf8 Spec.Vt Spec.Strip Spec.Sgr Spec.Io Spec.AnsiFrame
  Model.Base Model.WinconAnsi Proofs.IoFacts Proofs.VtCompose.
Import ListNotations.
Local Open Scope N_scope.

Definition wa_idx (o : option ansi_color) : option N := option_map ansi_disc o.

(* the bytes of the three codes as the implementation's tables have them *)
Definition wa_fg_bytes (fg : option ansi_color) : list N :=
  match fg with Some c => ansi_fg_str c | None => [] end.
Definition wa_bg_bytes (bg : option ansi_color) : list N :=
  match bg with Some c => ansi_bg_str c | None => [] end.
Definition wa_reset_bytes (fg bg : option ansi_color) : list N :=
  if wa_is_some fg || wa_is_some bg then wa_reset_str else [].

Definition wa_style (fg bg : option ansi_color) : sstyle :=
  mkStyle (option_map (fun c => CAnsi (ansi_disc c)) fg)
          (option_map (fun c => CAnsi (ansi_disc c)) bg) None 0.

Lemma wa_fg_is_spec c : ansi_fg_str c = sa_sgr (sa_fg_code (ansi_disc c)).
Proof. destruct c; vm_compute; reflexivity. Qed.

Lemma wa_bg_is_spec c : ansi_bg_str c = sa_sgr (sa_bg_code (ansi_disc c)).
Proof. destruct c; vm_compute; reflexivity. Qed.

Lemma wa_reset_is_spec : wa_reset_str = sa_sgr 0.
Proof. vm_compute. reflexivity. Qed.

Lemma wa_fg_bytes_spec fg : wa_fg_bytes fg = sa_fg (wa_idx fg).
Proof. destruct fg as [c|]; [apply wa_fg_is_spec | reflexivity]. Qed.

Lemma wa_bg_bytes_spec bg : wa_bg_bytes bg = sa_bg (wa_idx bg).
Proof. destruct bg as [c|]; [apply wa_bg_is_spec | reflexivity]. Qed.

Lemma wa_reset_bytes_spec fg bg : wa_reset_bytes fg bg = sa_reset (wa_idx fg) (wa_idx bg).
Proof. destruct fg, bg; cbn; try reflexivity; apply wa_reset_is_spec. Qed.

Theorem codes_are_sgr :
  (forall c, ansi_fg_str c = sa_sgr (sa_fg_code (ansi_disc c))) /\
  (forall c, ansi_bg_str c = sa_sgr (sa_bg_code (ansi_disc c))) /\
  wa_reset_str = sa_sgr 0.
Proof. split; [exact wa_fg_is_spec | split; [exact wa_bg_is_spec | exact wa_reset_is_spec]]. Qed.

Lemma wa_frame_is_spec fg bg p :
  wa_fg_bytes fg ++ wa_bg_bytes bg ++ p ++ wa_reset_bytes fg bg = sa_frame (wa_idx fg) (wa_idx bg) p.
Proof. unfold sa_frame. now rewrite wa_fg_bytes_spec, wa_bg_bytes_spec, wa_reset_bytes_spec. Qed.

Lemma w_write_all_nil w : w_write_all w [] = (w, inl tt).
Proof. reflexivity. Qed.

(* write_colored with the three code strings as parameters ([] = colour absent; write_all of [] makes no
   inner call): four inner operations in order, the first failure is the answer.  pipeline_ok / pipeline_err
   are about this definition, whatever the three strings *)
Definition wa_pipeline (F B R data : list N) (w : writer) : writer * (N + ekind) :=
  let '(w1, r1) := w_write_all w F in
  match r1 with
  | inr e => (w1, inr e)
  | inl _ =>
      let '(w2, r2) := w_write_all w1 B in
      match r2 with
      | inr e => (w2, inr e)
      | inl _ =>
          let '(w3, r3) := w_write w2 data in
          match r3 with
          | inr e => (w3, inr e)
          | inl written =>
              let '(w4, r4) := w_write_all w3 R in
              match r4 with
              | inr e => (w4, inr e)
              | inl _ => (w4, inl written)
              end
          end
      end
  end.

Lemma wa_write_colored_pipeline fg bg data w :
  wa_write_colored fg bg data w =
  wa_pipeline (wa_fg_bytes fg) (wa_bg_bytes bg) (wa_reset_bytes fg bg) data w.
Proof.
  unfold wa_write_colored, wa_pipeline, wa_reset_bytes.
  destruct fg as [f|], bg as [b|];
    cbn [wa_is_some orb wa_write_opt wa_fg_bytes wa_bg_bytes]; rewrite ?w_write_all_nil.
  - reflexivity.
  - reflexivity.
  - reflexivity.
  - destruct (w_write w data) as [w3 [k|e]]; reflexivity.
Qed.

Theorem no_code_when_default : forall data w,
  wa_write_colored None None data w = w_write w data.
Proof.
  intros. unfold wa_write_colored. cbn [wa_is_some orb].
  destruct (w_write w data) as [w3 [k|e]]; reflexivity.
Qed.

Lemma sa_pieces_sgr code : sa_pieces (sa_sgr code) = [sa_sgr code].
Proof. reflexivity. Qed.

(* the hand model computes the specification's coloured write: both sides are the same chain of inner calls
   once the strings are identified; each call is destructed in evaluation order *)

Theorem model_is_spec : forall fg bg data w,
  wa_write_colored fg bg data w = sa_write_colored (wa_idx fg) (wa_idx bg) data w.
Proof.
  intros. rewrite wa_write_colored_pipeline. unfold wa_pipeline, sa_write_colored.
  rewrite wa_reset_bytes_spec.
  destruct fg as [f|], bg as [b|]; cbn [wa_idx option_map wa_fg_bytes wa_bg_bytes sa_fg sa_bg sa_reset sa_coloured];
    rewrite ?wa_fg_is_spec, ?wa_bg_is_spec, ?sa_pieces_sgr; cbn [sa_pieces app sa_emit_all];
    repeat (rewrite ?w_write_all_nil;
            match goal with
            | |- context [w_write_all ?W ?X] => destruct (w_write_all W X) as [? [?|?]]
            | |- context [w_write ?W ?X] => destruct (w_write W X) as [? [?|?]]
            end); reflexivity.
Qed.

Lemma pipeline_ok : forall F B R data w w' k,
  wa_pipeline F B R data w = (w', inl k) ->
  k <= N.of_nat (length data) /\
  w_received w' = w_received w ++ F ++ B ++ firstn (N.to_nat k) data ++ R /\
  exists before after, w_calls w' = w_calls w ++ before ++ [CWrite data (inl k)] ++ after.
Proof.
  intros F B R data w w' k H. unfold wa_pipeline in H.
  destruct (w_write_all w F) as [w1 [u1|e1]] eqn:E1; [|discriminate H].
  destruct (w_write_all w1 B) as [w2 [u2|e2]] eqn:E2; [|discriminate H].
  destruct (w_write w2 data) as [w3 [k3|e3]] eqn:E3; [|discriminate H].
  destruct (w_write_all w3 R) as [w4 [u4|e4]] eqn:E4; [|discriminate H].
  inversion H; subst w4 k3; clear H.
  apply w_write_all_last_call in E1, E2, E4. apply w_write_spec in E3.
  destruct E1 as [c1 [C1 R1]], E2 as [c2 [C2 R2]], E4 as [c4 [C4 R4]].
  destruct E3 as [C3 [_ [Hk R3]]].
  split; [exact Hk|]. split.
  - rewrite R4, R3, R2, R1. now rewrite <- !app_assoc.
  - exists (c1 ++ c2), c4. rewrite C4, C3, C2, C1. now rewrite <- !app_assoc.
Qed.

Theorem output_framing : forall fg bg data w w' k,
  wa_write_colored fg bg data w = (w', inl k) ->
  k <= N.of_nat (length data) /\
  w_received w' = w_received w ++ sa_frame (wa_idx fg) (wa_idx bg) (firstn (N.to_nat k) data) /\
  w_received w' = w_received w ++ wa_fg_bytes fg ++ wa_bg_bytes bg ++ firstn (N.to_nat k) data ++ wa_reset_bytes fg bg /\
  exists before after, w_calls w' = w_calls w ++ before ++ [CWrite data (inl k)] ++ after.
Proof.
  intros fg bg data w w' k H. rewrite wa_write_colored_pipeline in H.
  apply pipeline_ok in H. destruct H as [Hk [Hr Hc]].
  split; [exact Hk|]. split; [|split; [exact Hr | exact Hc]].
  now rewrite Hr, wa_frame_is_spec.
Qed.

Theorem code_presence : forall fg bg,
  (wa_fg_bytes fg = [] <-> fg = None) /\
  (wa_bg_bytes bg = [] <-> bg = None) /\
  (wa_reset_bytes fg bg = [] <-> (fg = None /\ bg = None)).
Proof.
  intros fg bg. repeat split.
  - destruct fg as [c|]; [destruct c; discriminate | reflexivity].
  - intros ->; reflexivity.
  - destruct bg as [c|]; [destruct c; discriminate | reflexivity].
  - intros ->; reflexivity.
  - destruct fg; [discriminate | reflexivity].
  - destruct fg, bg; try discriminate; reflexivity.
  - intros [-> ->]; reflexivity.
Qed.

(* the LAST call the inner writer saw is the failing one (nothing is attempted
   afterwards): it answered Err(k), or, in a write_all, accepted nothing of a
   non-empty buffer (WriteZero) *)
Definition wa_failed_at (op : wa_op) (fg bg : option ansi_color) (data : list N)
    (w w' : writer) (k : ekind) : Prop :=
  let F := wa_fg_bytes fg in
  let B := wa_bg_bytes bg in
  let R := wa_reset_bytes fg bg in
  exists pre buf res,
    w_calls w' = w_calls w ++ pre ++ [CWrite buf res] /\
    (res = inr k \/ (res = inl 0 /\ k = WriteZero /\ buf <> [] /\ op <> WaOpData)) /\
    match op with
    | WaOpFg => exists j, (j < length F)%nat /\ buf = skipn j F /\
                  w_received w' = w_received w ++ firstn j F
    | WaOpBg => exists j, (j < length B)%nat /\ buf = skipn j B /\
                  w_received w' = w_received w ++ F ++ firstn j B
    | WaOpData => buf = data /\ w_received w' = w_received w ++ F ++ B
    | WaOpReset => exists j kd, (j < length R)%nat /\ buf = skipn j R /\
                  In (CWrite data (inl kd)) pre /\
                  w_received w' = w_received w ++ F ++ B ++ firstn (N.to_nat kd) data ++ firstn j R
    end.

Lemma skipn_nonnil {A} (l : list A) j : (j < length l)%nat -> skipn j l <> [].
Proof.
  intros Hj E. assert (H : length (skipn j l) = 0%nat) by now rewrite E.
  rewrite skipn_length in H. lia.
Qed.

Lemma pipeline_err : forall fg bg data w w' k,
  wa_pipeline (wa_fg_bytes fg) (wa_bg_bytes bg) (wa_reset_bytes fg bg) data w = (w', inr k) ->
  exists op, wa_failed_at op fg bg data w w' k.
Proof.
  intros fg bg data w w' k H. unfold wa_pipeline in H.
  destruct (w_write_all w (wa_fg_bytes fg)) as [w1 [u1|e1]] eqn:E1.
  2:{
      inversion H; subst w1 e1; clear H. apply w_write_all_last_call in E1.
      destruct E1 as [c1 [C1 [j [pre [res [Hj [Hr [Hc [_ Hres]]]]]]]]].
      exists WaOpFg, pre, (skipn j (wa_fg_bytes fg)), res. split; [now rewrite C1, Hc|]. split.
      - destruct Hres as [Hres | [Hres Hk]]; [now left | right].
        repeat split; try assumption; [now apply skipn_nonnil | discriminate].
      - exists j. repeat split; assumption. }
  destruct (w_write_all w1 (wa_bg_bytes bg)) as [w2 [u2|e2]] eqn:E2.
  2:{
      inversion H; subst w2 e2; clear H. apply w_write_all_last_call in E1, E2.
      destruct E1 as [c1 [C1 R1]].
      destruct E2 as [c2 [C2 [j [pre [res [Hj [Hr [Hc [_ Hres]]]]]]]]].
      exists WaOpBg, (c1 ++ pre), (skipn j (wa_bg_bytes bg)), res. split.
      { rewrite C2, Hc, C1. now rewrite <- !app_assoc. } split.
      - destruct Hres as [Hres | [Hres Hk]]; [now left | right].
        repeat split; try assumption; [now apply skipn_nonnil | discriminate].
      - exists j. repeat split; try assumption. rewrite Hr, R1. now rewrite <- !app_assoc. }
  destruct (w_write w2 data) as [w3 [k3|e3]] eqn:E3.
  2:{
      inversion H; subst w3 e3; clear H. apply w_write_all_last_call in E1, E2. apply w_write_spec in E3.
      destruct E1 as [c1 [C1 R1]], E2 as [c2 [C2 R2]], E3 as [C3 [_ R3]].
      exists WaOpData, (c1 ++ c2), data, (inr k). split.
      { rewrite C3, C2, C1. now rewrite <- !app_assoc. } split; [now left|].
      split; [reflexivity|]. rewrite R3, R2, R1. now rewrite <- !app_assoc. }
  destruct (w_write_all w3 (wa_reset_bytes fg bg)) as [w4 [u4|e4]] eqn:E4; [discriminate H|].
  inversion H; subst w4 e4; clear H. apply w_write_all_last_call in E1, E2, E4. apply w_write_spec in E3.
  destruct E1 as [c1 [C1 R1]], E2 as [c2 [C2 R2]], E3 as [C3 [_ [_ R3]]].
  destruct E4 as [c4 [C4 [j [pre [res [Hj [Hr [Hc [_ Hres]]]]]]]]].
  exists WaOpReset, (c1 ++ c2 ++ [CWrite data (inl k3)] ++ pre), (skipn j (wa_reset_bytes fg bg)), res. split.
  { rewrite C4, Hc, C3, C2, C1. now rewrite <- !app_assoc. } split.
  - destruct Hres as [Hres | [Hres Hk]]; [now left | right].
    repeat split; try assumption; [now apply skipn_nonnil | discriminate].
  - exists j, k3. repeat split; try assumption.
    + rewrite !in_app_iff. right; right; left. now left.
    + rewrite Hr, R3, R2, R1. now rewrite <- !app_assoc.
Qed.

Theorem error_kind : forall fg bg data w w' k,
  wa_write_colored fg bg data w = (w', inr k) ->
  exists op, wa_failed_at op fg bg data w w' k.
Proof.
  intros fg bg data w w' k H. rewrite wa_write_colored_pipeline in H. now apply pipeline_err.
Qed.

Theorem accept_all : forall fg bg data w,
  w_script w = [] ->
  exists w', wa_write_colored fg bg data w = (w', inl (N.of_nat (length data))) /\
             w_received w' = w_received w ++ wa_fg_bytes fg ++ wa_bg_bytes bg ++ data ++ wa_reset_bytes fg bg.
Proof.
  intros fg bg data w Hs. rewrite wa_write_colored_pipeline. unfold wa_pipeline.
  destruct (w_write_all_accept_all_calls w (wa_fg_bytes fg) Hs) as [c1 ->].
  destruct (w_write_all_accept_all_calls (mkW [] (w_received w ++ wa_fg_bytes fg) (w_calls w ++ c1)) (wa_bg_bytes bg) eq_refl) as [c2 ->].
  rewrite w_write_accept_all by reflexivity.
  match goal with |- context [w_write_all ?W (wa_reset_bytes fg bg)] =>
    destruct (w_write_all_accept_all_calls W (wa_reset_bytes fg bg) eq_refl) as [c4 ->] end.
  eexists; split; [reflexivity|]. cbn [w_received]. now rewrite <- !app_assoc.
Qed.

(* [P] is a complete escape sequence as far as the VT model is concerned *)
Definition vt_transparent (P : list N) (evs : list event) : Prop :=
  forall s, vt_at_rest s ->
  exists s', vt_run s P = (s', evs) /\ vt_at_rest s' /\ osc s' = osc s.

Definition sgr_ev (code : N) : event := ECsi [[code]] [] false 109.

Lemma vt_transparent_nil : vt_transparent [] [].
Proof. intros s Hs. exists s. split; [reflexivity | split; [exact Hs | reflexivity]]. Qed.

Lemma vt_transparent_app P Q e f :
  vt_transparent P e -> vt_transparent Q f -> vt_transparent (P ++ Q) (e ++ f).
Proof.
  intros HP HQ s Hs. destruct (HP s Hs) as [s1 [E1 [H1 O1]]]. destruct (HQ s1 H1) as [s2 [E2 [H2 O2]]].
  exists s2. rewrite vt_run_app, E1, E2. repeat split; try apply H2. now rewrite O2.
Qed.

Lemma vt_transparent_fg c : vt_transparent (ansi_fg_str c) [sgr_ev (sa_fg_code (ansi_disc c))].
Proof.
  intros [v i g cl cu p o u] [Hv Hu]. cbn [vs uni] in Hv, Hu. subst v u.
  exists (mkVt VGround [] false [] [] (sa_fg_code (ansi_disc c)) o None).
  split; [destruct c; vm_compute; reflexivity|]. now repeat split.
Qed.

Lemma vt_transparent_bg c : vt_transparent (ansi_bg_str c) [sgr_ev (sa_bg_code (ansi_disc c))].
Proof.
  intros [v i g cl cu p o u] [Hv Hu]. cbn [vs uni] in Hv, Hu. subst v u.
  exists (mkVt VGround [] false [] [] (sa_bg_code (ansi_disc c)) o None).
  split; [destruct c; vm_compute; reflexivity|]. now repeat split.
Qed.

Lemma vt_transparent_reset : vt_transparent wa_reset_str [sgr_ev 0].
Proof.
  intros [v i g cl cu p o u] [Hv Hu]. cbn [vs uni] in Hv, Hu. subst v u.
  eexists. split; [vm_compute; reflexivity|]. now repeat split.
Qed.

Definition wa_fg_events (fg : option ansi_color) : list event :=
  match fg with Some c => [sgr_ev (sa_fg_code (ansi_disc c))] | None => [] end.
Definition wa_bg_events (bg : option ansi_color) : list event :=
  match bg with Some c => [sgr_ev (sa_bg_code (ansi_disc c))] | None => [] end.
Definition wa_reset_events (fg bg : option ansi_color) : list event :=
  if wa_is_some fg || wa_is_some bg then [sgr_ev 0] else [].

Lemma vt_transparent_codes fg bg :
  vt_transparent (wa_fg_bytes fg ++ wa_bg_bytes bg) (wa_fg_events fg ++ wa_bg_events bg).
Proof.
  apply vt_transparent_app.
  - destruct fg; [apply vt_transparent_fg | apply vt_transparent_nil].
  - destruct bg; [apply vt_transparent_bg | apply vt_transparent_nil].
Qed.

Lemma vt_transparent_resets fg bg : vt_transparent (wa_reset_bytes fg bg) (wa_reset_events fg bg).
Proof.
  unfold wa_reset_bytes, wa_reset_events.
  destruct (wa_is_some fg || wa_is_some bg); [apply vt_transparent_reset | apply vt_transparent_nil].
Qed.

Lemma spec_events_framed : forall P R d e f,
  vt_transparent P e -> vt_transparent R f ->
  vt_at_rest (fst (vt_run vt_init d)) ->
  spec_events (P ++ d ++ R) = e ++ spec_events d ++ f.
Proof.
  intros P R d e f HP HR Hd. unfold spec_events.
  assert (H0 : vt_at_rest vt_init) by (split; reflexivity).
  destruct (HP vt_init H0) as [s1 [E1 [H1 O1]]].
  rewrite vt_run_app_snd, E1. cbn [fst snd]. f_equal.
  assert (Hq : ground_equiv s1 vt_init).
  { right. destruct H1 as [Hv Hu]. repeat split; try assumption. }
  destruct (vt_run_ground_equiv d s1 vt_init Hq) as [He Hs].
  rewrite vt_run_app_snd, He. f_equal.
  pose proof (ground_equiv_at_rest _ _ Hs Hd) as H2.
  destruct (HR _ H2) as [s3 [E3 _]]. now rewrite E3.
Qed.

Lemma interp_codes fg bg :
  interp style_default (wa_fg_events fg ++ wa_bg_events bg) = ([], wa_style fg bg).
Proof.
  rewrite interp_app.
  replace (interp style_default (wa_fg_events fg)) with (@nil (sstyle * N), wa_style fg None)
    by (destruct fg as [[]|]; reflexivity).
  destruct bg as [[]|]; reflexivity.
Qed.

Lemma interp_resets fg bg :
  interp (wa_style fg bg) (wa_reset_events fg bg) = ([], style_default).
Proof. destruct fg as [f|], bg as [b|]; reflexivity. Qed.

Theorem frame_interp : forall fg bg d,
  vt_at_rest (fst (vt_run vt_init d)) ->
  forallb not_sgr (spec_events d) = true ->
  interp style_default (spec_events (wa_fg_bytes fg ++ wa_bg_bytes bg ++ d ++ wa_reset_bytes fg bg)) =
  (map (fun sc => (wa_style fg bg, snd sc)) (fst (interp style_default (spec_events d))), style_default).
Proof.
  intros fg bg d Hd Hn.
  rewrite app_assoc.
  rewrite (spec_events_framed _ _ d _ _ (vt_transparent_codes fg bg) (vt_transparent_resets fg bg) Hd).
  rewrite interp_app, interp_codes, interp_app, (interp_retag _ _ Hn), interp_resets.
  cbn [app]. now rewrite app_nil_r.
Qed.

Theorem interp_output : forall fg bg data w' script k,
  wa_write_colored fg bg data (writer_of script) = (w', inl k) ->
  let shown := firstn (N.to_nat k) data in
  vt_at_rest (fst (vt_run vt_init shown)) ->
  forallb not_sgr (spec_events shown) = true ->
  interp style_default (spec_events (w_received w')) =
  (map (fun sc => (wa_style fg bg, snd sc)) (fst (interp style_default (spec_events shown))), style_default).
Proof.
  intros fg bg data w' script k H shown Hd Hn.
  apply output_framing in H. destruct H as [_ [_ [Hr _]]].
  rewrite Hr. cbn [writer_of w_received app]. now apply frame_interp.
Qed.

Theorem interp_accept_all : forall fg bg data,
  vt_at_rest (fst (vt_run vt_init data)) ->
  forallb not_sgr (spec_events data) = true ->
  exists w', wa_write_colored fg bg data (writer_of []) = (w', inl (N.of_nat (length data))) /\
  interp style_default (spec_events (w_received w')) =
  (map (fun sc => (wa_style fg bg, snd sc)) (fst (interp style_default (spec_events data))), style_default).
Proof.
  intros fg bg data Hd Hn.
  destruct (accept_all fg bg data (writer_of []) eq_refl) as [w' [H Hr]].
  exists w'. split; [exact H|]. rewrite Hr. cbn [writer_of w_received app]. now apply frame_interp.
Qed.

Lemma strip_fg c : strip_run s_init (ansi_fg_str c) = (s_init, []).
Proof. destruct c; vm_compute; reflexivity. Qed.

Lemma strip_bg c : strip_run s_init (ansi_bg_str c) = (s_init, []).
Proof. destruct c; vm_compute; reflexivity. Qed.

(* the reset starts with ESC, which leaves any state (and any unfinished
   character): it is removed completely wherever it arrives *)
Lemma strip_reset s : strip_run s wa_reset_str = (s_init, []).
Proof. destruct s as [v [u|]]; vm_compute; reflexivity. Qed.

Lemma strip_codes fg bg : strip_run s_init (wa_fg_bytes fg ++ wa_bg_bytes bg) = (s_init, []).
Proof.
  rewrite strip_run_app.
  destruct fg as [f|]; cbn [wa_fg_bytes]; [rewrite strip_fg | cbn [strip_run]];
    (destruct bg as [b|]; cbn [wa_bg_bytes]; [rewrite strip_bg | cbn [strip_run]]); reflexivity.
Qed.

(* no hypothesis on d: even data that ends inside a sequence strips alike *)
Theorem frame_strip : forall fg bg d,
  spec_strip (wa_fg_bytes fg ++ wa_bg_bytes bg ++ d ++ wa_reset_bytes fg bg) = spec_strip d.
Proof.
  intros fg bg d. unfold spec_strip.
  rewrite app_assoc, strip_run_app_snd, strip_codes. cbn [fst snd app].
  rewrite strip_run_app_snd.
  unfold wa_reset_bytes. destruct (wa_is_some fg || wa_is_some bg).
  - rewrite strip_reset. cbn [snd]. now rewrite app_nil_r.
  - cbn [strip_run snd]. now rewrite app_nil_r.
Qed.

Theorem strip_output : forall fg bg data script w' k,
  wa_write_colored fg bg data (writer_of script) = (w', inl k) ->
  spec_strip (w_received w') = spec_strip (firstn (N.to_nat k) data) /\
  (forallb sa_text_byte (firstn (N.to_nat k) data) = true ->
   spec_strip (w_received w') = firstn (N.to_nat k) data).
Proof.
  intros fg bg data script w' k H.
  apply output_framing in H. destruct H as [_ [_ [Hr _]]].
  rewrite Hr. cbn [writer_of w_received app]. rewrite frame_strip.
  split; [reflexivity|]. intros Ht. unfold spec_strip. now rewrite (strip_run_text _ Ht).
Qed.

Theorem unix_impls_all_ansi : wa_unix_impls_all_ansi = true.
Proof. vm_compute. reflexivity. Qed.

Theorem example_run :
  let '(w', r) := wa_write_colored (Some Red) (Some BrightBlue) [104; 105; 10]
                    (writer_of [Fail Interrupted; Accept 2; Accept 9; Accept 6; Accept 2]) in
  r = inl 2 /\
  w_received w' = [27; 91; 51; 49; 109] ++ [27; 91; 49; 48; 52; 109] ++ [104; 105] ++ [27; 91; 48; 109] /\
  length (w_calls w') = 6%nat.
Proof. vm_compute. repeat split; reflexivity. Qed.
