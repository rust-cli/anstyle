(* Lemmas for C13: effect sets (bitwise reasoning, for all sets,
   no enumeration of sets), iteration and Debug, the 16-colour tables, Style
   setters / getters / operators. *)
From Coq Require Import NArith List Bool Lia Btauto Sorted.
From AV Require Import Generated.Style Spec.Algebra Model.Base Model.Style Proofs.TableFacts Proofs.FilterFacts.
From AV Require Export Proofs.BitTests.
Import ListNotations.
Local Open Scope N_scope.

Lemma valid_high a i : valid a -> 12 <= i -> mem a i = false.
Proof. intros H Hi. unfold valid in H. now apply (proj1 (lt_pow2_bits a 12)). Qed.

Lemma valid_of_high a : (forall i, 12 <= i -> mem a i = false) -> valid a.
Proof. intros H. now apply (proj2 (lt_pow2_bits a 12)). Qed.

Lemma valid_u16 a : valid a -> a < 2 ^ 16.
Proof.
  intros H. apply lt_pow2_bits. intros i Hi. apply (valid_high a i H). lia.
Qed.

Lemma valid_0 : valid 0.
Proof. unfold valid. reflexivity. Qed.

Lemma valid_singleton i : i < 12 -> valid (singleton i).
Proof.
  intros Hi. apply valid_of_high. intros j Hj. unfold mem, singleton.
  rewrite N.pow2_bits_eqb. apply N.eqb_neq. lia.
Qed.

Lemma mem_singleton i j : mem (singleton i) j = (i =? j).
Proof. unfold mem, singleton. apply N.pow2_bits_eqb. Qed.

Lemma mem_new i : mem e_new i = false.
Proof. apply N.bits_0. Qed.

Lemma idxs_In i : In i idxs <-> i < 12.
Proof.
  change idxs with (range_from 0 12). rewrite range_from_In.
  change (0 + N.of_nat 12) with 12. lia.
Qed.

Lemma idxs_ind (P : N -> Prop) : Forall P idxs -> forall i, i < 12 -> P i.
Proof. intros H i Hi. rewrite Forall_forall in H. apply H, idxs_In, Hi. Qed.

Lemma remove_ldiff a b : a < 2 ^ 16 -> e_remove a b = N.ldiff a b.
Proof.
  intros H. apply N.bits_inj; intro i. unfold e_remove, u16_not.
  rewrite N.land_spec, N.ldiff_spec.
  destruct (N.lt_ge_cases i 16) as [Hi|Hi].
  - now rewrite N.lnot_spec_low.
  - rewrite (proj1 (lt_pow2_bits a 16) H i Hi). reflexivity.
Qed.

Lemma insert_mem a b i : mem (e_insert a b) i = mem a i || mem b i.
Proof. unfold mem, e_insert. apply N.lor_spec. Qed.

Lemma remove_mem a b i : valid a -> mem (e_remove a b) i = mem a i && negb (mem b i).
Proof.
  intros H. rewrite remove_ldiff by now apply valid_u16. unfold mem. apply N.ldiff_spec.
Qed.

Lemma insert_valid a b : valid a -> valid b -> valid (e_insert a b).
Proof.
  intros Ha Hb. apply valid_of_high. intros i Hi.
  rewrite insert_mem, (valid_high a i Ha Hi), (valid_high b i Hb Hi). reflexivity.
Qed.

Lemma remove_valid a b : valid a -> valid (e_remove a b).
Proof.
  intros Ha. apply valid_of_high. intros i Hi.
  rewrite remove_mem, (valid_high a i Ha Hi) by assumption. reflexivity.
Qed.

Lemma set_valid a b en : valid a -> valid b -> valid (e_set a b en).
Proof. intros Ha Hb. destruct en; cbn [e_set]; [now apply insert_valid | now apply remove_valid]. Qed.

Lemma clear_valid a : valid (e_clear a).
Proof. exact valid_0. Qed.

Lemma set_ext a b : (forall i, mem a i = mem b i) -> a = b.
Proof. intros H. apply N.bits_inj. exact H. Qed.

(* an equation between sets built from insert / remove / the empty set: compare
   the members, which leaves a Boolean tautology *)
Ltac setext :=
  apply set_ext; intro;
  repeat first [rewrite insert_mem | rewrite mem_new
               | rewrite remove_mem by auto using insert_valid, remove_valid];
  try btauto.

Lemma insert_idem a : e_insert a a = a.
Proof. apply N.lor_diag. Qed.

Lemma insert_comm a b : e_insert a b = e_insert b a.
Proof. apply N.lor_comm. Qed.

Lemma insert_assoc a b c : e_insert a (e_insert b c) = e_insert (e_insert a b) c.
Proof. apply N.lor_assoc. Qed.

Lemma insert_plain a : e_insert a e_new = a.
Proof. apply N.lor_0_r. Qed.

Lemma contains_subset a b : e_contains a b = true <-> subset b a.
Proof.
  unfold e_contains, subset, mem. rewrite N.eqb_eq. split.
  - intros H i Hi. rewrite <- H, N.land_spec in Hi. now apply andb_true_iff in Hi.
  - intros H. apply N.bits_inj; intro i. rewrite N.land_spec.
    destruct (N.testbit b i) eqn:E; [|reflexivity]. now rewrite (H i E).
Qed.

Lemma contains_insert_r a b : e_contains (e_insert a b) b = true.
Proof. apply contains_subset. intros i H. rewrite insert_mem, H. apply orb_true_r. Qed.

Lemma contains_insert_l a b : e_contains (e_insert a b) a = true.
Proof. apply contains_subset. intros i H. rewrite insert_mem, H. reflexivity. Qed.

Lemma insert_absorb a b : e_contains a b = true <-> e_insert a b = a.
Proof.
  rewrite contains_subset. split.
  - intros H. apply set_ext; intro i. rewrite insert_mem.
    destruct (mem b i) eqn:E; [|apply orb_false_r]. rewrite (H i E). reflexivity.
  - intros H i Hi. rewrite <- H, insert_mem, Hi. apply orb_true_r.
Qed.

Lemma contains_refl a : e_contains a a = true.
Proof. apply contains_subset. intros i H. exact H. Qed.

Lemma contains_trans a b c : e_contains a b = true -> e_contains b c = true -> e_contains a c = true.
Proof. rewrite !contains_subset. intros H1 H2 i H. auto. Qed.

Lemma contains_antisym a b : e_contains a b = true -> e_contains b a = true -> a = b.
Proof.
  rewrite !contains_subset. intros H1 H2. apply set_ext; intro i.
  apply eq_true_iff_eq. split; [apply H2 | apply H1].
Qed.

Lemma contains_plain a : e_contains a e_new = true.
Proof. reflexivity. Qed.

Lemma remove_insert a b : valid a -> valid b -> e_remove (e_insert a b) b = e_remove a b.
Proof. intros Ha Hb. setext. Qed.

Lemma insert_remove a b : valid a -> e_insert (e_remove a b) b = e_insert a b.
Proof. intros Ha. setext. Qed.

Lemma remove_idem a b : valid a -> e_remove (e_remove a b) b = e_remove a b.
Proof. intros Ha. setext. Qed.

Lemma remove_self a : valid a -> e_remove a a = e_new.
Proof. intros Ha. setext. Qed.

Lemma remove_plain a : valid a -> e_remove a e_new = a.
Proof. intros Ha. setext. Qed.

Lemma remove_disjoint a b : valid a -> disjoint (e_remove a b) b.
Proof. intros Ha i. rewrite remove_mem by assumption. btauto. Qed.

Lemma remove_land a b : valid a -> N.land (e_remove a b) b = 0.
Proof.
  intros Ha. apply N.bits_inj; intro i. rewrite N.land_spec, N.bits_0.
  apply (remove_disjoint a b Ha i).
Qed.

Lemma remove_not_contains a b i : valid a -> mem b i = true -> mem (e_remove a b) i = false.
Proof. intros Ha Hb. rewrite remove_mem, Hb by assumption. apply andb_false_r. Qed.

Lemma demorgan a b c : valid a -> e_remove a (e_insert b c) = e_remove (e_remove a b) c.
Proof. intros Ha. setext. Qed.

Lemma remove_comm a b c : valid a -> e_remove (e_remove a b) c = e_remove (e_remove a c) b.
Proof. intros Ha. setext. Qed.

Lemma insert_remove_distr a b c : valid a -> valid b ->
  e_remove (e_insert a b) c = e_insert (e_remove a c) (e_remove b c).
Proof. intros Ha Hb. setext. Qed.

Lemma is_plain_iff a : e_is_plain a = true <-> forall i, mem a i = false.
Proof.
  unfold e_is_plain, effect_plain, mem. rewrite N.eqb_eq. split.
  - intros -> i. apply N.bits_0.
  - intros H. apply N.bits_inj_0. exact H.
Qed.

Lemma clear_plain a : e_is_plain (e_clear a) = true.
Proof. reflexivity. Qed.

Lemma set_spec a b en : e_set a b en = if en then e_insert a b else e_remove a b.
Proof. reflexivity. Qed.

Lemma set_mem a b en i : valid a ->
  mem (e_set a b en) i = if en then mem a i || mem b i else mem a i && negb (mem b i).
Proof. intros Ha. destruct en; cbn [e_set]; [apply insert_mem | now apply remove_mem]. Qed.

Lemma effects_operators a b :
  e_bitor a b = e_insert a b /\ e_bitor_assign a b = e_insert a b /\
  e_sub a b = e_remove a b /\ e_sub_assign a b = e_remove a b.
Proof. repeat split. Qed.

(* the executable specification (characteristic vectors) computes what the model computes *)

Lemma of_chi_bit l : forall i, N.testbit (of_chi l) i = nth (N.to_nat i) l false.
Proof.
  induction l as [|b t IH]; intro i; cbn [of_chi].
  - rewrite N.bits_0. destruct (N.to_nat i); reflexivity.
  - destruct (N.eq_dec i 0) as [->|Hi].
    + rewrite N.add_comm, N.testbit_0_r. reflexivity.
    + rewrite <- (N.succ_pred i Hi) at 1. rewrite N.add_comm, N.testbit_succ_r, IH.
      rewrite <- (N.succ_pred i Hi) at 2. rewrite N2Nat.inj_succ. reflexivity.
Qed.

Lemma chi_nth a : valid a -> forall i, nth (N.to_nat i) (chi a) false = mem a i.
Proof.
  intros Ha i. destruct (N.lt_ge_cases i 12) as [Hi|Hi].
  - revert i Hi. apply idxs_ind. repeat constructor.
  - rewrite (valid_high a i Ha Hi). apply nth_overflow.
    change (length (chi a)) with 12%nat. lia.
Qed.

Lemma zipb_nth f : f false false = false ->
  forall x y k, length x = length y -> nth k (zipb f x y) false = f (nth k x false) (nth k y false).
Proof.
  intros Hf. induction x as [|a x IH]; intros [|b y] k Hl; try discriminate; cbn [zipb].
  - destruct k; cbn; now rewrite Hf.
  - destruct k as [|k]; cbn [nth]; [reflexivity|]. apply IH. now injection Hl.
Qed.

Lemma chi_zip_mem f a b i : f false false = false -> valid a -> valid b ->
  mem (of_chi (zipb f (chi a) (chi b))) i = f (mem a i) (mem b i).
Proof.
  intros Hf Ha Hb. unfold mem at 1.
  rewrite of_chi_bit, zipb_nth, !chi_nth by (reflexivity || assumption). reflexivity.
Qed.

Lemma insert_is_union a b : valid a -> valid b -> e_insert a b = sp_union a b.
Proof.
  intros Ha Hb. apply set_ext; intro i. rewrite insert_mem. symmetry.
  now apply (chi_zip_mem orb).
Qed.

Lemma remove_is_diff a b : valid a -> valid b -> e_remove a b = sp_diff a b.
Proof.
  intros Ha Hb. apply set_ext; intro i. rewrite remove_mem by assumption. symmetry.
  now apply (chi_zip_mem (fun x y => x && negb y)).
Qed.

Lemma set_is_spec a b en : valid a -> valid b -> e_set a b en = sp_set a b en.
Proof.
  intros Ha Hb. destruct en; cbn [e_set sp_set]; [now apply insert_is_union | now apply remove_is_diff].
Qed.

Lemma forallb_map {A B} (f : A -> B) (p : B -> bool) l : forallb p (map f l) = forallb (fun x => p (f x)) l.
Proof. induction l as [|x l IH]; cbn; [reflexivity|]. now rewrite IH. Qed.

Lemma zipb_map {A} f (g h : A -> bool) l : zipb f (map g l) (map h l) = map (fun x => f (g x) (h x)) l.
Proof. induction l as [|x l IH]; cbn; [reflexivity|]. now rewrite IH. Qed.

Lemma sp_contains_subset a b : valid b -> (sp_contains a b = true <-> subset b a).
Proof.
  intros Hb. unfold sp_contains, v_subset, chi. rewrite zipb_map, forallb_map, forallb_forall.
  split.
  - intros H i Hi. destruct (N.lt_ge_cases i 12) as [Hlt|Hge].
    + specialize (H i (proj2 (idxs_In i) Hlt)). rewrite Hi in H. exact H.
    + now rewrite (valid_high b i Hb Hge) in Hi.
  - intros H i _. destruct (mem b i) eqn:E; [|reflexivity]. rewrite (H i E). reflexivity.
Qed.

Lemma contains_is_spec a b : valid b -> e_contains a b = sp_contains a b.
Proof. intros Hb. apply eq_true_iff_eq. now rewrite contains_subset, sp_contains_subset. Qed.

Lemma is_plain_is_spec a : valid a -> e_is_plain a = sp_is_plain a.
Proof.
  intros Ha. apply eq_true_iff_eq. rewrite is_plain_iff.
  unfold sp_is_plain, v_empty, chi. rewrite forallb_map, forallb_forall. split.
  - intros H i _. now rewrite H.
  - intros H i. destruct (N.lt_ge_cases i 12) as [Hlt|Hge].
    + apply negb_true_iff. apply H. now apply idxs_In.
    + now apply valid_high.
Qed.

Lemma v_members_filter {A} (f : A -> bool) (l : list A) :
  map fst (filter snd (combine l (map f l))) = filter f l.
Proof.
  induction l as [|x l IH]; cbn; [reflexivity|]. destruct (f x); cbn; now rewrite IH.
Qed.

Lemma v_members_chi a : v_members (chi a) = members a.
Proof. apply v_members_filter. Qed.

Lemma members_In a i : In i (members a) <-> i < 12 /\ mem a i = true.
Proof. unfold members. rewrite filter_In, idxs_In. reflexivity. Qed.

Lemma members_lt a : Forall (fun i => i < 12) (members a).
Proof. apply Forall_forall. intros i Hi. now apply members_In in Hi. Qed.

Lemma StronglySorted_filter {A} (R : A -> A -> Prop) f l :
  StronglySorted R l -> StronglySorted R (filter f l).
Proof.
  induction 1 as [|x l Hs IH Hf]; cbn; [constructor|].
  destruct (f x); [|exact IH]. constructor; [exact IH|]. now apply Forall_filter_keep.
Qed.

Lemma range_from_sorted n : forall a, StronglySorted N.lt (range_from a n).
Proof.
  induction n as [|n IH]; intro a; constructor; [apply IH|].
  apply Forall_forall. intros x Hx. apply range_from_In in Hx. lia.
Qed.

Lemma idxs_sorted : StronglySorted N.lt idxs.
Proof. exact (range_from_sorted 12 0). Qed.

Lemma members_sorted a : StronglySorted N.lt (members a).
Proof. apply StronglySorted_filter, idxs_sorted. Qed.

Lemma sorted_NoDup l : StronglySorted N.lt l -> NoDup l.
Proof.
  induction 1 as [|x l Hs IH Hf]; constructor; [|exact IH].
  intros Hin. rewrite Forall_forall in Hf. specialize (Hf x Hin). lia.
Qed.

Lemma members_NoDup a : NoDup (members a).
Proof. apply sorted_NoDup, members_sorted. Qed.

Lemma union_singletons_mem l i : mem (union_all (map singleton l)) i = existsb (N.eqb i) l.
Proof.
  induction l as [|x l IH]; cbn [map union_all fold_right existsb].
  - apply N.bits_0.
  - change (fold_right N.lor 0 (map singleton l)) with (union_all (map singleton l)).
    unfold mem at 1. rewrite N.lor_spec. fold (mem (singleton x) i) (mem (union_all (map singleton l)) i).
    rewrite IH, mem_singleton, (N.eqb_sym x i). reflexivity.
Qed.

Lemma members_union_low a : union_all (map singleton (members a)) = a mod 2 ^ 12.
Proof.
  apply set_ext; intro i. rewrite union_singletons_mem. apply eq_true_iff_eq.
  rewrite existsb_exists. unfold mem. split.
  - intros [x [Hx E]]. apply N.eqb_eq in E. subst x. apply members_In in Hx. destruct Hx as [H1 H2].
    now rewrite N.mod_pow2_bits_low.
  - intros H. exists i. split; [|apply N.eqb_refl]. apply members_In.
    destruct (N.lt_ge_cases i 12) as [Hlt|Hge].
    + split; [exact Hlt|]. now rewrite N.mod_pow2_bits_low in H.
    + now rewrite N.mod_pow2_bits_high in H.
Qed.

Lemma members_union a : valid a -> union_all (map singleton (members a)) = a.
Proof. intros Ha. rewrite members_union_low. now apply N.mod_small. Qed.

Lemma contains_singleton e k : e_contains e (N.shiftl 1 k) = mem e k.
Proof.
  unfold e_contains, mem. apply land_bit_eq'.
Qed.

Lemma iter_loop_spec {A} (item : N -> N -> A) e : forall fuel index,
  index + N.of_nat fuel <= 16 ->
  iter_loop item fuel index e =
  Some (map (fun i => item i (singleton i)) (filter (mem e) (range_from index fuel))).
Proof.
  induction fuel as [|k IH]; intros index H; cbn [iter_loop range_from filter map]; [reflexivity|].
  unfold shl1_u16. replace (index <? 16) with true by (symmetry; apply N.ltb_lt; lia).
  rewrite IH by lia. rewrite contains_singleton.
  destruct (mem e index); cbn [map]; [|reflexivity].
  unfold singleton at 1. now rewrite N.shiftl_1_l.
Qed.

(* both iterators walk the whole of METADATA: twelve positions from 0 *)
Lemma iter_all_spec {A} (item : N -> N -> A) e :
  iter_loop item (length metadata) 0 e = Some (map (fun i => item i (singleton i)) (members e)).
Proof. apply (iter_loop_spec item e 12 0). discriminate. Qed.

Lemma index_iter_members e : e_index_iter e = Some (members e).
Proof. unfold e_index_iter. rewrite iter_all_spec, map_id. reflexivity. Qed.

Lemma iter_members e : e_iter e = Some (map singleton (members e)).
Proof. exact (iter_all_spec (fun _ effect => effect) e). Qed.

Lemma iter_is_spec e : e_iter e = Some (sp_iter e).
Proof. unfold sp_iter, sp_iter_chi. rewrite v_members_chi. apply iter_members. Qed.

(* every item of the iteration is one of the twelve constants *)
Definition effect_constants : list N :=
  [eff_bold; eff_dimmed; eff_italic; eff_underline; eff_double_underline; eff_curly_underline;
   eff_dotted_underline; eff_dashed_underline; eff_blink; eff_invert; eff_hidden; eff_strikethrough].

Lemma constants_are_singletons : effect_constants = map singleton idxs.
Proof. reflexivity. Qed.

Lemma consts_table : map fst effect_consts = effect_names /\ map snd effect_consts = idxs.
Proof. split; vm_compute; reflexivity. Qed.

Lemma spec_texts_readable :
  effect_names = map bytes_of effect_names_text /\ conv_names = map bytes_of conv_names_text /\
  txt_open = bytes_of txt_open_text /\ txt_bar = bytes_of txt_bar_text /\ txt_close = bytes_of txt_close_text.
Proof. repeat split; vm_compute; reflexivity. Qed.

Lemma metadata_names : map fst metadata = effect_names.
Proof. vm_compute. reflexivity. Qed.

Fixpoint nodupb {A} (eqb : A -> A -> bool) (l : list A) : bool :=
  match l with
  | [] => true
  | x :: t => negb (existsb (eqb x) t) && nodupb eqb t
  end.

Lemma nodupb_NoDup {A} (eqb : A -> A -> bool) l :
  (forall x, eqb x x = true) -> nodupb eqb l = true -> NoDup l.
Proof.
  intros Hr. induction l as [|x t IH]; cbn [nodupb]; intros H; constructor;
    apply andb_true_iff in H; destruct H as [Hx Ht]; [|now apply IH].
  intros Hin. apply negb_true_iff in Hx.
  assert (E : existsb (eqb x) t = true) by (apply existsb_exists; exists x; auto).
  congruence.
Qed.

Lemma bytes_eqb_refl x : bytes_eqb x x = true.
Proof. induction x as [|a x IH]; cbn [bytes_eqb]; [reflexivity|]. now rewrite N.eqb_refl. Qed.

Lemma effect_names_NoDup : NoDup effect_names.
Proof. apply (nodupb_NoDup bytes_eqb _ bytes_eqb_refl). vm_compute. reflexivity. Qed.

(* the harness names a set by its mask over the constants in declaration order;
   with the translated constants that naming is the identity on valid sets.
   For a table whose shifts are j, j + 1, ..: bit i of the result is bit i of the
   mask, for i among the shifts *)
Lemma of_mask_from_mem cs : forall n j m i, map snd cs = range_from j n ->
  mem (e_of_mask_from j cs m) i = N.testbit m i && existsb (N.eqb i) (range_from j n).
Proof.
  induction cs as [|[nm k] t IH]; intros [|n] j m i H; try discriminate H; cbn [e_of_mask_from range_from existsb].
  - rewrite mem_new. now rewrite andb_false_r.
  - cbn [map snd range_from] in H. injection H as -> H. specialize (IH n (j + 1) m i H).
    assert (E : mem (if N.testbit m j then e_insert (e_of_mask_from (j + 1) t m) (N.shiftl 1 j)
                     else e_of_mask_from (j + 1) t m) i
                = mem (e_of_mask_from (j + 1) t m) i || (N.testbit m j && (j =? i))).
    { destruct (N.testbit m j); [|now rewrite orb_false_r].
      rewrite insert_mem. unfold mem at 2. now rewrite N.shiftl_1_l, N.pow2_bits_eqb. }
    rewrite E, IH, (N.eqb_sym i j). destruct (N.eqb_spec j i) as [->|Hne]; btauto.
Qed.

Lemma of_mask_id m : valid m -> e_of_mask m = m.
Proof.
  intros Hm. apply set_ext; intro i. unfold e_of_mask.
  rewrite (of_mask_from_mem effect_consts 12 0) by exact (proj2 consts_table).
  unfold mem. destruct (N.testbit m i) eqn:E; [|reflexivity].
  apply existsb_exists. exists i. split; [|apply N.eqb_refl].
  apply idxs_In. destruct (N.lt_ge_cases i 12) as [Hl|Hg]; [exact Hl|].
  pose proof (valid_high m i Hm Hg) as F. unfold mem in F. congruence.
Qed.

Lemma metadata_row i : i < 12 -> exists esc, aget metadata i = Some (effect_name i, esc).
Proof.
  intros H. assert (E : option_map fst (aget metadata i) = Some (effect_name i)).
  { unfold aget, effect_name. rewrite <- nth_error_map, metadata_names.
    apply nth_error_nth'. change (length effect_names) with 12%nat. lia. }
  destruct (aget metadata i) as [[nm esc]|]; [|discriminate E]. injection E as ->. now exists esc.
Qed.

Lemma join_cons sep x t :
  join sep (x :: t) = x ++ concat (map (fun y => sep ++ y) t).
Proof.
  revert x. induction t as [|y t IH]; intro x.
  - cbn. now rewrite app_nil_r.
  - change (join sep (x :: y :: t)) with (x ++ sep ++ join sep (y :: t)).
    rewrite IH. cbn [map concat]. now rewrite app_assoc_reverse.
Qed.

Lemma debug_body_succ l : Forall (fun i => i < 12) l -> forall k,
  debug_body (S k) l = Some (concat (map (fun y => str_bar ++ y) (map effect_name l))).
Proof.
  induction 1 as [|i l Hi Hl IH]; intro k; cbn [debug_body map concat]; [reflexivity|].
  destruct (metadata_row i Hi) as [esc ->]. rewrite IH. cbn [fst]. now rewrite app_assoc_reverse.
Qed.

Lemma debug_body_0 l : Forall (fun i => i < 12) l ->
  debug_body 0 l = Some (join str_bar (map effect_name l)).
Proof.
  intros H. destruct H as [|i l Hi Hl]; [reflexivity|].
  cbn [debug_body map]. destruct (metadata_row i Hi) as [esc ->].
  rewrite (debug_body_succ l Hl). cbn [fst app]. now rewrite join_cons.
Qed.

Lemma debug_is_spec e : e_debug e = Some (sp_debug e).
Proof.
  unfold e_debug. rewrite index_iter_members, (debug_body_0 _ (members_lt e)). reflexivity.
Qed.

Lemma all_ansi_In c : In c all_ansi.
Proof. apply (nth_error_In all_ansi (N.to_nat (ansi_disc c))). destruct c; reflexivity. Qed.

Lemma forall_ansi (P : ansi_color -> bool) : forallb P all_ansi = true -> forall c, P c = true.
Proof. intros H c. rewrite forallb_forall in H. apply H, all_ansi_In. Qed.

Lemma ansi_disc_order : map ansi_disc all_ansi = range_from 0 16.
Proof. reflexivity. Qed.

Lemma ansi_disc_lt c : ansi_disc c < 16.
Proof. destruct c; reflexivity. Qed.

Lemma into_from c : ansi256_into_ansi (ansi256_from_ansi c) = Some c.
Proof. destruct c; reflexivity. Qed.

Lemma from_is_disc c : ansi256_from_ansi c = sp_from_ansi (ansi_disc c).
Proof. destruct c; reflexivity. Qed.

Lemma from_ansi_inj a b : ansi256_from_ansi a = ansi256_from_ansi b -> a = b.
Proof. intros H. pose proof (into_from a) as Ha. rewrite H, into_from in Ha. now injection Ha. Qed.

Lemma ansi_disc_inj a b : ansi_disc a = ansi_disc b -> a = b.
Proof. intros H. apply from_ansi_inj. now rewrite (from_is_disc a), (from_is_disc b), H. Qed.

Lemma from_into n : n < 16 -> exists c, ansi256_into_ansi n = Some c /\ ansi256_from_ansi c = n.
Proof.
  intros H. assert (I : In n (map ansi_disc all_ansi)).
  { rewrite ansi_disc_order. apply range_from_In. change (0 + N.of_nat 16) with 16. lia. }
  apply in_map_iff in I. destruct I as (c & <- & _). exists c.
  pose proof (from_is_disc c) as E. unfold sp_from_ansi in E. rewrite <- E.
  split; [apply into_from | reflexivity].
Qed.

Lemma into_none n : 16 <= n -> ansi256_into_ansi n = None.
Proof.
  (* 16 = 2^4: a numeral with a fifth binary digit is none of the 16 arms *)
  intros H. destruct n as [|p]; [lia|].
  do 5 (destruct p as [p|p|]; try reflexivity; try (exfalso; lia)).
Qed.

(* holds for every [n]; the bound is that of the Rust type (u8) *)
Lemma into_is_spec n : n < 256 -> option_map ansi_disc (ansi256_into_ansi n) = sp_into_ansi n.
Proof.
  intros _. unfold sp_into_ansi. destruct (N.ltb_spec n 16) as [H|H].
  - destruct (from_into n H) as (c & -> & <-). cbn [option_map]. now rewrite from_is_disc.
  - now rewrite into_none.
Qed.

Lemma bright_is_spec c b : ansi_disc (ansi_bright c b) = with_bright (ansi_disc c) b.
Proof. destruct c, b; reflexivity. Qed.

Lemma is_bright_is_spec c : ansi_is_bright c = is_bright_ix (ansi_disc c).
Proof. destruct c; reflexivity. Qed.

Lemma bright_last c b b' : ansi_bright (ansi_bright c b') b = ansi_bright c b.
Proof. destruct c, b, b'; reflexivity. Qed.

Lemma bright_idem c b : ansi_bright (ansi_bright c b) b = ansi_bright c b.
Proof. apply bright_last. Qed.

Lemma bright_hue c b : hue (ansi_disc (ansi_bright c b)) = hue (ansi_disc c).
Proof. destruct c, b; reflexivity. Qed.

Lemma bright_is_bright c b : ansi_is_bright (ansi_bright c b) = b.
Proof. destruct c, b; reflexivity. Qed.

Lemma bright_fixed c : ansi_bright c (ansi_is_bright c) = c.
Proof. destruct c; reflexivity. Qed.

Lemma hue_bright_inj a b :
  hue (ansi_disc a) = hue (ansi_disc b) -> ansi_is_bright a = ansi_is_bright b -> a = b.
Proof.
  intros Hh Hb. apply ansi_disc_inj.
  rewrite <- (bright_fixed a), <- (bright_fixed b), !bright_is_spec. unfold with_bright.
  now rewrite Hh, Hb.
Qed.

Lemma fg_color_only s v :
  st_get_fg_color (st_fg_color s v) = v /\ st_get_bg_color (st_fg_color s v) = st_get_bg_color s /\
  st_get_underline_color (st_fg_color s v) = st_get_underline_color s /\
  st_get_effects (st_fg_color s v) = st_get_effects s.
Proof. repeat split. Qed.

Lemma bg_color_only s v :
  st_get_bg_color (st_bg_color s v) = v /\ st_get_fg_color (st_bg_color s v) = st_get_fg_color s /\
  st_get_underline_color (st_bg_color s v) = st_get_underline_color s /\
  st_get_effects (st_bg_color s v) = st_get_effects s.
Proof. repeat split. Qed.

Lemma underline_color_only s v :
  st_get_underline_color (st_underline_color s v) = v /\
  st_get_fg_color (st_underline_color s v) = st_get_fg_color s /\
  st_get_bg_color (st_underline_color s v) = st_get_bg_color s /\
  st_get_effects (st_underline_color s v) = st_get_effects s.
Proof. repeat split. Qed.

Lemma effects_only s e :
  st_get_effects (st_effects s e) = e /\ st_get_fg_color (st_effects s e) = st_get_fg_color s /\
  st_get_bg_color (st_effects s e) = st_get_bg_color s /\
  st_get_underline_color (st_effects s e) = st_get_underline_color s.
Proof. repeat split. Qed.

Lemma style_eta s : mkStyle (st_fg s) (st_bg s) (st_ul s) (st_eff s) = s.
Proof. destruct s; reflexivity. Qed.

Lemma style_ext s t :
  st_get_fg_color s = st_get_fg_color t -> st_get_bg_color s = st_get_bg_color t ->
  st_get_underline_color s = st_get_underline_color t -> st_get_effects s = st_get_effects t -> s = t.
Proof. destruct s, t; cbn. intros -> -> -> ->. reflexivity. Qed.

Lemma new_getters :
  st_get_fg_color st_new = None /\ st_get_bg_color st_new = None /\
  st_get_underline_color st_new = None /\ st_get_effects st_new = e_new.
Proof. repeat split. Qed.

Definition abs_style (s : style) : astyle color := mkAS (st_fg s) (st_bg s) (st_ul s) (st_eff s).

Lemma setters_are_spec s v e :
  abs_style (st_fg_color s v) = sp_setc FFg v (abs_style s) /\
  abs_style (st_bg_color s v) = sp_setc FBg v (abs_style s) /\
  abs_style (st_underline_color s v) = sp_setc FUl v (abs_style s) /\
  abs_style (st_effects s e) = sp_set_eff e (abs_style s) /\
  abs_style st_new = sp_plain.
Proof. repeat split. Qed.

Lemma conv_is_bitor m s : st_conv m s = st_bitor s (conv_effect m).
Proof. reflexivity. Qed.

Lemma conv_getters m s :
  st_get_effects (st_conv m s) = e_insert (st_get_effects s) (conv_effect m) /\
  st_get_fg_color (st_conv m s) = st_get_fg_color s /\ st_get_bg_color (st_conv m s) = st_get_bg_color s /\
  st_get_underline_color (st_conv m s) = st_get_underline_color s.
Proof. repeat split. Qed.

Lemma all_conv_In m : In m all_conv.
Proof. destruct m; cbn; tauto. Qed.

(* the method [bold] inserts the constant [BOLD], etc. *)
Lemma conv_named m :
  exists k, k < 12 /\ conv_effect m = singleton k /\ map upper (conv_name m) = effect_name k.
Proof.
  exists (N.log2 (conv_effect m)). destruct m; vm_compute; repeat split; reflexivity.
Qed.

Lemma conv_names_table : map conv_name all_conv = conv_names.
Proof. vm_compute. reflexivity. Qed.

Lemma conv_is_named m : conv_effect m = sp_named_effect (conv_name m).
Proof. destruct m; vm_compute; reflexivity. Qed.

Lemma bitor_spec s e :
  st_get_effects (st_bitor s e) = e_insert (st_get_effects s) e /\
  st_get_fg_color (st_bitor s e) = st_get_fg_color s /\ st_get_bg_color (st_bitor s e) = st_get_bg_color s /\
  st_get_underline_color (st_bitor s e) = st_get_underline_color s /\
  st_bitor_assign s e = st_bitor s e.
Proof. repeat split. Qed.

Lemma sub_spec s e :
  st_get_effects (st_sub s e) = e_remove (st_get_effects s) e /\
  st_get_fg_color (st_sub s e) = st_get_fg_color s /\ st_get_bg_color (st_sub s e) = st_get_bg_color s /\
  st_get_underline_color (st_sub s e) = st_get_underline_color s /\
  st_sub_assign s e = st_sub s e.
Proof. repeat split. Qed.

Lemma color_eqb_eq a b : color_eqb a b = true <-> a = b.
Proof.
  destruct a, b; cbn; try (split; discriminate).
  - unfold ansi_eqb. rewrite N.eqb_eq. split; [intros H; f_equal; now apply ansi_disc_inj | intros H; now injection H as ->].
  - rewrite N.eqb_eq. split; [now intros -> | intros H; now injection H].
  - rewrite !andb_true_iff, !N.eqb_eq. split; [intros [[-> ->] ->]; reflexivity | intros H; injection H; auto].
Qed.

Lemma ocolor_eqb_eq a b : ocolor_eqb a b = true <-> a = b.
Proof.
  destruct a, b; cbn; try (split; discriminate); [|tauto].
  rewrite color_eqb_eq. split; [now intros -> | intros H; now injection H].
Qed.

Lemma style_eqb_eq a b : style_eqb a b = true <-> a = b.
Proof.
  destruct a, b; unfold style_eqb; cbn. rewrite !andb_true_iff, !ocolor_eqb_eq, N.eqb_eq.
  split; [intros [[[-> ->] ->] ->]; reflexivity | intros H; injection H; auto].
Qed.

Lemma eq_effects_iff s e :
  st_eq_effects s e = true <->
  st_get_fg_color s = None /\ st_get_bg_color s = None /\ st_get_underline_color s = None /\ st_get_effects s = e.
Proof.
  unfold st_eq_effects. rewrite style_eqb_eq. split.
  - intros ->. repeat split.
  - intros (Hf & Hb & Hu & He). apply style_ext; assumption.
Qed.

Lemma eq_effects_is_spec s e : st_eq_effects s e = sp_eq_effects (abs_style s) e.
Proof. destruct s as [[f|] [b|] [u|] x]; reflexivity. Qed.

Lemma from_effects_getters e :
  st_get_effects (st_from_effects e) = e /\ st_get_fg_color (st_from_effects e) = None /\
  st_get_bg_color (st_from_effects e) = None /\ st_get_underline_color (st_from_effects e) = None /\
  st_eq_effects (st_from_effects e) e = true.
Proof. repeat split. now apply style_eqb_eq. Qed.

Lemma st_is_plain_iff s :
  st_is_plain s = true <-> s = st_new.
Proof.
  destruct s as [[f|] [b|] [u|] x]; cbn; unfold st_is_plain, st_new; cbn;
    try (split; discriminate).
  unfold e_is_plain, e_new. rewrite N.eqb_eq. split; [intros ->; reflexivity | intros H; now injection H].
Qed.
