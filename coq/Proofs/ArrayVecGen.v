(* The translated methods of arrayvec's `ArrayVec<T, CAP>` (Generated/ArrayVecFn.v, tools/gen_fn_arrayvec.py: unsafe
   code over `[MaybeUninit<T>; CAP]` + `len`, read at value level as stated in Model/ArrayVec.v) behave, on the
   representation invariant "the slots [0, len) are initialised, len <= CAP, CAP fits LenUint" ([av_rep cap v l]: the
   vector v holds the list l), as the LIST MODEL (the avl_ functions of Model/ArrayVec.v) that anstyle-parse's
   translation uses for `osc_raw`, and they preserve the invariant: no unsafe operation reaches undefined behaviour
   (None) on a represented vector, except where the list model itself panics (push when full). *)
From Coq Require Import NArith List Bool Lia PeanoNat.
From AV Require Import Generated.Table Generated.ParseCfg Spec.Vt Model.Base Model.Imp Model.Utf8parse Model.Parser Model.ArrayVec Generated.ArrayVecFn Proofs.BaseFacts.
Import ListNotations.
Local Open Scope N_scope.

Section Gen.
Variable T : Type.
Variable cap : N.

Notation rep := (@av_rep T cap).

Lemma assume_init_map_some : forall (l : list T), av_assume_init (map Some l) = Some l.
Proof. induction l as [|x l IH]; cbn [map av_assume_init]; [reflexivity|]. rewrite IH. reflexivity. Qed.

(* The pointer operations of the crate all address a middle part of a buffer in three parts: what lies
   before a range of slots, the range, what lies after it (slice_mid, aset_mid). *)

Lemma from_raw_parts_prefix : forall (l : list T) (rest : list (option T)),
  av_from_raw_parts (map Some l ++ rest) 0 (len l) = Some l.
Proof.
  intros. unfold av_from_raw_parts. rewrite <- (len_map Some l), (slice_head _ rest : slice _ 0 (0 + _) = _).
  apply assume_init_map_some.
Qed.

Lemma aset_nat_oob : forall (A : Type) (l : list A) (x : A), aset_nat l (length l) x = None.
Proof. induction l as [|h l IH]; intros; cbn [length aset_nat]; [reflexivity|]. rewrite IH. reflexivity. Qed.

Lemma ptr_write_next : forall (l : list T) (y : option T) (rest : list (option T)) (x : T),
  av_ptr_write (map Some l ++ y :: rest) (len l) x = Some (map Some (l ++ [x]) ++ rest).
Proof.
  intros. unfold av_ptr_write. rewrite <- (len_map Some l), aset_mid, map_app, <- app_assoc. reflexivity.
Qed.

Lemma drop_in_place_mid : forall (a c : list (option T)) (m : list T),
  av_drop_in_place (a ++ map Some m ++ c) (len a) (len m) = Some (a ++ repeat None (length m) ++ c).
Proof.
  intros. unfold av_drop_in_place. rewrite <- (len_map Some m), slice_mid, assume_init_map_some.
  rewrite firstn_len_app, <- len_app, (app_assoc a (map Some m) c), skipn_len_app, to_nat_len, map_length. reflexivity.
Qed.

Lemma drop_in_place_tail : forall (l : list T) (rest : list (option T)) (n : N),
  n <= len l ->
  av_drop_in_place (map Some l ++ rest) n (len l - n) =
    Some (map Some (firstn (N.to_nat n) l) ++ repeat None (N.to_nat (len l - n)) ++ rest).
Proof.
  intros l rest n Hn. unfold len in Hn.
  pose proof (drop_in_place_mid (map Some (firstn (N.to_nat n) l)) rest (skipn (N.to_nat n) l)) as D.
  rewrite app_assoc, <- map_app, firstn_skipn in D.
  replace (len (map Some (firstn (N.to_nat n) l))) with n in D
    by (rewrite len_map; unfold len; rewrite firstn_length; lia).
  rewrite <- (to_nat_len (skipn (N.to_nat n) l)) in D.
  replace (len (skipn (N.to_nat n) l)) with (len l - n) in D by (unfold len; rewrite skipn_length; lia).
  exact D.
Qed.

Lemma rep_len_le : forall v l, rep v l -> len l <= cap.
Proof.
  intros v l (Hc & Hx & Hl & rest & Hr). rewrite Hr, len_app, len_map in Hx. lia.
Qed.

Lemma rep_len_small : forall v l, rep v l -> len l <= av_len_uint_max.
Proof. intros v l H. pose proof (rep_len_le v l H). destruct H as (Hc & _). lia. Qed.

Lemma g_av_cap_error_new_eq : forall x, g_av_cap_error_new T x = mkAvCapErr x.
Proof. reflexivity. Qed.

Lemma g_av_cap_error_element_eq : forall x, g_av_cap_error_element T (g_av_cap_error_new T x) = x.
Proof. reflexivity. Qed.

Lemma g_av_len_eq : forall v l, rep v l -> g_av_len T v = avl_len l.
Proof. intros v l (_ & _ & Hl & _). exact Hl. Qed.

Lemma g_avi_len_eq : forall v l, rep v l -> g_avi_len T v = avl_len l.
Proof. exact g_av_len_eq. Qed.

Lemma g_av_capacity_eq : forall v, g_av_capacity T cap v = cap.
Proof. reflexivity. Qed.

Lemma g_av_is_empty_eq : forall v l, rep v l -> g_av_is_empty T v = avl_is_empty l.
Proof. intros v l H. unfold g_av_is_empty. now rewrite (g_av_len_eq v l H). Qed.

Lemma g_av_is_full_eq : forall v l, rep v l -> g_av_is_full T cap v = avl_is_full cap l.
Proof. intros v l H. unfold g_av_is_full. now rewrite (g_av_len_eq v l H). Qed.

Lemma g_av_remaining_capacity_eq : forall v l, rep v l ->
  g_av_remaining_capacity T cap v = avl_remaining cap l /\ avl_remaining cap l = Some (cap - len l).
Proof.
  intros v l H. unfold g_av_remaining_capacity, avl_remaining, g_av_capacity. rewrite (g_av_len_eq v l H).
  unfold avl_len, csub. pose proof (rep_len_le v l H) as Hle. apply N.leb_le in Hle. rewrite Hle. split; reflexivity.
Qed.

(* the pointers: the start of the buffer, the vector unchanged *)
Lemma g_avi_as_ptr_eq : forall v, g_avi_as_ptr T v = 0.
Proof. reflexivity. Qed.

Lemma g_avi_as_mut_ptr_eq : forall v, g_avi_as_mut_ptr T v = (v, 0).
Proof. reflexivity. Qed.

Lemma g_av_as_ptr_eq : forall v, g_av_as_ptr T v = 0.
Proof. reflexivity. Qed.

Lemma g_av_as_mut_ptr_eq : forall v, g_av_as_mut_ptr T v = (v, 0).
Proof. reflexivity. Qed.

(* set_len: within the capacity the cast to LenUint loses nothing *)
Lemma g_avi_set_len_eq : forall v n,
  cap <= av_len_uint_max -> n <= cap -> g_avi_set_len T cap v n = Some (set_av_len v n).
Proof.
  intros v n Hc Hn. unfold g_avi_set_len. apply N.leb_le in Hn as Hn'. rewrite Hn'.
  rewrite N.mod_small by (unfold av_len_uint_max in Hc; lia). reflexivity.
Qed.

Lemma g_avi_set_len_over : forall v n, cap < n -> g_avi_set_len T cap v n = None.
Proof. intros v n Hn. unfold g_avi_set_len. apply N.leb_gt in Hn. rewrite Hn. reflexivity. Qed.

Lemma g_av_set_len_eq : forall v n, g_av_set_len T cap v n = g_avi_set_len T cap v n.
Proof. reflexivity. Qed.

Lemma g_avi_as_slice_eq : forall v l, rep v l -> g_avi_as_slice T v = Some l.
Proof.
  intros v l (_ & _ & Hl & rest & Hr). unfold g_avi_as_slice, g_avi_len, g_av_len, g_avi_as_ptr, av_buf_start.
  rewrite Hl, Hr, from_raw_parts_prefix. reflexivity.
Qed.

Lemma g_av_as_slice_eq : forall v l, rep v l -> g_av_as_slice T v = Some l.
Proof. intros v l H. unfold g_av_as_slice. now rewrite (g_avi_as_slice_eq v l H). Qed.

Lemma g_av_deref_eq : forall v l, rep v l -> g_av_deref T v = Some l.
Proof. intros v l H. unfold g_av_deref. now rewrite (g_av_as_slice_eq v l H). Qed.

Definition av_empty : avec T := mkAvec 0 (av_uninit_array cap).

Lemma rep_empty : cap <= av_len_uint_max -> rep av_empty [].
Proof.
  intros Hc. split; [exact Hc|]. split; [|split; [reflexivity|]].
  - unfold av_empty, av_uninit_array, len. cbn [av_xs]. rewrite repeat_length. lia.
  - exists (av_uninit_array cap). reflexivity.
Qed.

Lemma g_av_new_eq : g_av_new T cap = option_map (fun _ => av_empty) (@avl_new T cap).
Proof. unfold g_av_new, avl_new. change (4 <? 8) with true. destruct (av_len_uint_max <? cap); reflexivity. Qed.

Lemma g_av_new_rep : forall v, g_av_new T cap = Some v -> rep v [] /\ @avl_new T cap = Some [].
Proof.
  intros v H. rewrite g_av_new_eq in H. unfold avl_new in *.
  destruct (av_len_uint_max <? cap) eqn:E; [discriminate|].
  injection H as <-. split; [|reflexivity]. now apply rep_empty, N.ltb_ge.
Qed.

Lemma g_av_new_panics : g_av_new T cap = None <-> av_len_uint_max < cap.
Proof.
  rewrite g_av_new_eq, <- N.ltb_lt. unfold avl_new. destruct (av_len_uint_max <? cap); cbn [option_map]; split; congruence.
Qed.

Lemma g_av_default_eq : g_av_default T cap = g_av_new T cap.
Proof. unfold g_av_default. destruct (g_av_new T cap); reflexivity. Qed.

Lemma g_avi_push_unchecked_room : forall v l x, rep v l -> len l < cap ->
  exists v', g_avi_push_unchecked T cap v x = Some v' /\ rep v' (l ++ [x]).
Proof.
  intros v l x (Hc & Hx & Hl & rest & Hr) Hroom. rewrite Hr, len_app, len_map in Hx.
  (* there is a slot after the initialised prefix *)
  destruct rest as [|y rest]; [cbn in Hx; lia|].
  unfold g_avi_push_unchecked, g_avi_len, g_av_len, g_avi_as_mut_ptr, av_ptr_add, av_buf_start.
  rewrite Hl, (proj2 (N.ltb_lt _ _) Hroom). cbv beta iota zeta.
  rewrite N.add_0_l, Hr, ptr_write_next, g_avi_set_len_eq by (try exact Hc; lia).
  eexists. split; [reflexivity|]. split; [exact Hc|]. cbn [av_len av_xs set_av_len set_av_xs]. split; [|split].
  - rewrite len_app, len_map, len_app. unfold len in *. cbn [length] in *. lia.
  - rewrite len_app. reflexivity.
  - exists rest. reflexivity.
Qed.

(* debug_assert!(len < CAPACITY): on a full vector push_unchecked does not write *)
Lemma g_avi_push_unchecked_full : forall v l x, rep v l -> len l = cap -> g_avi_push_unchecked T cap v x = None.
Proof.
  intros v l x H Hfull. unfold g_avi_push_unchecked. cbv zeta. rewrite (g_avi_len_eq v l H). unfold avl_len.
  now rewrite Hfull, N.ltb_irrefl.
Qed.

Definition try_push_sim (r : option (avec T * (unit + av_cap_error T))) (m : list T * (unit + av_cap_error T)) : Prop :=
  exists v', r = Some (v', snd m) /\ rep v' (fst m).

Lemma g_avi_try_push_eq : forall v l x, rep v l -> try_push_sim (g_avi_try_push T cap v x) (avl_try_push cap l x).
Proof.
  intros v l x H. unfold g_avi_try_push, avl_try_push, try_push_sim. rewrite (g_avi_len_eq v l H). unfold avl_len.
  destruct (len l <? cap) eqn:E.
  - apply N.ltb_lt in E. destruct (g_avi_push_unchecked_room v l x H E) as (v' & -> & Hrep). now exists v'.
  - now exists v.
Qed.

Lemma g_av_try_push_eq : forall v l x, rep v l -> try_push_sim (g_av_try_push T cap v x) (avl_try_push cap l x).
Proof.
  intros v l x H. destruct (g_avi_try_push_eq v l x H) as (v' & Hp & Hrep).
  unfold g_av_try_push. rewrite Hp. now exists v'.
Qed.

Definition osim (o : option (avec T)) (ol : option (list T)) : Prop :=
  match o, ol with
  | Some v', Some l' => rep v' l'
  | None, None => True
  | _, _ => False
  end.

Lemma g_avi_push_eq : forall v l x, rep v l -> osim (g_avi_push T cap v x) (avl_push cap l x).
Proof.
  intros v l x H. destruct (g_avi_try_push_eq v l x H) as (v' & Hp & Hrep).
  unfold g_avi_push. rewrite Hp. unfold avl_try_push, avl_push in *.
  destruct (len l <? cap); [exact Hrep|exact I].
Qed.

Lemma g_av_push_eq : forall v l x, rep v l -> osim (g_av_push T cap v x) (avl_push cap l x).
Proof.
  intros v l x H. pose proof (g_avi_push_eq v l x H) as Hs. unfold g_av_push.
  destruct (g_avi_push T cap v x); exact Hs.
Qed.

Lemma g_av_push_unchecked_eq : forall v l x, rep v l -> osim (g_av_push_unchecked T cap v x) (avl_push cap l x).
Proof.
  intros v l x H. unfold g_av_push_unchecked, avl_push. destruct (len l <? cap) eqn:E.
  - apply N.ltb_lt in E. destruct (g_avi_push_unchecked_room v l x H E) as (v' & -> & Hrep). exact Hrep.
  - apply N.ltb_ge in E. pose proof (rep_len_le v l H).
    rewrite (g_avi_push_unchecked_full v l x H) by lia. exact I.
Qed.

Lemma g_av_push_panics_iff_full : forall v l x, rep v l -> (g_av_push T cap v x = None <-> avl_is_full cap l = true).
Proof.
  intros v l x H. pose proof (g_av_push_eq v l x H) as Hs. pose proof (rep_len_le v l H) as Hle.
  unfold avl_push, avl_is_full in *. rewrite N.eqb_eq. destruct (len l <? cap) eqn:E.
  - apply N.ltb_lt in E. destruct (g_av_push T cap v x); [|destruct Hs]. split; [discriminate|lia].
  - apply N.ltb_ge in E. destruct (g_av_push T cap v x); [destruct Hs|]. split; [lia|reflexivity].
Qed.

Lemma rep_firstn : forall v l n rest,
  rep v l -> n <= len l -> av_xs v = map Some l ++ rest ->
  rep (mkAvec n (map Some (firstn (N.to_nat n) l) ++ repeat None (N.to_nat (len l - n)) ++ rest))
      (firstn (N.to_nat n) l).
Proof.
  intros v l n rest (Hc & Hx & Hl & _) Hn Hr. split; [exact Hc|]. cbn [av_len av_xs]. split; [|split].
  - rewrite Hr in Hx. rewrite !len_app, !len_map in *. unfold len in *.
    rewrite firstn_length, repeat_length. lia.
  - unfold len in *. rewrite firstn_length. lia.
  - eexists. reflexivity.
Qed.

(* `drop_in_place` of the slots [new_len, len) -- all initialised -- never fails *)
Lemma g_avi_truncate_eq : forall v l n, rep v l ->
  exists v', g_avi_truncate T cap v n = Some v' /\ rep v' (avl_truncate l n).
Proof.
  intros v l n H. pose proof H as (Hc & Hx & Hl & rest & Hr). pose proof (rep_len_le v l H) as Hle.
  unfold g_avi_truncate, avl_truncate, g_avi_len, g_av_len, g_avi_as_mut_ptr, av_ptr_add, av_buf_start, csub.
  rewrite Hl. destruct (n <? len l) eqn:E; [|now exists v].
  apply N.ltb_lt in E. rewrite g_avi_set_len_eq by (try exact Hc; lia). cbv beta iota zeta.
  replace (n <=? len l) with true by (symmetry; apply N.leb_le; lia).
  cbn [fst snd set_av_len set_av_xs av_xs av_len]. rewrite N.add_0_l, Hr, drop_in_place_tail by lia.
  eexists. split; [reflexivity|]. apply (rep_firstn v); [exact H|lia|exact Hr].
Qed.

Lemma g_av_truncate_eq : forall v l n, rep v l ->
  exists v', g_av_truncate T cap v n = Some v' /\ rep v' (avl_truncate l n).
Proof.
  intros v l n H. destruct (g_avi_truncate_eq v l n H) as (v' & Hp & Hrep).
  unfold g_av_truncate. rewrite Hp. now exists v'.
Qed.

Lemma avl_truncate_0 : forall (l : list T), avl_truncate l 0 = [].
Proof. intros [|x l]; reflexivity. Qed.

Lemma g_avi_clear_eq : forall v l, rep v l -> exists v', g_avi_clear T cap v = Some v' /\ rep v' (avl_clear l).
Proof.
  intros v l H. destruct (g_avi_truncate_eq v l 0 H) as (v' & Hp & Hrep). rewrite avl_truncate_0 in Hrep.
  unfold g_avi_clear. rewrite Hp. now exists v'.
Qed.

Lemma g_av_clear_eq : forall v l, rep v l -> exists v', g_av_clear T cap v = Some v' /\ rep v' (avl_clear l).
Proof.
  intros v l H. destruct (g_avi_clear_eq v l H) as (v' & Hp & Hrep).
  unfold g_av_clear. rewrite Hp. now exists v'.
Qed.

(* Drop: the destructor clears (drops the initialised elements); it cannot fail on a represented vector *)
Lemma g_av_drop_eq : forall v l, rep v l -> exists v', g_av_drop T cap v = Some v' /\ rep v' [].
Proof.
  intros v l H. destruct (g_av_clear_eq v l H) as (v' & Hp & Hrep).
  unfold g_av_drop. rewrite Hp. now exists v'.
Qed.

Lemma g_av_clear_slice : forall v l v', rep v l -> g_av_clear T cap v = Some v' -> g_av_as_slice T v' = Some [] /\ g_av_len T v' = 0.
Proof.
  intros v l v' H Hc. destruct (g_av_clear_eq v l H) as (v2 & Hp & Hrep). rewrite Hc in Hp. injection Hp as <-.
  split; [apply (g_av_as_slice_eq v' [] Hrep)|apply (g_av_len_eq v' [] Hrep)].
Qed.

Definition g_av_step (v : avec T) (o : av_op T) : option (avec T) :=
  match o with
  | AvPush x => g_av_push T cap v x
  | AvTryPush x => option_map fst (g_av_try_push T cap v x)
  | AvClear => g_av_clear T cap v
  | AvTruncate n => g_av_truncate T cap v n
  end.
Fixpoint g_av_run (v : avec T) (os : list (av_op T)) : option (avec T) :=
  match os with
  | [] => Some v
  | o :: r => match g_av_step v o with Some v' => g_av_run v' r | None => None end
  end.

Lemma g_av_step_eq : forall v l o, rep v l -> osim (g_av_step v o) (avl_step cap l o).
Proof.
  intros v l o H. destruct o as [x|x| |n]; cbn [g_av_step avl_step].
  - apply g_av_push_eq. exact H.
  - destruct (g_av_try_push_eq v l x H) as (v' & -> & Hrep). exact Hrep.
  - destruct (g_av_clear_eq v l H) as (v' & -> & Hrep). exact Hrep.
  - destruct (g_av_truncate_eq v l n H) as (v' & -> & Hrep). exact Hrep.
Qed.

Lemma g_av_run_eq : forall os v l, rep v l -> osim (g_av_run v os) (avl_run cap l os).
Proof.
  induction os as [|o os IH]; intros v l H; cbn [g_av_run avl_run]; [exact H|].
  pose proof (g_av_step_eq v l o H) as Hs.
  destruct (g_av_step v o) as [v'|], (avl_step cap l o) as [l'|]; try contradiction; [|exact I].
  apply IH. exact Hs.
Qed.

(* A vector made by `ArrayVec::new()` (or Default) and driven by ANY script of push / try_push / clear /
   truncate panics exactly when the list model does, and otherwise len / is_full / as_slice (Deref) / is_empty answer
   what the list model answers -- in particular no unsafe operation reached undefined behaviour. *)
Theorem translated_arrayvec_is_model : forall os v0,
  g_av_new T cap = Some v0 ->
  match g_av_run v0 os, avl_run cap [] os with
  | Some v, Some l =>
      g_av_len T v = avl_len l /\ g_av_is_full T cap v = avl_is_full cap l /\ g_av_is_empty T v = avl_is_empty l /\
      g_av_as_slice T v = Some l /\ g_av_deref T v = Some l /\ len l <= cap
  | None, None => True
  | _, _ => False
  end.
Proof.
  intros os v0 Hn. pose proof (g_av_run_eq os v0 [] (proj1 (g_av_new_rep v0 Hn))) as Hs.
  destruct (g_av_run v0 os) as [v|], (avl_run cap [] os) as [l|]; try contradiction; [|exact I].
  repeat split;
    [apply g_av_len_eq | apply g_av_is_full_eq | apply g_av_is_empty_eq | apply g_av_as_slice_eq | apply g_av_deref_eq
    | apply (rep_len_le v)]; exact Hs.
Qed.

End Gen.

(* With the `core` feature (`osc_cap c = Some cap`) `osc_raw` is an `ArrayVec<u8, cap>`; the parser's translation
   writes its operations over the LIST: `raw_full c raw` for `is_full`, `len raw`, `[]` for `clear`, `slice raw a b`
   for `&osc_raw[a..b]`, and for `push` the term below.  They are the list model of this file. *)

Lemma parser_is_full_is_avl : forall c cap (raw : list N), osc_cap c = Some cap -> raw_full c raw = avl_is_full cap raw.
Proof. intros c cap raw Hc. unfold raw_full, avl_is_full, len. rewrite Hc. reflexivity. Qed.

Lemma parser_push_is_avl : forall c cap (raw : list N) b, osc_cap c = Some cap -> len raw <= cap ->
  (if cfg_core c && raw_full c raw then None else Some (raw ++ [b])) = avl_push cap raw b.
Proof.
  intros c cap raw b Hc Hle. unfold cfg_core, raw_full, avl_push, len in *. rewrite Hc. cbn [andb].
  destruct (N.of_nat (length raw) =? cap) eqn:E.
  - apply N.eqb_eq in E. rewrite E, N.ltb_irrefl. reflexivity.
  - apply N.eqb_neq in E. assert (Hlt : (N.of_nat (length raw) <? cap) = true) by (apply N.ltb_lt; lia).
    rewrite Hlt. reflexivity.
Qed.

Theorem translated_arrayvec_is_parser_buffer : forall c cap (v : avec N) (raw : list N),
  osc_cap c = Some cap -> av_rep cap v raw ->
  g_av_is_full N cap v = raw_full c raw /\
  g_av_len N v = len raw /\
  (forall a b, r <- g_av_deref N v ;; slice r a b = slice raw a b) /\
  (forall b, osim N cap (g_av_push N cap v b) (if cfg_core c && raw_full c raw then None else Some (raw ++ [b]))) /\
  (exists v', g_av_clear N cap v = Some v' /\ av_rep cap v' []).
Proof.
  intros c cap v raw Hc H. pose proof (rep_len_le N cap v raw H) as Hle.
  split; [|split; [|split; [|split]]].
  - rewrite (parser_is_full_is_avl c cap raw Hc). apply g_av_is_full_eq. exact H.
  - apply (g_av_len_eq N cap v raw H).
  - intros a b. rewrite (g_av_deref_eq N cap v raw H). reflexivity.
  - intros b. rewrite (parser_push_is_avl c cap raw b Hc Hle). apply g_av_push_eq. exact H.
  - apply (g_av_clear_eq N cap v raw H).
Qed.

(* Default (derive(Default) of Parser): the empty buffer, for every capacity that fits LenUint -- MAX_OSC_RAW does *)
Theorem translated_arrayvec_default_is_empty : forall cap, cap <= av_len_uint_max ->
  exists v0, g_av_default N cap = Some v0 /\ av_rep cap v0 ([] : list N).
Proof.
  intros cap Hc. rewrite g_av_default_eq, g_av_new_eq. unfold avl_new.
  assert (E : (av_len_uint_max <? cap) = false) by (apply N.ltb_ge; exact Hc). rewrite E. cbn [option_map].
  eexists. split; [reflexivity|]. apply rep_empty. exact Hc.
Qed.

(* MAX_OSC_RAW (Generated/ParseCfg.v, read from crates/anstyle-parse/src/lib.rs on every run) fits: `ArrayVec::new()`
   inside `Parser::default()` does not panic under `core` *)
Theorem translated_arrayvec_default_max_osc_raw :
  exists v0, g_av_default N pc_max_osc_raw = Some v0 /\ av_rep pc_max_osc_raw v0 ([] : list N).
Proof. apply translated_arrayvec_default_is_empty. vm_compute. discriminate. Qed.
