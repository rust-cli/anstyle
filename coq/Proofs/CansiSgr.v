(* cansi 2.2.1 `adjust_sgr` as translated (Generated/CansiFn.v) = the arm table of the hand model
   (Model/Roff.v [rf_adjust_sgr]). *)
From Coq Require Import NArith List Bool.
From AV Require Import Model.Base Model.Imp Generated.Roff Model.Roff Generated.CansiFn.
Import ListNotations.
Local Open Scope N_scope.

Lemma rf_eqb_eq a : forall b, rf_eqb a b = true -> a = b.
Proof.
  induction a as [|x a IH]; intros [|y b] H; cbn [rf_eqb] in H; try discriminate; [reflexivity|].
  apply andb_true_iff in H as [H1 H2]. apply N.eqb_eq in H1. rewrite H1, (IH b H2). reflexivity.
Qed.

(* "look up, then apply" is the chain of string comparisons a Rust `match` on literals is *)
Lemma rf_lookup_apply_chain sgr seq arms :
  match rf_cansi_lookup seq arms with Some a => rf_cansi_apply sgr a | None => sgr end =
  fold_right (fun p rest => if rf_eqb seq (rf_code_str (fst p)) then rf_cansi_apply sgr (snd p) else rest) sgr arms.
Proof.
  induction arms as [|[c a] arms IH]; [reflexivity|]. cbn [rf_cansi_lookup fold_right fst snd].
  destruct (rf_eqb seq (rf_code_str c)); [reflexivity|exact IH].
Qed.

(* over [rf_cansi_arms] that chain is the translated function as it stands: the 48 literals in the order of the
   source, every setter the action of its arm *)
Lemma g_cansi_adjust_sgr_eq sgr seq : g_cansi_adjust_sgr sgr seq = rf_adjust_sgr sgr seq.
Proof. symmetry. exact (rf_lookup_apply_chain sgr seq rf_cansi_arms). Qed.
