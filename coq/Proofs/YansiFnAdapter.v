(* Proofs/YansiFnAdapter.v -- composition of the translated yansi rendering (Proofs/YansiFnGen.v) with the
   adapter anstyle-yansi (Model/Adapters.v, Proofs/Adapters.v, Proofs/AdaptersGen.v):
   render (convert s) is read back by the terminal as project(s).
   The abstract target style of Spec/Targets.v (constructors and builder calls BY NAME) denotes a value of
   yansi's own type through the names yansi's source gives them (Generated/YansiFn.v g_ya_attr_builders,
   g_ya_color_ctors); every name means what Spec/Targets.v says (ya_names_agree). *)
From Coq Require Import NArith List Bool.
From AV Require Import Model.Base Model.YansiRender Generated.YansiFn Proofs.SgrRender Proofs.YansiFnGen.
From AV Require Import Spec.Vt Spec.Sgr Spec.Targets Generated.Adapters Model.Adapters Proofs.Adapters
  Generated.AdaptersFn Proofs.AdaptersGen.
Import ListNotations.
Local Open Scope N_scope.

Definition ya_of_tcolor (c : ad_tcolor) : option ya_color :=
  match c with
  | AdNamed nm => ad_assoc nm g_ya_color_ctors
  | AdFixed n => Some (YaFixed n)
  | AdRgb r g b => Some (YaRgb r g b)
  end.
Definition ya_of_tslot (c : option ad_tcolor) : option (option ya_color) :=
  match c with None => Some None | Some c => option_map Some (ya_of_tcolor c) end.
(* `.bold()` .. on a Style: Set::insert of the attribute's bit *)
Fixpoint ya_bits_of_names (names : list (list N)) : option N :=
  match names with
  | [] => Some 0
  | nm :: rest =>
      match ad_assoc nm g_ya_attr_builders, ya_bits_of_names rest with
      | Some a, Some m => Some (N.lor (2 ^ ya_attr_disc a) m)
      | _, _ => None
      end
  end.
(* the yansi::Style an abstract target style denotes (no quirk, no condition: the adapter calls neither) *)
Definition ya_of_tstyle (t : ad_tstyle) : option ya_style :=
  match ad_t_ul t, ya_of_tslot (ad_t_fg t), ya_of_tslot (ad_t_bg t), ya_bits_of_names (ad_t_attrs t) with
  | None, Some fg, Some bg, Some bits => Some (mkYaStyle fg bg bits 0 None)
  | _, _, _, _ => None
  end.

(* every name of yansi's API denotes what Spec/Targets.v says, and the two name sets coincide *)
Lemma ya_names_agree :
  forallb (fun p => match ad_assoc (fst p) ad_yansi_attrs with Some k => k =? ya_attr_effect (snd p) | None => false end)
          g_ya_attr_builders = true /\
  forallb (fun p => match ad_assoc (fst p) g_ya_attr_builders with Some _ => true | None => false end) ad_yansi_attrs = true /\
  forallb (fun p => match ad_assoc (fst p) ad_yansi_colours with
                    | Some m => opt_colour_eqb m (ya_colour_meaning (snd p)) | None => false end) g_ya_color_ctors = true /\
  forallb (fun p => match ad_assoc (fst p) g_ya_color_ctors with Some _ => true | None => false end) ad_yansi_colours = true.
Proof. vm_compute. repeat split; reflexivity. Qed.

(* indexed / RGB components are bytes (the Rust types are u8) *)
Definition ya_colour_u8 (c : option colour) : Prop :=
  match c with
  | Some (CIdx n) => n < 256
  | Some (CRgb r g b) => r < 256 /\ g < 256 /\ b < 256
  | _ => True
  end.
Definition ya_src_u8 (s : sstyle) : Prop := ya_colour_u8 (s_fg s) /\ ya_colour_u8 (s_bg s).

(* a colour slot of the adapter ([ad_yansi_slot]: an absent colour is the `unwrap_or` constructor) denotes a colour
   of yansi that means the projected colour; the 16 arms are looked up one by one *)
Lemma ya_slot_conv dflt c : ad_assoc dflt g_ya_color_ctors = Some YaPrimary -> ad_colour_ok c -> ya_colour_u8 c ->
  exists y, ya_of_tslot (ad_yansi_slot dflt c) = Some (Some y) /\ ya_color_ok (Some y) /\
            ya_slot_meaning (Some y) = ad_project_colour AdYansi c.
Proof.
  intros Hd Hok Hu. unfold ad_yansi_slot, ya_of_tslot, ya_of_tcolor.
  destruct c as [[i|n|r g b]|]; cbn [ad_colour_ok ya_colour_u8 ad_conv_colour] in *.
  - assert (A : forallb (fun i => match ad_assoc (ad_arm [] ad_gen_yansi_colors i) g_ya_color_ctors with
                                  | Some y => ad_means_ansi (Some (ya_colour_meaning y)) i | None => false end)
                        (ad_below 16) = true) by reflexivity.
    pose proof (ad_forall_below 16 _ A i Hok) as E. cbv beta in E.
    destruct (ad_assoc (ad_arm _ _ i) g_ya_color_ctors) as [y|]; [|discriminate].
    apply ad_means_ansi_eq in E. injection E as E.
    exists y. split; [reflexivity|]. split; [destruct y; try exact I; discriminate | exact E].
  - exists (YaFixed n). split; [reflexivity|split; [exact Hu|reflexivity]].
  - exists (YaRgb r g b). split; [reflexivity|split; [exact Hu|reflexivity]].
  - rewrite Hd. exists YaPrimary. split; [reflexivity|split; [exact I|reflexivity]].
Qed.

Lemma ya_effects_lor x y : ya_effects (N.lor x y) = N.lor (ya_effects x) (ya_effects y).
Proof.
  unfold ya_effects. induction ya_all_attrs as [|a l IH]; [reflexivity|]. cbn [fold_right].
  rewrite N.lor_spec, IH. set (w := bit (ya_attr_effect a)).
  destruct (N.testbit x (ya_attr_disc a)), (N.testbit y (ya_attr_disc a)); cbn [orb].
  - apply N.bits_inj. intros n. rewrite !N.lor_spec. destruct (N.testbit w n); reflexivity.
  - apply N.lor_assoc.
  - now rewrite N.lor_assoc, (N.lor_comm w), <- N.lor_assoc.
  - reflexivity.
Qed.

Lemma ya_effects_attr a : ya_effects (2 ^ ya_attr_disc a) = bit (ya_attr_effect a).
Proof. destruct a; reflexivity. Qed.

Lemma ya_lor_lt n a b : a < 2 ^ n -> b < 2 ^ n -> N.lor a b < 2 ^ n.
Proof.
  assert (S : forall x, x < 2 ^ n <-> N.shiftr x n = 0).
  { intros x. rewrite N.shiftr_div_pow2. symmetry. apply N.div_small_iff, N.pow_nonzero. discriminate. }
  rewrite !S, N.shiftr_lor. now intros -> ->.
Qed.

Definition ya_rows_ok (tbl : list (N * list N)) : bool :=
  forallb (fun p => match ad_assoc (snd p) g_ya_attr_builders with
                    | Some a => ya_attr_effect a =? fst p | None => false end) tbl.

Lemma ya_bits_conv tbl e : ya_rows_ok tbl = true ->
  exists bits, ya_bits_of_names (ad_conv_effects tbl e) = Some bits /\ bits < 512 /\
               ya_effects bits = N.land e (ad_mask tbl).
Proof.
  unfold ya_rows_ok, ad_mask.
  induction tbl as [|[k name] t IH]; cbn [forallb fold_right ad_conv_effects fst snd]; intros H.
  - exists 0. rewrite N.land_0_r. repeat split.
  - apply andb_true_iff in H. destruct H as [Hr Ht]. destruct (IH Ht) as (m & Em & Lm & Fm).
    rewrite N.land_lor_distr_r, land_bit. destruct (N.testbit e k); [|exists m; repeat split; assumption].
    cbn [ya_bits_of_names]. rewrite Em. destruct (ad_assoc name g_ya_attr_builders) as [a|]; [|discriminate].
    apply N.eqb_eq in Hr. subst k. exists (N.lor (2 ^ ya_attr_disc a) m). split; [reflexivity|]. split.
    + apply (ya_lor_lt 9); [destruct a; reflexivity | exact Lm].
    + now rewrite ya_effects_lor, ya_effects_attr, Fm.
Qed.

Lemma ya_effects_conv e :
  exists bits, ya_bits_of_names (ad_conv_effects ad_gen_yansi_effects e) = Some bits /\ bits < 512 /\
               ya_effects bits = N.land e (ad_expressible AdYansi).
Proof. rewrite <- (ad_mask_expressible _ _ ad_chk_effects_yansi). now apply ya_bits_conv. Qed.

(* the adapter's image: the converted style denotes a quirk-free yansi::Style whose meaning is the projection *)
Theorem yansi_convert_value : forall s, ad_src_ok s -> ya_src_u8 s ->
  exists v, ya_of_tstyle (ad_to_yansi s) = Some v /\ ya_style_ok v /\ ya_plain v /\
            ya_meaning v = ad_project AdYansi s.
Proof.
  intros s (Hf & Hb & _) (Uf & Ub).
  destruct (ya_slot_conv ad_gen_yansi_default_fg _ eq_refl Hf Uf) as (yf & Ef & Of & Mf).
  destruct (ya_slot_conv ad_gen_yansi_default_bg _ eq_refl Hb Ub) as (yb & Eb & Ob & Mb).
  destruct (ya_effects_conv (s_eff s)) as (bits & Ee & Lb & Me).
  exists (mkYaStyle (Some yf) (Some yb) bits 0 None).
  unfold ya_of_tstyle, ad_to_yansi. cbn [ad_t_ul ad_t_fg ad_t_bg ad_t_attrs].
  fold (ad_yansi_slot ad_gen_yansi_default_fg (s_fg s)). fold (ad_yansi_slot ad_gen_yansi_default_bg (s_bg s)).
  rewrite Ef, Eb, Ee. split; [reflexivity|]. split; [exact (conj Of (conj Ob Lb))|]. split; [split; reflexivity|].
  unfold ya_meaning, ad_project, ad_project_effects. cbn [ya_fg ya_bg ya_attrs ad_has_ul].
  now rewrite Mf, Mb, Me, N.lor_0_r.
Qed.

(* render (convert s) interprets to project(s): the hand model of the adapter, then the TRANSLATED rendering *)
Theorem yansi_convert_render : forall o en s, ad_src_ok s -> ya_src_u8 s ->
  (v <- ya_of_tstyle (ad_to_yansi s) ;; bs <- g_yansi_render o en v ;; ad_interp_x bs) = Some (ad_project AdYansi s).
Proof.
  intros o en s Hs Hu. destruct (yansi_convert_value s Hs Hu) as (v & Ev & Ok & Pl & M).
  rewrite Ev. destruct (yansi_render_is_meaning o en v Ok Pl) as (bs & Er & Ei). rewrite Er, Ei, M. reflexivity.
Qed.

(* both halves translated: anstyle_yansi::to_yansi_style, then yansi's rendering *)
Theorem translated_yansi_convert_render : forall o en s, ad_src_ok s -> ya_src_u8 s ->
  (t <- g_to_yansi_style s ;; v <- ya_of_tstyle t ;; bs <- g_yansi_render o en v ;; ad_interp_x bs)
  = Some (ad_project AdYansi s).
Proof.
  intros o en s Hs Hu. rewrite (g_to_yansi_style_eq s Hs). exact (yansi_convert_render o en s Hs Hu).
Qed.

(* the rendering never panics on the adapter's image, whatever the global switch held and whatever the oracle answers *)
Theorem translated_yansi_render_total : forall o en s, ad_src_ok s -> ya_src_u8 s ->
  exists v bs, ya_of_tstyle (ad_to_yansi s) = Some v /\ g_yansi_render o en v = Some bs /\
               ad_render_ok (ad_project AdYansi s) bs = true.
Proof.
  intros o en s Hs Hu. destruct (yansi_convert_value s Hs Hu) as (v & Ev & Ok & Pl & M).
  destruct (yansi_render_is_meaning o en v Ok Pl) as (bs & Er & Ei). exists v, bs. repeat split; try assumption.
  unfold ad_render_ok. rewrite Ei, M. apply sstyle_eqb_refl.
Qed.
