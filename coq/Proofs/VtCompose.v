(* Proofs/VtCompose.v -- composition laws of the specification machines over `++`
   ([vt_run], [strip_run], [interp]), and the two facts that make framing by complete
   escape sequences transparent: from Ground, outside a multi-byte character, the events
   of the VT model do not depend on bookkeeping left over from earlier sequences; a stream
   of events without an SGR sequence is rendered in whatever rendition is in effect when
   it starts, and leaves it unchanged. *)
From Coq Require Import NArith List Bool Lia.
From AV Require Import Spec.Utf8 Spec.Vt Spec.Strip Spec.Sgr Spec.AnsiFrame Model.Base Proofs.TableFacts Proofs.VtSgrRead.
Import ListNotations.
Local Open Scope N_scope.

Definition vt_run_app a b s := VtSgrRead.vt_run_app s a b.

Lemma vt_run_app_fst a b s : fst (vt_run s (a ++ b)) = fst (vt_run (fst (vt_run s a)) b).
Proof. rewrite vt_run_app. destruct (vt_run s a) as [s1 e1]; cbn [fst]. now destruct (vt_run s1 b). Qed.

Lemma vt_run_app_snd a b s :
  snd (vt_run s (a ++ b)) = snd (vt_run s a) ++ snd (vt_run (fst (vt_run s a)) b).
Proof. rewrite vt_run_app. destruct (vt_run s a) as [s1 e1]; cbn [fst snd]. now destruct (vt_run s1 b). Qed.

Lemma strip_run_app : forall a b s,
  strip_run s (a ++ b) =
  let '(s1, o1) := strip_run s a in
  let '(s2, o2) := strip_run s1 b in
  (s2, o1 ++ o2).
Proof.
  induction a as [|x a IH]; intros b s; cbn [app strip_run].
  - destruct (strip_run s b); reflexivity.
  - destruct (strip_step s x) as [s1 k]. rewrite IH.
    destruct (strip_run s1 a) as [s2 o2]. destruct (strip_run s2 b) as [s3 o3].
    now destruct k.
Qed.

Lemma strip_run_app_fst a b s : fst (strip_run s (a ++ b)) = fst (strip_run (fst (strip_run s a)) b).
Proof. rewrite strip_run_app. destruct (strip_run s a) as [s1 e1]; cbn [fst]. now destruct (strip_run s1 b). Qed.

Lemma strip_run_app_snd a b s :
  snd (strip_run s (a ++ b)) = snd (strip_run s a) ++ snd (strip_run (fst (strip_run s a)) b).
Proof. rewrite strip_run_app. destruct (strip_run s a) as [s1 e1]; cbn [fst snd]. now destruct (strip_run s1 b). Qed.

Lemma interp_app : forall a b s,
  interp s (a ++ b) =
  let '(o1, s1) := interp s a in
  let '(o2, s2) := interp s1 b in
  (o1 ++ o2, s2).
Proof.
  induction a as [|e a IH]; intros b s; cbn [app interp].
  - destruct (interp s b); reflexivity.
  - rewrite IH. destruct (interp (event_style s e) a) as [o1 s1].
    destruct e as [cp|xb| | | | | |]; try (destruct (is_ws_exec xb)); destruct (interp s1 b) as [o2 s2]; reflexivity.
Qed.

(* two parser states are interchangeable when they are equal, or both in Ground
   with the same pending character and the same (stale) OSC buffer: everything
   else is cleared by the ESC that opens the next sequence *)
Definition ground_equiv (s s' : vt) : Prop :=
  s = s' \/ (vs s = VGround /\ vs s' = VGround /\ uni s = uni s' /\ osc s = osc s').

Lemma vt_step_ground_equiv : forall s s' b,
  ground_equiv s s' ->
  snd (vt_step s b) = snd (vt_step s' b) /\ ground_equiv (fst (vt_step s b)) (fst (vt_step s' b)).
Proof.
  intros s s' b [-> | [Hv [Hv' [Hu Ho]]]]; [split; [reflexivity | now left]|].
  destruct s as [v i g c cu p o u], s' as [v' i' g' c' cu' p' o' u'].
  cbn [vs uni osc] in Hv, Hv', Hu, Ho. subst v v' u' o'.
  unfold vt_step; cbn [uni vs].
  destruct u as [[us acc]|].
  - (* inside a character: only the decoder state matters *)
    destruct (utf8_cont us b); cbn [set_uni fst snd vs ints ign closed cur pend osc uni];
      (split; [reflexivity | right; cbn [vs uni osc]; repeat split; reflexivity]).
  - (* every branch of the Ground row: the events mention [b] only, the state keeps uni and osc
       (ESC clears the rest on both sides) *)
    unfold vt_trans.
    repeat match goal with |- context [if ?c then _ else _] => destruct c end;
      cbn [do_action]; try destruct (utf8_lead b); cbn;
      (split; [reflexivity | first [left; reflexivity | right; cbn; repeat split; reflexivity]]).
Qed.

Lemma vt_run_ground_equiv : forall bs s s',
  ground_equiv s s' ->
  snd (vt_run s bs) = snd (vt_run s' bs) /\ ground_equiv (fst (vt_run s bs)) (fst (vt_run s' bs)).
Proof.
  induction bs as [|b bs IH]; intros s s' H; cbn [vt_run].
  - cbn. split; [reflexivity | exact H].
  - destruct (vt_step_ground_equiv s s' b H) as [He Hs].
    destruct (vt_step s b) as [s1 e1], (vt_step s' b) as [s1' e1']. cbn [fst snd] in He, Hs. subst e1'.
    destruct (IH s1 s1' Hs) as [He2 Hs2].
    destruct (vt_run s1 bs) as [s2 e2], (vt_run s1' bs) as [s2' e2']. cbn [fst snd] in *.
    now subst e2'.
Qed.

Definition vt_at_rest (s : vt) : Prop := vs s = VGround /\ uni s = None.

Lemma ground_equiv_at_rest s s' : ground_equiv s s' -> vt_at_rest s' -> vt_at_rest s.
Proof.
  intros [-> | [Hv [Hv' [Hu _]]]] [H1 H2]; [now split|]. split; [exact Hv | now rewrite Hu].
Qed.

(* an event that is not an SGR sequence (CSI ... m without intermediates) *)
Definition not_sgr (e : event) : bool :=
  match e with
  | ECsi _ [] false 109 => false
  | _ => true
  end.

(* event_style matches on the literal final byte 109: on a variable the match is stuck until its
   binary digits are split *)
Lemma sgr_or_inert e :
  (exists ps, e = ECsi ps [] false 109) \/ (not_sgr e = true /\ forall s, event_style s e = s).
Proof.
  destruct e as [| | | | | |ps [|] [|] [|p]|]; try (right; split; reflexivity).
  repeat (destruct p as [p|p|]; try (right; split; reflexivity)). left. eexists. reflexivity.
Qed.

Lemma not_sgr_style e s : not_sgr e = true -> event_style s e = s.
Proof. destruct (sgr_or_inert e) as [[ps ->]|[_ H]]; [discriminate | intros _; apply H]. Qed.

Lemma interp_retag : forall es st,
  forallb not_sgr es = true ->
  interp st es = (map (fun sc => (st, snd sc)) (fst (interp style_default es)), st).
Proof.
  induction es as [|e es IH]; intros st H; [reflexivity|].
  cbn [forallb] in H. apply andb_true_iff in H. destruct H as [He Hes].
  cbn [interp]. rewrite !(not_sgr_style e _ He).
  rewrite (IH st Hes). specialize (IH style_default Hes).
  destruct (interp style_default es) as [o s2]. cbn [fst] in *.
  destruct e as [cp|xb| | | | | |]; cbn [fst map snd]; try reflexivity.
  destruct (is_ws_exec xb); reflexivity.
Qed.

Definition text_step_ok (b : N) : bool :=
  if sa_text_byte b
  then match plain_step VGround b with
       | (mkS VGround None, true) => true
       | _ => false
       end
  else true.

Lemma text_step_all : forallb text_step_ok all_bytes = true.
Proof. vm_compute. reflexivity. Qed.

Lemma sa_text_byte_lt b : sa_text_byte b = true -> b < 256.
Proof.
  unfold sa_text_byte. rewrite !orb_true_iff, andb_true_iff, !N.leb_le, !N.eqb_eq. lia.
Qed.

Lemma strip_step_text b : sa_text_byte b = true -> strip_step s_init b = (s_init, true).
Proof.
  intros H. pose proof (forall_bytes _ text_step_all b (sa_text_byte_lt b H)) as Hk.
  unfold text_step_ok in Hk. rewrite H in Hk.
  unfold strip_step, s_init; cbn [su sv].
  destruct (plain_step VGround b) as [[v [u|]] [|]]; try discriminate Hk;
    destruct v; try discriminate Hk; reflexivity.
Qed.

Lemma strip_run_text : forall bs,
  forallb sa_text_byte bs = true -> strip_run s_init bs = (s_init, bs).
Proof.
  induction bs as [|b bs IH]; intros H; [reflexivity|].
  cbn [forallb] in H. apply andb_true_iff in H. destruct H as [Hb Hbs].
  cbn [strip_run]. rewrite (strip_step_text b Hb), (IH Hbs). reflexivity.
Qed.
