(* Proofs/Utf8Sim.v -- the utf8parse decoder (Model/Utf8parse.v) simulates the
   RFC 3629 DFA of Spec/Utf8.v, and the code point it assembles with
   lor/land/shiftl is the arithmetic [utf8_decode] of the bytes consumed. *)
From Coq Require Import NArith PeanoNat List Bool Lia.
From AV Require Import Spec.Utf8 Model.Base Model.Utf8parse Proofs.TableFacts.
Import ListNotations. Local Open Scope N_scope.

Lemma land63 : forall b, N.land b 63 = b mod 64.
Proof. intro b. change 63 with (N.ones 6). rewrite N.land_ones. reflexivity. Qed.
Lemma land31 : forall b, N.land b 31 = b mod 32.
Proof. intro b. change 31 with (N.ones 5). rewrite N.land_ones. reflexivity. Qed.
Lemma land15 : forall b, N.land b 15 = b mod 16.
Proof. intro b. change 15 with (N.ones 4). rewrite N.land_ones. reflexivity. Qed.
Lemma land7 : forall b, N.land b 7 = b mod 8.
Proof. intro b. change 7 with (N.ones 3). rewrite N.land_ones. reflexivity. Qed.

Lemma lor_disjoint : forall x y k, y < 2 ^ k -> N.lor (x * 2 ^ k) y = x * 2 ^ k + y.
Proof.
  intros x y k H.
  assert (H0 : N.land (x * 2 ^ k) y = 0).
  { apply N.bits_inj. intro n. rewrite N.land_spec, N.bits_0.
    destruct (N.lt_ge_cases n k) as [Hn | Hn].
    - rewrite N.mul_pow2_bits_low by assumption. reflexivity.
    - rewrite <- (N.mod_small y (2 ^ k)) by assumption.
      rewrite N.mod_pow2_bits_high by assumption. apply andb_false_r. }
  rewrite <- N.lxor_lor by assumption. symmetry.
  apply N.add_nocarry_lxor. assumption.
Qed.

Lemma lor64 : forall x y, y < 64 -> N.lor (x * 64) y = x * 64 + y.
Proof. intros x y H. apply (lor_disjoint x y 6). exact H. Qed.
Lemma lor4096 : forall x y, y < 4096 -> N.lor (x * 4096) y = x * 4096 + y.
Proof. intros x y H. apply (lor_disjoint x y 12). exact H. Qed.
Lemma lor262144 : forall x y, y < 262144 -> N.lor (x * 262144) y = x * 262144 + y.
Proof. intros x y H. apply (lor_disjoint x y 18). exact H. Qed.

Lemma shl6 : forall x, N.shiftl x 6 = x * 64.
Proof. intro x. rewrite N.shiftl_mul_pow2. reflexivity. Qed.
Lemma shl12 : forall x, N.shiftl x 12 = x * 4096.
Proof. intro x. rewrite N.shiftl_mul_pow2. reflexivity. Qed.
Lemma shl18 : forall x, N.shiftl x 18 = x * 262144.
Proof. intro x. rewrite N.shiftl_mul_pow2. reflexivity. Qed.

Lemma mod64_lt : forall b, b mod 64 < 64.
Proof. intro b. apply N.mod_lt. discriminate. Qed.

(* the DFA states of the specification as utf8parse's states ([StripSim.abs_u8] is
   the other direction of the same correspondence) *)
Definition conc_ustate (u : ustate) : u8state :=
  match u with
  | UTail1 => U8Tail1
  | UTail2 => U8Tail2
  | UTail3 => U8Tail3
  | UE0 => U8_3_2_e0
  | UED => U8_3_2_ed
  | UF0 => U8_4_3_f0
  | UF4 => U8_4_3_f4
  end.

Definition u8_remaining (u : ustate) : nat :=
  match u with
  | UTail1 => 1
  | UTail2 | UE0 | UED => 2
  | UTail3 | UF0 | UF4 => 3
  end%nat.

Definition u8_total_len (a : N) : nat :=
  if a <? 224 then 2%nat else if a <? 240 then 3%nat else 4%nat.

Definition u8_partial (acc : list N) : N :=
  match acc with
  | [a] =>
      if a <? 224 then (a mod 32) * 64
      else if a <? 240 then (a mod 16) * 4096
      else (a mod 8) * 262144
  | [a; b] =>
      if a <? 240 then (a mod 16) * 4096 + (b mod 64) * 64
      else (a mod 8) * 262144 + (b mod 64) * 4096
  | [a; b; c] => (a mod 8) * 262144 + (b mod 64) * 4096 + (c mod 64) * 64
  | _ => 0
  end.

(* [acc] = the bytes of the current character consumed so far; the last conjunct
   (bytes consumed + bytes still expected = the length the lead byte announces) is
   what cuts [u8_cont_sim] down to twelve cases *)
Definition u8_rel (up : u8parser) (u : ustate) (acc : list N) : Prop :=
  u8st up = conc_ustate u /\
  u8point up = u8_partial acc /\
  exists a rest,
    acc = a :: rest /\ 194 <= a /\ a <= 244 /\
    (length acc + u8_remaining u = u8_total_len a)%nat.

(* Table 3-7, first column, against the Ground row of the decoder: a fact about 256 bytes *)
Definition lead_ok (b : N) : bool :=
  match utf8_lead b with
  | None => true
  | Some u =>
      let '(up, o) := u8_parser_advance u8_new b in
      match o with U8None => true | _ => false end
      && u8state_eqb (u8st up) (conc_ustate u) && (u8point up =? u8_partial [b])
      && in_range 194 244 b && Nat.eqb (1 + u8_remaining u) (u8_total_len b)
  end.

Lemma lead_ok_all : forallb lead_ok all_bytes = true.
Proof. vm_compute. reflexivity. Qed.

Lemma utf8_lead_byte : forall b u, utf8_lead b = Some u -> b < 256.
Proof.
  intros b u H. destruct (N.lt_ge_cases b 256) as [Hb|Hb]; [exact Hb|].
  unfold utf8_lead in H. rewrite !in_range_false, !(proj2 (N.eqb_neq b _)) in H by lia. discriminate H.
Qed.

Lemma u8state_eqb_eq : forall a b, u8state_eqb a b = true -> a = b.
Proof. destruct a, b; intros H; first [reflexivity | discriminate H]. Qed.

Lemma u8_begin : forall b u, utf8_lead b = Some u ->
  exists up, u8_parser_advance u8_new b = (up, U8None) /\ u8_rel up u [b].
Proof.
  intros b u H.
  pose proof (forall_bytes _ lead_ok_all b (utf8_lead_byte b u H)) as C. unfold lead_ok in C. rewrite H in C.
  destruct (u8_parser_advance u8_new b) as [up o].
  repeat rewrite andb_true_iff in C. destruct C as [[[[C1 C2] C3] C4] C5].
  destruct o; try discriminate C1. exists up. split; [reflexivity|].
  apply andb_true_iff in C4. destruct C4 as [Clo Chi].
  split; [exact (u8state_eqb_eq _ _ C2)|]. split; [exact (proj1 (N.eqb_eq _ _) C3)|].
  exists b, []. split; [reflexivity|]. split; [exact (proj1 (N.leb_le _ _) Clo)|].
  split; [exact (proj1 (N.leb_le _ _) Chi) | exact (proj1 (Nat.eqb_eq _ _) C5)].
Qed.

(* the code-point equations: a continuation byte's six bits are or-ed in below
   everything assembled so far *)
Lemma lor_6_6 : forall x y, y < 64 -> N.lor (x * 4096) (y * 64) = x * 4096 + y * 64.
Proof. intros x y H. apply lor4096. lia. Qed.
Lemma lor_12_6 : forall x y, y < 64 -> N.lor (x * 262144) (y * 4096) = x * 262144 + y * 4096.
Proof. intros x y H. apply lor262144. lia. Qed.
Lemma lor_0_6_6 : forall x z y, y < 64 -> N.lor (x * 4096 + z * 64) y = x * 4096 + z * 64 + y.
Proof. intros x z y H. replace (x * 4096 + z * 64) with ((x * 64 + z) * 64) by lia. apply lor64, H. Qed.
Lemma lor_6_6_6 : forall x z y, y < 64 ->
  N.lor (x * 262144 + z * 4096) (y * 64) = x * 262144 + z * 4096 + y * 64.
Proof.
  intros x z y H. replace (x * 262144 + z * 4096) with ((x * 64 + z) * 4096) by lia. apply lor4096. lia.
Qed.
Lemma lor_0_6_6_6 : forall x z w y, y < 64 ->
  N.lor (x * 262144 + z * 4096 + w * 64) y = x * 262144 + z * 4096 + w * 64 + y.
Proof.
  intros x z w y H. replace (x * 262144 + z * 4096 + w * 64) with ((x * 4096 + z * 64 + w) * 64) by lia.
  apply lor64, H.
Qed.

Create HintDb lor.
#[local] Hint Resolve lor64 lor_6_6 lor_12_6 lor_0_6_6 lor_6_6_6 lor_0_6_6_6 mod64_lt : lor.

(* The cases are the length the lead byte announces, the bytes consumed and the state; the counts in [u8_rel]
   leave twelve of them:
     2 bytes: [a] in Tail1
     3 bytes: [a] in Tail2, E0, ED;  [a; b0] in Tail1
     4 bytes: [a] in Tail3, F0, F4;  [a; b0] in Tail2, E0, ED;  [a; b0; c0] in Tail1 *)
Lemma u8_cont_sim : forall up u acc b, u8_rel up u acc ->
  match utf8_cont u b with
  | UMore u' => exists up', u8_parser_advance up b = (up', U8None) /\ u8_rel up' u' (acc ++ [b])
  | UDone => u8_parser_advance up b = (u8_new, U8Codepoint (utf8_decode (acc ++ [b])))
  | UBad => u8_parser_advance up b = (u8_new, U8Invalid)
  end.
Proof.
  intros [pt st] u acc b (Hst & Hpt & a & rest & -> & Hlo & Hhi & Hlen).
  cbn [u8st u8point] in Hst, Hpt. subst pt st.
  unfold u8_total_len in Hlen. rewrite Nat.add_comm in Hlen.
  destruct (a <? 224) eqn:E1; [|destruct (a <? 240) eqn:E2];
    destruct rest as [|b0 [|c0 [|d0 rest]]]; destruct u;
    cbn [length u8_remaining Nat.add] in Hlen; try discriminate Hlen; clear Hlen.
  (* specification and decoder make the same range test on [b]; outside the range both reject *)
  all: unfold utf8_cont, u8_parser_advance, u8_advance, rng, in_range; cbn [u8st u8point conc_ustate];
       (destruct (_ && _); [|reflexivity]).
  all: unfold u8_new, u8_rel, u8_partial, utf8_decode, u8_total_len, CONTINUATION_MASK;
       cbn [app u8st u8point conc_ustate length u8_remaining];
       rewrite ?E1, ?E2, land63, ?shl6, ?shl12.
  (* the last byte (the three Tail1 cases): the code point *)
  all: try (f_equal; f_equal; solve [auto with lor nocore]).
  (* one more byte taken: the relation again, with the new partial code point *)
  all: eexists; (split; [reflexivity|]); (split; [reflexivity|]); (split; [cbn [u8point]; solve [auto with lor nocore]|]);
       eexists; eexists; (split; [reflexivity|]); rewrite ?E1, ?E2; auto.
Qed.
