(* Proofs/IsTerminalGen.v -- the translated `impl IsTerminal for <T>` of the third-party crate is_terminal_polyfill (and the
   generic impl of is-terminal they forward to), Generated/IsTerminalFn.v, are what the vocabulary of the stream area
   (tools/gen_fn_glue.py: `is_terminal_polyfill::IsTerminal::is_terminal(x)` = [raw_is_terminal cf x]) assumes: every impl
   asks the operating system about the descriptor of the handle it is called on, no other. *)
From Coq Require Import NArith ZArith List Bool.
From AV Require Import Spec.Io Model.Base Model.Imp Model.Stream Model.Glue Generated.StreamFn Generated.AutoFn Generated.GlueFn
  Generated.IsTerminalFn.
From AV Require Spec.Choice Generated.Choice Model.Choice Generated.ChoiceFn Proofs.ChoiceGen.
Import ListNotations.
Local Open Scope N_scope.

(* is-terminal, unix: `libc::isatty(self.as_fd().as_raw_fd()) != 0` (used by nothing below: the tie of that one function) *)
Lemma g_it_is_terminal_eq : forall os w, g_it_is_terminal os w = pf_tty os w.
Proof. intros os w. unfold g_it_is_terminal, pf_tty. cbv zeta. reflexivity. Qed.

(* the polyfill's impl for File / Stdin / StdinLock / Stdout / StdoutLock / Stderr / StderrLock: isatty of the descriptor
   of THAT handle *)
Theorem translated_polyfill_asks_self : forall f, In f g_pf_impls -> forall os w, f os w = pf_tty os w.
Proof. apply (proj1 (Forall_forall (fun f => forall os w, f os w = pf_tty os w) _)). repeat constructor. Qed.

(* ... which is the answer `raw.is_terminal()` has in the stream area whenever [cf] describes that stream *)
Theorem translated_polyfill_is_raw_is_terminal :
  forall f, In f g_pf_impls -> forall os cf w, pf_os_agrees os cf w -> f os w = raw_is_terminal cf w.
Proof.
  intros f H os cf w A. rewrite (translated_polyfill_asks_self f H). exact A.
Qed.

(* the five descriptor-backed impls of anstream (Generated/GlueFn.v), which name the polyfill, each meet the polyfill's
   impl for the SAME std type *)
Theorem translated_glue_asks_polyfill : forall os cf w,
  pf_os_agrees os cf w ->
  g_is_terminal_stdout cf w = g_pf_is_terminal_stdout os w /\
  g_is_terminal_stdoutlock cf w = g_pf_is_terminal_stdoutlock os w /\
  g_is_terminal_stderr cf w = g_pf_is_terminal_stderr os w /\
  g_is_terminal_stderrlock cf w = g_pf_is_terminal_stderrlock os w /\
  g_is_terminal_file cf w = g_pf_is_terminal_file os w.
Proof.
  intros os cf w A.
  assert (E : forall f, In f g_pf_impls -> raw_is_terminal cf w = f os w)
    by (intros f H; symmetry; apply translated_polyfill_is_raw_is_terminal; assumption).
  unfold g_is_terminal_stdout, g_is_terminal_stdoutlock, g_is_terminal_stderr, g_is_terminal_stderrlock, g_is_terminal_file.
  repeat split; apply E; cbn [g_pf_impls In]; tauto.
Qed.

(* the colour decision (tools/gen_fn_choice.py: `raw.is_terminal()` is a boolean parameter of the translated
   anstream::auto::choice) fed with the polyfill's answer for a handle: the decision list of C09 at "isatty of that handle's
   own descriptor is non-zero" *)
Theorem translated_polyfill_choice : forall f, In f g_pf_impls -> forall e user os w,
  ChoiceFn.g_choice e user (f os w) =
  match Generated.Choice.ch_to_choice user with
  | Some g => Some (Model.Choice.choice_model g e (pf_tty os w))
  | None => None
  end.
Proof.
  intros f H e user os w. rewrite (translated_polyfill_asks_self f H). apply ChoiceGen.translated_choice_is_model.
Qed.
