(* [ground_st] and three lemmas of Proofs/VtSgrRead.v, restated. *)
From Coq Require Import NArith List.
From AV Require Import Spec.Vt Spec.Sgr Spec.Render Proofs.VtSgrRead.
Import ListNotations.
Local Open Scope N_scope.

Definition ground_st (s : vt) : Prop := vs s = VGround /\ uni s = None.

Lemma spec_events_pieces_from ps : forall gs s,
  Forall2 (fun p g => exists pr, rn_csi_ok pr = true /\ p = rn_csi pr 109 /\ rn_param_values pr = g) ps gs ->
  ground_st s ->
  exists s', vt_run s (concat ps) = (s', map rn_sgr gs) /\ ground_st s'.
Proof. exact (VtSgrRead.spec_events_pieces_from ps). Qed.

Lemma rn_interp_snd es : forall s, snd (interp s es) = rn_interp_style es s.
Proof. exact (VtSgrRead.rn_interp_snd es). Qed.

Lemma interp_sgr_groups gs : forall s,
  rn_interp_style (map rn_sgr gs) s = fold_left sgr_apply gs s.
Proof. exact (VtSgrRead.interp_sgr_groups gs). Qed.
