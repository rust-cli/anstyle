(* C15: the hand model of anstyle_roff::to_roff (Model/Roff.v) against Spec/RoffSpec.v.
   For EVERY input the document has a closed form ([rf_to_roff_slices]): per slice of cansi's categoriser the
   requests ".gcolor <fg>" and ".fcolor <bg>" and the escaped text in the font the style selects.  That no request is
   injected, that nothing panics and that the text survives are read off that form; on the domain D the slices are
   the segments, which gives the document of the specification. *)
From Coq Require Import ZArith NArith List Bool Lia.
From AV Require Import Model.Base Generated.Style Model.Style Generated.Palette Spec.Lossy Model.Lossy Generated.Roff
                       Spec.StyleRec Spec.SgrCodes Spec.RoffSpec Model.Roff Spec.Algebra Proofs.BaseFacts Proofs.TableFacts Proofs.Style Proofs.Lossy.
Import ListNotations.
Local Open Scope N_scope.

Lemma rf_lt16_In i : i < 16 -> In i [0; 1; 2; 3; 4; 5; 6; 7; 8; 9; 10; 11; 12; 13; 14; 15].
Proof. intros H. apply (range_from_In 16 0 i). cbn. lia. Qed.

(* a fact about the 16 rows of a colour table: one goal per row *)
Ltac rf_cases16 H := apply rf_lt16_In in H; cbn [In] in H; repeat (destruct H as [<-|H]; [|]); [..|contradiction].

Lemma fold_left_ext {A B} (f g : A -> B -> A) (H : forall a b, f a b = g a b) l : forall a, fold_left f l a = fold_left g l a.
Proof. induction l as [|x l IH]; intros a; cbn [fold_left]; [reflexivity|]. rewrite H. apply IH. Qed.

Lemma rf_fold_map {A B C} (f : A -> B -> A) (g : C -> B) l : forall a,
  fold_left f (map g l) a = fold_left (fun a x => f a (g x)) l a.
Proof. induction l as [|x l IH]; intros a; [reflexivity|]. cbn [map fold_left]. apply IH. Qed.

Lemma rf_replace2_skip a b to x t : x <> a -> rf_replace2 a b to (x :: t) = x :: rf_replace2 a b to t.
Proof.
  intros H. destruct t as [|y t']; cbn [rf_replace2]; [reflexivity|].
  rewrite (proj2 (N.eqb_neq x a) H). reflexivity.
Qed.

Lemma rf_replace2_hit a b to t : rf_replace2 a b to (a :: b :: t) = to ++ rf_replace2 a b to t.
Proof. cbn [rf_replace2]. rewrite !N.eqb_refl. reflexivity. Qed.

Lemma rf_replace2_miss a b to y t : y <> b -> rf_replace2 a b to (a :: y :: t) = a :: rf_replace2 a b to (y :: t).
Proof. intros H. cbn [rf_replace2]. rewrite (proj2 (N.eqb_neq y b) H), andb_false_r. reflexivity. Qed.

(* a replacement that keeps both characters and puts [g] between them is one pass that inserts [g] *)
Lemma rf_replace2_guard a b g c s : b <> a ->
  rf_replace2 a b (a :: g ++ [b]) (c :: s) =
  c :: (if (c =? a) && rf_starts_with_char b s then g else []) ++ rf_replace2 a b (a :: g ++ [b]) s.
Proof.
  intros Hb. destruct (N.eq_dec c a) as [->|Hc].
  2:{ rewrite rf_replace2_skip, (proj2 (N.eqb_neq c a) Hc) by exact Hc. reflexivity. }
  rewrite N.eqb_refl. destruct s as [|y t]; [reflexivity|]. cbn [andb rf_starts_with_char].
  destruct (N.eq_dec y b) as [->|Hy].
  - rewrite N.eqb_refl, rf_replace2_hit, (rf_replace2_skip a b _ b t Hb). cbn [app]. rewrite <- app_assoc. reflexivity.
  - rewrite (proj2 (N.eqb_neq y b) Hy), rf_replace2_miss by exact Hy. reflexivity.
Qed.

Lemma rf_replace2_guard_head a b g y s : b <> a ->
  rf_starts_with_char y (rf_replace2 a b (a :: g ++ [b]) s) = rf_starts_with_char y s.
Proof. intros Hb. destruct s as [|c s]; [reflexivity|]. rewrite rf_replace2_guard by exact Hb. reflexivity. Qed.

Lemma rf_escape_inline_flat t : rf_escape_inline t = flat_map rf_esc_char t.
Proof.
  unfold rf_escape_inline, rf_replace1. induction t as [|c t IH]; [reflexivity|].
  cbn [flat_map]. rewrite flat_map_app, IH. f_equal.
  unfold rf_esc_char, rf_BSL. destruct (c =? 92) eqn:E1; [reflexivity|].
  cbn [flat_map]. destruct (c =? 45); reflexivity.
Qed.

Lemma rf_esc_char_cases c :
  (c = 92 /\ rf_esc_char c = [92; 92]) \/ (c = 45 /\ rf_esc_char c = [92; 45]) \/ ((c =? 92) = false /\ rf_esc_char c = [c]).
Proof.
  unfold rf_esc_char, rf_BSL. destruct (N.eqb_spec c 92) as [->|_]; [left; split; reflexivity|].
  destruct (N.eqb_spec c 45) as [->|_]; [right; left|right; right]; split; reflexivity.
Qed.

Lemma rf_guard_esc r : rf_guard (flat_map rf_esc_char r) = rf_guard r.
Proof.
  destruct r as [|c r]; [reflexivity|]. cbn [flat_map].
  destruct (rf_esc_char_cases c) as [[-> E]|[[-> E]|[_ E]]]; rewrite E; reflexivity.
Qed.

(* the two passes of escape_leading_cc as one: what follows a newline is guarded.  The second pass looks at what the
   first has left: a guard it has put there is no apostrophe, and otherwise the head is the head of the text *)
Lemma rf_escape_leading_cc_cons c s :
  rf_escape_leading_cc (c :: s) = c :: (if c =? rf_NL then rf_guard s else []) ++ rf_escape_leading_cc s.
Proof.
  unfold rf_escape_leading_cc, rf_NL. rewrite (rf_replace2_guard 10 46 [92; 38]) by discriminate.
  destruct (c =? 10) eqn:Ec; cbn [andb app].
  2:{ rewrite (rf_replace2_guard 10 39 [92; 38]), Ec by discriminate. reflexivity. }
  destruct s as [|y s]; [reflexivity|]. cbn [rf_starts_with_char rf_guard]. unfold rf_is_cc.
  destruct (y =? 46); cbn [orb app].
  - rewrite !(rf_replace2_guard 10 39 [92; 38]), Ec by discriminate. reflexivity.
  - rewrite (rf_replace2_guard 10 39 [92; 38]), Ec, (rf_replace2_guard_head 10 46 [92; 38]) by discriminate. reflexivity.
Qed.

Lemma rf_escape_passes t : rf_escape_leading_cc (rf_escape_inline t) = rf_escape t.
Proof.
  rewrite rf_escape_inline_flat. induction t as [|c r IH]; [reflexivity|]. cbn [flat_map rf_escape]. rewrite <- IH.
  destruct (rf_esc_char_cases c) as [[-> E]|[[-> E]|[_ E]]]; rewrite E; cbn [app];
    rewrite !rf_escape_leading_cc_cons, ?rf_guard_esc; reflexivity.
Qed.

Lemma rf_escape_head_cc t : rf_starts_with_cc (rf_escape t) = match t with c :: _ => rf_is_cc c | [] => false end.
Proof.
  destruct t as [|c r]; [reflexivity|]. cbn [rf_escape]. unfold rf_is_cc.
  destruct (rf_esc_char_cases c) as [[-> E]|[[-> E]|[_ E]]]; rewrite E; reflexivity.
Qed.

Lemma rf_lines_nl_nonempty x : rf_lines (x ++ [rf_NL]) <> [].
Proof.
  induction x as [|c x IH]; cbn [app rf_lines].
  - discriminate.
  - destruct (c =? rf_NL); [discriminate|]. destruct (rf_lines (x ++ [rf_NL])); discriminate.
Qed.

Lemma rf_lines_app x y : rf_lines (x ++ rf_NL :: y) = rf_lines (x ++ [rf_NL]) ++ rf_lines y.
Proof.
  induction x as [|c x IH]; cbn [app rf_lines]; [reflexivity|].
  rewrite IH. destruct (c =? rf_NL); [reflexivity|].
  pose proof (rf_lines_nl_nonempty x) as Hn.
  destruct (rf_lines (x ++ [rf_NL])) as [|l ls]; [contradiction|]. reflexivity.
Qed.

Lemma rf_lines_rejoin x : concat (map (fun l => l ++ [rf_NL]) (rf_lines (x ++ [rf_NL]))) = x ++ [rf_NL].
Proof.
  induction x as [|c x IH]; cbn [app rf_lines].
  - reflexivity.
  - destruct (c =? rf_NL) eqn:E.
    + apply N.eqb_eq in E. subst c. cbn [map concat app]. rewrite IH. reflexivity.
    + pose proof (rf_lines_nl_nonempty x) as Hn.
      destruct (rf_lines (x ++ [rf_NL])) as [|l ls]; [contradiction|].
      cbn [map concat app] in *. rewrite IH. reflexivity.
Qed.

(* no control character at the beginning of a line; [bol]: the scan starts at the beginning of a line *)
Fixpoint rf_safe (bol : bool) (s : list N) : bool :=
  match s with
  | [] => true
  | c :: r => negb (bol && rf_is_cc c) && rf_safe (c =? rf_NL) r
  end.

Definition rf_nonreq (l : list N) : Prop := rf_is_request_line l = false.

Lemma rf_safe_lines s : forall b, rf_safe b s = true ->
  if b then Forall rf_nonreq (rf_lines s) else Forall rf_nonreq (tl (rf_lines s)).
Proof.
  induction s as [|c r IH]; intros b H; [destruct b; constructor|].
  cbn [rf_safe] in H. apply andb_true_iff in H as [H1 H2]. cbn [rf_lines]. destruct (c =? rf_NL).
  - specialize (IH true H2). destruct b; [constructor; [reflexivity|exact IH]|exact IH].
  - specialize (IH false H2). cbn beta iota in IH.
    destruct b; [|destruct (rf_lines r); [constructor|exact IH]].
    assert (Hc : rf_nonreq [c]) by (unfold rf_nonreq; cbn; destruct (rf_is_cc c); [discriminate H1|reflexivity]).
    destruct (rf_lines r); constructor; [exact Hc|constructor|exact Hc|exact IH].
Qed.

Lemma rf_safe_head c r : rf_is_cc c = false -> rf_safe true (c :: r) = rf_safe false (c :: r).
Proof. intros H. cbn [rf_safe]. rewrite H. reflexivity. Qed.

Lemma rf_safe_weaken s : rf_safe true s = true -> rf_safe false s = true.
Proof. destruct s as [|c r]; [reflexivity|]. cbn [rf_safe]. rewrite andb_true_iff. intros [_ H]. exact H. Qed.

Lemma rf_safe_esc_char b c X : b && rf_is_cc c = false -> rf_safe b (rf_esc_char c ++ X) = rf_safe (c =? rf_NL) X.
Proof.
  intros H. destruct (rf_esc_char_cases c) as [[-> E]|[[-> E]|[_ E]]]; rewrite E; cbn [app rf_safe].
  - destruct b; reflexivity.
  - destruct b; reflexivity.
  - rewrite H. reflexivity.
Qed.

(* Stated for both places the escaped text can be put (at the beginning of a line with its guard, in the middle of one
   without), the statement is its own induction hypothesis: after a newline the rest of the text is at the beginning
   of a line with its guard. *)
Lemma rf_safe_escape t rest : rf_safe true rest = true ->
  forall b, rf_safe b ((if b then rf_guard t else []) ++ rf_escape t ++ rest) = true.
Proof.
  intros Hrest. induction t as [|c r IH]; intros b.
  - destruct b; [exact Hrest|exact (rf_safe_weaken rest Hrest)].
  - cbn [rf_escape]. rewrite <- !app_assoc.
    transitivity (rf_safe (c =? rf_NL) ((if c =? rf_NL then rf_guard r else []) ++ rf_escape r ++ rest)); [|apply IH].
    unfold rf_guard at 1. destruct b; [destruct (rf_is_cc c) eqn:Ecc|]; cbn [app].
    + exact (rf_safe_esc_char false c _ eq_refl).
    + exact (rf_safe_esc_char true c _ Ecc).
    + exact (rf_safe_esc_char false c _ eq_refl).
Qed.

Lemma rf_body_safe f t : rf_safe true (rf_body f t ++ [rf_NL]) = true.
Proof.
  destruct f; cbn [rf_body rf_font_on rf_font_off]; rewrite <- !app_assoc.
  - exact (rf_safe_escape t ([rf_BSL; 102; 82] ++ [rf_NL]) eq_refl false).
  - exact (rf_safe_escape t ([rf_BSL; 102; 82] ++ [rf_NL]) eq_refl false).
  - exact (rf_safe_escape t [rf_NL] eq_refl true).
Qed.

Lemma rf_body_lines_nonreq f t : Forall rf_nonreq (rf_lines (rf_body f t ++ [rf_NL])).
Proof. exact (rf_safe_lines _ true (rf_body_safe f t)). Qed.

Lemma rf_filter_nonreq ls : Forall rf_nonreq ls -> filter (fun l => negb (rf_is_request_line l)) ls = ls.
Proof. induction 1 as [|l ls Hl _ IH]; cbn [filter]; [reflexivity|]. rewrite Hl, IH. reflexivity. Qed.

Lemma rf_unescape_esc_char c X : rf_unescape_from RfUText (rf_esc_char c ++ X) = c :: rf_unescape_from RfUText X.
Proof.
  destruct (rf_esc_char_cases c) as [[-> E]|[[-> E]|[H92 E]]]; rewrite E; cbn [app rf_unescape_from].
  - reflexivity.
  - reflexivity.
  - unfold rf_BSL. rewrite H92. reflexivity.
Qed.

Lemma rf_unescape_guard r X : rf_unescape_from RfUText (rf_guard r ++ X) = rf_unescape_from RfUText X.
Proof. unfold rf_guard. destruct r as [|c r]; [reflexivity|]. destruct (rf_is_cc c); reflexivity. Qed.

Lemma rf_unescape_escape t : forall X, rf_unescape_from RfUText (rf_escape t ++ X) = t ++ rf_unescape_from RfUText X.
Proof.
  induction t as [|c r IH]; intros X; [reflexivity|].
  cbn [rf_escape]. rewrite <- !app_assoc. rewrite rf_unescape_esc_char. cbn [app]. f_equal.
  destruct (c =? rf_NL); [rewrite rf_unescape_guard|cbn [app]]; apply IH.
Qed.

Lemma rf_unescape_body f t X :
  rf_unescape_from RfUText (rf_body f t ++ X) = t ++ rf_unescape_from RfUText X.
Proof.
  destruct f; cbn [rf_body rf_font_on rf_font_off]; rewrite <- ?app_assoc.
  - exact (rf_unescape_escape t ([rf_BSL; 102; 82] ++ X)).
  - exact (rf_unescape_escape t ([rf_BSL; 102; 82] ++ X)).
  - rewrite rf_unescape_guard. apply rf_unescape_escape.
Qed.

Definition rf_sgr_ok (g : rf_sgr) : Prop := rf_color_ok (cs_fg g) /\ rf_color_ok (cs_bg g).

Definition rf_action_ok (a : rf_cansi_action) : Prop :=
  match a with RfCaFg c | RfCaBg c => c < 16 | _ => True end.

Lemma rf_arms_ok : Forall rf_action_ok (map snd rf_cansi_arms).
Proof. repeat constructor. Qed.

Lemma rf_cansi_lookup_in seq : forall arms a, rf_cansi_lookup seq arms = Some a -> In a (map snd arms).
Proof.
  induction arms as [|[c x] rest IH]; intros a H; cbn [rf_cansi_lookup] in H; [discriminate|].
  destruct (rf_eqb seq (rf_code_str c)).
  - inversion H; subst. left. reflexivity.
  - right. apply IH. exact H.
Qed.

Lemma rf_sgr_default_ok : rf_sgr_ok rf_sgr_default.
Proof. split; exact I. Qed.

Lemma rf_adjust_ok g seq : rf_sgr_ok g -> rf_sgr_ok (rf_adjust_sgr g seq).
Proof.
  intros [Hf Hb]. unfold rf_adjust_sgr. destruct (rf_cansi_lookup seq rf_cansi_arms) as [a|] eqn:E; [|split; assumption].
  pose proof (proj1 (Forall_forall _ _) rf_arms_ok a (rf_cansi_lookup_in _ _ _ E)) as Ha.
  destruct a; try exact rf_sgr_default_ok; split; assumption.
Qed.

Lemma rf_handle_ok params : rf_sgr_ok (rf_handle_seq params).
Proof.
  unfold rf_handle_seq. generalize rf_sgr_default_ok. generalize rf_sgr_default.
  induction (rf_split 59 params) as [|f fs IH]; intros g Hg; [exact Hg|].
  cbn [fold_left]. apply IH. apply rf_adjust_ok. exact Hg.
Qed.

Definition rf_slices_ok (l : list (rf_sgr * list N)) : Prop := Forall (fun sl => rf_sgr_ok (fst sl)) l.

Lemma rf_flush_ok g pend : rf_sgr_ok g -> rf_slices_ok (rf_flush g pend).
Proof. intros H. unfold rf_flush. destruct pend; constructor; [exact H|constructor]. Qed.

Lemma rf_cat_go_ok s : forall st g pend, rf_sgr_ok g -> rf_slices_ok (rf_cat_go st g pend s).
Proof.
  induction s as [|b t IH]; intros st g pend Hg.
  - destruct st; apply rf_flush_ok; exact Hg.
  - cbn [rf_cat_go]. destruct st as [| |acc].
    + destruct (b =? 27); apply IH; exact Hg.
    + destruct (b =? 91); [apply IH; exact Hg|]. destruct (b =? 27); apply IH; exact Hg.
    + destruct (rf_terminated b); [|apply IH; exact Hg].
      apply Forall_app. split; [apply rf_flush_ok; exact Hg|apply IH; apply rf_handle_ok].
Qed.

Lemma rf_categorise_ok input : rf_slices_ok (rf_categorise input).
Proof. apply rf_cat_go_ok. exact rf_sgr_default_ok. Qed.

Lemma rf_cat_text txt : forall sgr pend rest, ~ In 27 txt ->
  rf_cat_go RfInText sgr pend (txt ++ rest) = rf_cat_go RfInText sgr (rev txt ++ pend) rest.
Proof.
  induction txt as [|b t IH]; intros sgr pend rest H; [reflexivity|].
  cbn [app rf_cat_go]. assert (Hb : b <> 27) by (intros ->; apply H; left; reflexivity).
  rewrite (proj2 (N.eqb_neq b 27) Hb). rewrite IH by (intros Hin; apply H; right; exact Hin).
  cbn [rev]. rewrite <- app_assoc. reflexivity.
Qed.

Lemma rf_cat_params ps : forall acc sgr pend rest, Forall (fun b => rf_terminated b = false) ps ->
  rf_cat_go (RfInCsi acc) sgr pend (ps ++ 109 :: rest) =
  rf_flush sgr pend ++ rf_cat_go RfInText (rf_handle_seq (rev acc ++ ps)) [] rest.
Proof.
  induction ps as [|b ps IH]; intros acc sgr pend rest H.
  - cbn [app rf_cat_go]. change (rf_terminated 109) with true. cbn iota. rewrite app_nil_r. reflexivity.
  - inversion H as [|? ? Hb Hps]; subst. cbn [app rf_cat_go]. rewrite Hb. rewrite IH by assumption.
    cbn [rev]. rewrite <- app_assoc. reflexivity.
Qed.

Lemma rf_flush_rev sgr t : rf_flush sgr (rev t) = match t with [] => [] | _ => [(sgr, t)] end.
Proof.
  destruct t as [|c t]; [reflexivity|]. unfold rf_flush.
  destruct (rev (c :: t)) eqn:E.
  - apply (f_equal (@length N)) in E. rewrite rev_length in E. discriminate.
  - rewrite <- E, rev_involutive. reflexivity.
Qed.

(* Model/Roff.v has its own str::split ([rf_split]); these mirror Proofs/Text.v split_pred_clean / split_pred_app_sep
   and Proofs/LsParse.v split_on_join *)
Lemma rf_split_nosep sep f : Forall (fun b => b <> sep) f -> rf_split sep f = [f].
Proof.
  induction 1 as [|c f Hc _ IH]; [reflexivity|]. cbn [rf_split]. rewrite (proj2 (N.eqb_neq c sep) Hc), IH. reflexivity.
Qed.

Lemma rf_split_sep sep f r : Forall (fun b => b <> sep) f -> rf_split sep (f ++ sep :: r) = f :: rf_split sep r.
Proof.
  induction 1 as [|c f Hc _ IH]; cbn [app rf_split]; [rewrite N.eqb_refl; reflexivity|].
  rewrite (proj2 (N.eqb_neq c sep) Hc), IH. reflexivity.
Qed.

Lemma rf_split_join sep (g : N -> list N) cs : Forall (fun c => Forall (fun b => b <> sep) (g c)) cs ->
  forall f, Forall (fun b => b <> sep) f -> rf_split sep (f ++ concat (map (fun c => sep :: g c) cs)) = f :: map g cs.
Proof.
  induction 1 as [|c cs Hc _ IH]; intros f Hf; cbn [map concat].
  - rewrite app_nil_r. apply rf_split_nosep. exact Hf.
  - cbn [app]. rewrite rf_split_sep by exact Hf. rewrite (IH _ Hc). reflexivity.
Qed.

(* the parameter bytes of D are decimal digits and ';': none ends the sequence, and a digit is no separator *)
Lemma rf_dec_digits c : c < 1000 -> Forall (fun b => 48 <= b <= 57) (dec c).
Proof.
  intros H. unfold dec, ZERO.
  assert (D : forall d, d < 10 -> 48 <= 48 + d <= 57) by (intros; lia).
  assert (M : forall x, x mod 10 < 10) by (intros x; apply N.mod_lt; discriminate).
  destruct (c <? 10) eqn:E1; [apply N.ltb_lt in E1; auto|].
  destruct (c <? 100) eqn:E2; [apply N.ltb_lt in E2|]; repeat (apply Forall_cons; [apply D|]); auto;
    apply N.div_lt_upper_bound; lia.
Qed.

Lemma rf_seg_codes_lt s : rf_seg_ok s -> Forall (fun c => c < 1000) (rf_seg_codes s).
Proof.
  intros [Hfg [Hbg _]]. unfold rf_seg_codes. rewrite !Forall_app. repeat split.
  - apply Forall_forall. intros c Hc. apply in_map_iff in Hc as [e [<- _]]. destruct e; reflexivity.
  - destruct (rs_fg s) as [i|]; constructor; [|constructor]. cbn in Hfg. unfold rf_fg_code. destruct (i <? 8); lia.
  - destruct (rs_bg s) as [i|]; constructor; [|constructor]. cbn in Hbg. unfold rf_bg_code. destruct (i <? 8); lia.
Qed.

Definition rf_params (s : rf_seg) : list N := 48 :: concat (map (fun c => SEMI :: dec c) (rf_seg_codes s)).

Lemma rf_params_unterminated s : rf_seg_ok s -> Forall (fun b => rf_terminated b = false) (rf_params s).
Proof.
  intros Hs. constructor; [reflexivity|].
  induction (rf_seg_codes_lt s Hs) as [|c cs Hc _ IH]; [constructor|].
  cbn [map concat]. constructor; [reflexivity|]. apply Forall_app. split; [|exact IH].
  apply (Forall_impl _ (P := fun b => 48 <= b <= 57)); [|exact (rf_dec_digits c Hc)].
  intros b Hb. unfold rf_terminated. apply andb_false_iff. left. apply N.leb_gt. lia.
Qed.

(* what cansi makes of the codes of a segment *)
Definition rf_eff_action (e : rf_effect) : rf_cansi_action :=
  match e with
  | RfBold => RfCaIntensity 1 | RfFaint => RfCaIntensity 2 | RfItalic => RfCaItalic true
  | RfUnderline => RfCaUnderline true | RfBlink => RfCaBlink true | RfInvert => RfCaReversed true
  | RfHidden => RfCaHidden true | RfStrike => RfCaStrikethrough true
  end.

Definition rf_eff_fold (effs : list rf_effect) (g : rf_sgr) : rf_sgr :=
  fold_left (fun g e => rf_cansi_apply g (rf_eff_action e)) effs g.

Definition rf_opt_apply (mk : N -> rf_cansi_action) (c : option N) (g : rf_sgr) : rf_sgr :=
  match c with Some i => rf_cansi_apply g (mk i) | None => g end.

Definition rf_seg_sgr (s : rf_seg) : rf_sgr :=
  rf_opt_apply RfCaBg (rs_bg s) (rf_opt_apply RfCaFg (rs_fg s) (rf_eff_fold (rs_effects s) rf_sgr_default)).

Lemma rf_adjust_effect g e : rf_adjust_sgr g (dec (rf_effect_code e)) = rf_cansi_apply g (rf_eff_action e).
Proof. destruct e; reflexivity. Qed.

Lemma rf_adjust_fg g i : i < 16 -> rf_adjust_sgr g (dec (rf_fg_code i)) = rf_cansi_apply g (RfCaFg i).
Proof. intros H. rf_cases16 H; reflexivity. Qed.

Lemma rf_adjust_bg g i : i < 16 -> rf_adjust_sgr g (dec (rf_bg_code i)) = rf_cansi_apply g (RfCaBg i).
Proof. intros H. rf_cases16 H; reflexivity. Qed.

Lemma rf_handle_params s : rf_seg_ok s -> rf_handle_seq (rf_params s) = rf_seg_sgr s.
Proof.
  intros Hs. unfold rf_handle_seq, rf_params.
  change (48 :: concat (map (fun c => SEMI :: dec c) (rf_seg_codes s)))
    with ([48] ++ concat (map (fun c => 59 :: dec c) (rf_seg_codes s))).
  rewrite (rf_split_join 59 dec).
  2:{ apply (Forall_impl _ (P := fun c => c < 1000)); [|exact (rf_seg_codes_lt s Hs)].
      intros c Hc. apply (Forall_impl _ (P := fun b => 48 <= b <= 57)); [intros b Hb; lia|exact (rf_dec_digits c Hc)]. }
  2:{ repeat constructor. discriminate. }
  cbn [fold_left]. change (rf_adjust_sgr rf_sgr_default [48]) with rf_sgr_default.
  unfold rf_seg_codes. rewrite rf_fold_map, !fold_left_app, rf_fold_map, (fold_left_ext _ _ rf_adjust_effect).
  destruct Hs as [Hfg [Hbg _]]. unfold rf_seg_sgr. fold (rf_eff_fold (rs_effects s) rf_sgr_default).
  destruct (rs_fg s) as [i|], (rs_bg s) as [j|]; cbn [rf_opt_code fold_left rf_opt_apply rf_color_ok] in *;
    rewrite ?rf_adjust_fg, ?rf_adjust_bg by assumption; reflexivity.
Qed.

Definition rf_seg_slices (s : rf_seg) : list (rf_sgr * list N) :=
  match rs_text s with [] => [] | t => [(rf_seg_sgr s, t)] end.

Lemma rf_print_seg_shape s rest :
  rf_print_seg s ++ rest = 27 :: 91 :: (rf_params s ++ 109 :: (rs_text s ++ rest)).
Proof.
  unfold rf_print_seg, rf_params, rf_ESC. cbn [app]. rewrite <- !app_assoc. reflexivity.
Qed.

Lemma rf_cat_D segs : rf_D segs -> forall sgr pend,
  rf_cat_go RfInText sgr pend (rf_print_D segs) = rf_flush sgr pend ++ flat_map rf_seg_slices segs.
Proof.
  induction 1 as [|s segs Hs _ IH]; intros sgr pend.
  - cbn. rewrite app_nil_r. reflexivity.
  - unfold rf_print_D. cbn [map concat]. fold (rf_print_D segs).
    rewrite rf_print_seg_shape. cbn [rf_cat_go N.eqb Pos.eqb].
    rewrite rf_cat_params by (apply rf_params_unterminated; exact Hs).
    cbn [rev app]. rewrite rf_handle_params by exact Hs.
    rewrite rf_cat_text by (apply Hs). rewrite app_nil_r. rewrite IH.
    rewrite rf_flush_rev. cbn [flat_map]. unfold rf_seg_slices. destruct (rs_text s); reflexivity.
Qed.

Lemma rf_categorise_D segs : rf_D segs -> rf_categorise (rf_print_D segs) = flat_map rf_seg_slices segs.
Proof. intros H. unfold rf_categorise. rewrite rf_cat_D by exact H. reflexivity. Qed.

(* cansi keeps ONE intensity: the last of the bold / faint codes wins *)
Fixpoint rf_intensity_after (effs : list rf_effect) (k : option N) : option N :=
  match effs with
  | [] => k
  | RfBold :: r => rf_intensity_after r (Some 1)
  | RfFaint :: r => rf_intensity_after r (Some 2)
  | _ :: r => rf_intensity_after r k
  end.

Lemma rf_eff_fold_fields effs : forall g,
  cs_fg (rf_eff_fold effs g) = cs_fg g /\ cs_bg (rf_eff_fold effs g) = cs_bg g /\
  cs_intensity (rf_eff_fold effs g) = rf_intensity_after effs (cs_intensity g) /\
  cs_italic (rf_eff_fold effs g) = if existsb (rf_effect_eqb RfItalic) effs then Some true else cs_italic g.
Proof.
  induction effs as [|e es IH]; intros g; [repeat split; reflexivity|].
  destruct (IH (rf_cansi_apply g (rf_eff_action e))) as (Hf & Hb & Hi & Ht).
  unfold rf_eff_fold in *. cbn [fold_left existsb]. rewrite Hf, Hb, Hi, Ht.
  destruct e; repeat split; try reflexivity. cbn. destruct (existsb (rf_effect_eqb RfItalic) es); reflexivity.
Qed.

Lemma rf_seg_sgr_fields s :
  cs_fg (rf_seg_sgr s) = rs_fg s /\ cs_bg (rf_seg_sgr s) = rs_bg s /\
  cs_intensity (rf_seg_sgr s) = rf_intensity_after (rs_effects s) None /\
  cs_italic (rf_seg_sgr s) = if rf_has RfItalic s then Some true else None.
Proof.
  destruct (rf_eff_fold_fields (rs_effects s) rf_sgr_default) as (Hf & Hb & Hi & Ht).
  unfold rf_seg_sgr, rf_has. destruct (rs_fg s), (rs_bg s); repeat split; assumption.
Qed.

(* create_effects sets one bit per source; a bit is what the last source writing it says *)
Lemma rf_testbit_set e j b k : k < 16 ->
  N.testbit (e_set e (N.shiftl 1 j) b) k = if k =? j then b else N.testbit e k.
Proof.
  intros Hk. rewrite N.shiftl_1_l, (N.eqb_sym k j). destruct b; cbn [e_set]; unfold e_insert, e_remove, u16_not.
  - rewrite N.lor_spec, N.pow2_bits_eqb. destruct (j =? k); [apply orb_true_r|apply orb_false_r].
  - rewrite N.land_spec, N.lnot_spec_low, N.pow2_bits_eqb by exact Hk. destruct (j =? k); [apply andb_false_r|apply andb_true_r].
Qed.

Lemma rf_create_effects_bold g :
  e_contains (rf_create_effects g) eff_bold = match cs_intensity g with Some j => j =? 1 | None => false end.
Proof.
  unfold rf_create_effects, eff_bold. rewrite contains_singleton. unfold mem. cbn [rf_effect_sources fold_left fst snd].
  rewrite !rf_testbit_set by reflexivity. reflexivity.
Qed.

Lemma rf_create_effects_italic g : e_contains (rf_create_effects g) eff_italic = rf_flag (cs_italic g).
Proof.
  unfold rf_create_effects, eff_italic. rewrite contains_singleton. unfold mem. cbn [rf_effect_sources fold_left fst snd].
  rewrite !rf_testbit_set by reflexivity. reflexivity.
Qed.

Definition rf_to_color (c : option N) : option color := match c with None => None | Some i => Some (Ansi i) end.

Lemma rf_cansi_to_anstyle_ok c : rf_color_ok c -> rf_cansi_to_anstyle c = rf_to_color c.
Proof. destruct c as [i|]; [|reflexivity]. intros H. cbn [rf_color_ok] in H. rf_cases16 H; reflexivity. Qed.

Lemma rf_bright_ok c : rf_color_ok c ->
  match rf_to_color c with Some c' => rf_is_bright c' | None => false end = rf_bright c.
Proof. destruct c as [i|]; [|reflexivity]. intros H. cbn [rf_color_ok] in H. rf_cases16 H; reflexivity. Qed.

(* the font set_effects_and_text selects *)
Definition rf_style_font (st : rf_style) : rf_font :=
  if e_contains (ry_effects st) eff_bold || rf_has_bright_fg st then RfFontBold
  else if e_contains (ry_effects st) eff_italic then RfFontItalic
  else RfFontRoman.

Definition rf_inline_of (f : rf_font) (t : list N) : rf_inline :=
  match f with RfFontBold => RfInBold t | RfFontItalic => RfInItalic t | RfFontRoman => RfInRoman t end.

Lemma rf_effects_and_text_font st t : rf_effects_and_text st t = RfText [rf_inline_of (rf_style_font st) t].
Proof.
  unfold rf_effects_and_text, rf_style_font.
  destruct (e_contains (ry_effects st) eff_bold || rf_has_bright_fg st); [reflexivity|].
  destruct (e_contains (ry_effects st) eff_italic); reflexivity.
Qed.

(* Line::render of a text line with one inline = the body of the specification *)
Lemma rf_render_text f t : rf_render_line (RfText [rf_inline_of f t]) = rf_body f t ++ [rf_NL].
Proof.
  unfold rf_render_line. f_equal. destruct f; cbn [rf_inline_of rf_render_inlines rf_body rf_font_on rf_font_off];
    rewrite rf_escape_passes, app_nil_r.
  - reflexivity.
  - reflexivity.
  - rewrite rf_escape_head_cc. cbn [andb]. unfold rf_guard. destruct t as [|c r]; [reflexivity|].
    destruct (rf_is_cc c); reflexivity.
Qed.

Definition rf_model_color_name (c : option N) : list N :=
  match c with None => rf_default_name | Some i => rf_ansi_name i end.

Lemma rf_color_name_ok c : rf_color_ok c -> rf_escape_spaces (rf_model_color_name c) = rf_color_word c.
Proof. destruct c as [i|]; [|reflexivity]. intros H. cbn [rf_color_ok] in H. rf_cases16 H; reflexivity. Qed.

Lemma rf_render_control req w : rf_render_line (RfControl req [w]) = rf_request req (rf_escape_spaces w) ++ [rf_NL].
Proof.
  unfold rf_render_line, rf_request. cbn [map concat]. rewrite app_nil_r. cbn [app]. rewrite <- app_assoc. reflexivity.
Qed.

Lemma rf_add_color_ok req c : rf_add_color req (rf_to_color c) = Some [RfControl req [rf_model_color_name c]].
Proof. destruct c; reflexivity. Qed.

Lemma rf_render_app a b : rf_render (a ++ b) = rf_render a ++ rf_render b.
Proof. unfold rf_render. rewrite map_app, concat_app. reflexivity. Qed.

Lemma rf_req_words : rf_req_fg = rf_word_gcolor /\ rf_req_bg = rf_word_fcolor.
Proof. split; reflexivity. Qed.

Definition rf_slice_doc (sl : rf_sgr * list N) : list N :=
  rf_request rf_word_gcolor (rf_color_word (cs_fg (fst sl))) ++ [rf_NL]
  ++ rf_request rf_word_fcolor (rf_color_word (cs_bg (fst sl))) ++ [rf_NL]
  ++ rf_body (rf_style_font (rf_style_of (fst sl))) (snd sl) ++ [rf_NL].

Lemma rf_doc_lines_slices slices : rf_slices_ok slices ->
  exists ls, rf_doc_lines slices = Some ls /\ rf_render ls = concat (map rf_slice_doc slices).
Proof.
  induction 1 as [|[g t] slices [Hf Hb] _ [ls [E1 E2]]]; [exists []; split; reflexivity|].
  cbn [fst] in Hf, Hb. cbn [rf_doc_lines]. unfold rf_set_color, rf_style_of at 1 2. cbn [ry_fg ry_bg].
  destruct rf_req_words as [-> ->]. rewrite !rf_cansi_to_anstyle_ok, !rf_add_color_ok, E1 by assumption.
  eexists. split; [reflexivity|]. unfold rf_render in *. cbn [app map concat]. rewrite E2.
  rewrite !rf_render_control, !rf_color_name_ok, rf_effects_and_text_font, rf_render_text by assumption.
  unfold rf_slice_doc. cbn [fst snd]. rewrite <- !app_assoc. reflexivity.
Qed.

Theorem rf_to_roff_slices input : rf_to_roff input = Some (concat (map rf_slice_doc (rf_categorise input))).
Proof.
  unfold rf_to_roff. destruct (rf_doc_lines_slices _ (rf_categorise_ok input)) as [ls [E1 E2]]. rewrite E1, E2. reflexivity.
Qed.

Lemma rf_to_roff_total input : exists doc, rf_to_roff input = Some doc.
Proof. eexists. apply rf_to_roff_slices. Qed.

Lemma rf_base_name_mod i : rf_base_name i = rf_base_name (i mod 8).
Proof. unfold rf_base_name. rewrite N.mod_mod by discriminate. reflexivity. Qed.

Lemma rf_color_word_in c : In (rf_color_word c) rf_color_words.
Proof.
  destruct c as [i|]; [right|left; reflexivity]. cbn [rf_color_word]. rewrite rf_base_name_mod.
  apply in_map, (range_from_In 8 0). split; [apply N.le_0_l|apply N.mod_lt; discriminate].
Qed.

Lemma rf_request_allowed_g c : In (rf_request rf_word_gcolor (rf_color_word c)) rf_allowed_requests.
Proof. apply in_or_app. left. apply in_map, rf_color_word_in. Qed.

Lemma rf_request_allowed_f c : In (rf_request rf_word_fcolor (rf_color_word c)) rf_allowed_requests.
Proof. apply in_or_app. right. apply in_map, rf_color_word_in. Qed.

Lemma rf_allowed_one_line : Forall (fun w => rf_lines (w ++ [rf_NL]) = [w]) rf_allowed_requests.
Proof. repeat constructor. Qed.

Lemma rf_request_line w y : In w rf_allowed_requests -> rf_lines (w ++ rf_NL :: y) = w :: rf_lines y.
Proof. intros Hw. rewrite rf_lines_app, (proj1 (Forall_forall _ _) rf_allowed_one_line w Hw). reflexivity. Qed.

Lemma rf_slice_doc_lines sl rest :
  rf_lines (rf_slice_doc sl ++ rest) =
  rf_request rf_word_gcolor (rf_color_word (cs_fg (fst sl))) :: rf_request rf_word_fcolor (rf_color_word (cs_bg (fst sl)))
  :: rf_lines (rf_body (rf_style_font (rf_style_of (fst sl))) (snd sl) ++ [rf_NL]) ++ rf_lines rest.
Proof.
  unfold rf_slice_doc. rewrite <- !app_assoc. cbn [app].
  rewrite (rf_request_line _ _ (rf_request_allowed_g _)), (rf_request_line _ _ (rf_request_allowed_f _)), rf_lines_app.
  reflexivity.
Qed.

Lemma rf_no_injected_request input doc : rf_to_roff input = Some doc ->
  forall l, In l (rf_lines doc) -> rf_is_request_line l = true -> In l rf_allowed_requests.
Proof.
  rewrite rf_to_roff_slices. intros H. injection H as <-. intros l Hl Hr.
  induction (rf_categorise input) as [|sl slices IH]; [destruct Hl|].
  cbn [map concat] in Hl. rewrite rf_slice_doc_lines in Hl.
  destruct Hl as [<-|[<-|Hl]]; [apply rf_request_allowed_g|apply rf_request_allowed_f|].
  apply in_app_or in Hl as [Hl|Hl]; [|exact (IH Hl)].
  pose proof (proj1 (Forall_forall _ _) (rf_body_lines_nonreq _ _) l Hl) as Hn.
  unfold rf_nonreq in Hn. rewrite Hn in Hr. discriminate.
Qed.

Lemma rf_doc_text_slices slices :
  rf_doc_text (concat (map rf_slice_doc slices)) = concat (map (fun sl => snd sl ++ [rf_NL]) slices).
Proof.
  unfold rf_doc_text, rf_unescape_roff. induction slices as [|sl slices IH]; [reflexivity|].
  cbn [map concat]. rewrite rf_slice_doc_lines. cbn [filter rf_request rf_is_request_line rf_is_cc N.eqb Pos.eqb orb negb].
  rewrite filter_app, (rf_filter_nonreq _ (rf_body_lines_nonreq _ _)), map_app, concat_app, rf_lines_rejoin.
  rewrite <- !app_assoc, rf_unescape_body. cbn [app rf_unescape_from]. rewrite IH. reflexivity.
Qed.

(* the font cansi + set_effects_and_text arrive at *)
Definition rf_cansi_bold (s : rf_seg) : bool :=
  match rf_intensity_after (rs_effects s) None with Some k => k =? 1 | None => false end.

Definition rf_cansi_font (s : rf_seg) : rf_font :=
  if rf_cansi_bold s || rf_bright (rs_fg s) then RfFontBold
  else if rf_has RfItalic s then RfFontItalic
  else RfFontRoman.

Lemma rf_style_font_seg s : rf_seg_ok s -> rf_style_font (rf_style_of (rf_seg_sgr s)) = rf_cansi_font s.
Proof.
  intros [Hfg _]. destruct (rf_seg_sgr_fields s) as (Ef & _ & Ei & Et).
  unfold rf_style_font, rf_has_bright_fg, rf_style_of. cbn [ry_effects ry_fg].
  rewrite rf_create_effects_bold, rf_create_effects_italic, Ef, Ei, Et, rf_cansi_to_anstyle_ok, rf_bright_ok by exact Hfg.
  unfold rf_cansi_font, rf_cansi_bold. destruct (rf_has RfItalic s); reflexivity.
Qed.

Definition rf_cansi_doc (segs : list rf_seg) : list N :=
  concat (map (fun s => rf_seg_doc_in (rf_cansi_font s) s) segs).

Lemma rf_seg_slice_doc s : rf_seg_ok s ->
  concat (map rf_slice_doc (rf_seg_slices s)) = rf_seg_doc_in (rf_cansi_font s) s.
Proof.
  intros Hs. unfold rf_seg_slices, rf_seg_doc_in. destruct (rs_text s) as [|c r]; [reflexivity|].
  cbn [map concat]. rewrite app_nil_r. unfold rf_slice_doc. cbn [fst snd].
  destruct (rf_seg_sgr_fields s) as (Ef & Eb & _). rewrite Ef, Eb, (rf_style_font_seg s Hs). reflexivity.
Qed.

Lemma rf_to_roff_D segs : rf_D segs -> rf_to_roff (rf_print_D segs) = Some (rf_cansi_doc segs).
Proof.
  intros HD. rewrite rf_to_roff_slices, rf_categorise_D by exact HD. f_equal.
  induction HD as [|s segs Hs _ IH]; [reflexivity|].
  cbn [flat_map]. rewrite map_app, concat_app, IH, (rf_seg_slice_doc s Hs). reflexivity.
Qed.

(* outside the recorded class (bold and faint together) [rf_cansi_font] is the font of the specification: when only one
   of the two codes occurs it decides (the code of bold / faint is cansi's number of the intensity) *)
Lemma rf_intensity_one e o effs : (e, o) = (RfBold, RfFaint) \/ (e, o) = (RfFaint, RfBold) ->
  existsb (rf_effect_eqb o) effs = false -> forall k,
  rf_intensity_after effs k = if existsb (rf_effect_eqb e) effs then Some (rf_effect_code e) else k.
Proof.
  intros Heo. induction effs as [|x es IH]; intros H k; [reflexivity|].
  cbn [existsb] in H. apply orb_false_iff in H as [H1 H2].
  destruct Heo as [E|E]; injection E as -> ->;
    destruct x; cbn [rf_intensity_after existsb]; try discriminate; rewrite (IH H2); cbn; try reflexivity.
  - destruct (existsb (rf_effect_eqb RfBold) es); reflexivity.
  - destruct (existsb (rf_effect_eqb RfFaint) es); reflexivity.
Qed.

Lemma rf_cansi_font_ok s : rf_bold_and_faint s = false -> rf_cansi_font s = rf_seg_font s.
Proof.
  unfold rf_bold_and_faint, rf_cansi_font, rf_seg_font, rf_cansi_bold, rf_has. intros H.
  apply andb_false_iff in H as [H|H].
  - rewrite (rf_intensity_one RfFaint RfBold _ (or_intror eq_refl) H), H.
    destruct (existsb (rf_effect_eqb RfFaint) (rs_effects s)); reflexivity.
  - rewrite (rf_intensity_one RfBold RfFaint _ (or_introl eq_refl) H).
    destruct (existsb (rf_effect_eqb RfBold) (rs_effects s)); reflexivity.
Qed.

Lemma rf_document_shape segs : rf_D segs -> Forall (fun s => rf_bold_and_faint s = false) segs ->
  rf_to_roff (rf_print_D segs) = Some (rf_spec_doc segs).
Proof.
  intros HD Hk. rewrite rf_to_roff_D by exact HD. apply (f_equal Some), (f_equal (@concat N)), map_ext_Forall.
  revert Hk. apply Forall_impl. intros s Hs. unfold rf_seg_doc. rewrite (rf_cansi_font_ok s Hs). reflexivity.
Qed.

Lemma rf_text_survives segs : rf_D segs ->
  exists doc, rf_to_roff (rf_print_D segs) = Some doc /\ rf_doc_text doc = rf_visible_text segs.
Proof.
  intros HD. eexists. split; [apply rf_to_roff_slices|].
  rewrite rf_doc_text_slices, rf_categorise_D by exact HD. clear HD. unfold rf_visible_text.
  induction segs as [|s segs IH]; [reflexivity|].
  cbn [flat_map map concat]. rewrite map_app, concat_app, IH. f_equal.
  unfold rf_seg_slices, rf_seg_visible. destruct (rs_text s); [reflexivity|apply app_nil_r].
Qed.

(* F15-1  ESC[1m ESC[31m hi : the general expectation is bold red; cansi starts every sequence
   from the default, the bold of the first sequence is lost *)
Definition rf_witness_accumulation : list N := [27; 91; 49; 109; 27; 91; 51; 49; 109; 104; 105].

(* .gcolor red / .fcolor default / hi           (roman) *)
Definition rf_doc_accumulation_model : list N :=
  [46; 103; 99; 111; 108; 111; 114; 32; 114; 101; 100; 10;
   46; 102; 99; 111; 108; 111; 114; 32; 100; 101; 102; 97; 117; 108; 116; 10;
   104; 105; 10].
(* .gcolor red / .fcolor default / \fBhi\fR *)
Definition rf_doc_accumulation_expected : list N :=
  [46; 103; 99; 111; 108; 111; 114; 32; 114; 101; 100; 10;
   46; 102; 99; 111; 108; 111; 114; 32; 100; 101; 102; 97; 117; 108; 116; 10;
   92; 102; 66; 104; 105; 92; 102; 82; 10].

Lemma rf_accumulation_refuted :
  exists input, input = rf_witness_accumulation /\
    rf_to_roff input = Some rf_doc_accumulation_model /\
    rf_general_doc input = Some rf_doc_accumulation_expected /\
    rf_doc_accumulation_model <> rf_doc_accumulation_expected.
Proof.
  exists rf_witness_accumulation. split; [reflexivity|]. split; [vm_compute; reflexivity|]. split; [vm_compute; reflexivity|discriminate].
Qed.

(* F15-2  ESC[38;5;196m X : colour 196 of the 256-colour palette is #ff0000; cansi does not know
   the 38;5;n form (38, 5 and 196 are three unknown codes) *)
Definition rf_witness_extended : list N := [27; 91; 51; 56; 59; 53; 59; 49; 57; 54; 109; 88].

(* .gcolor default / .fcolor default / X *)
Definition rf_doc_extended_model : list N :=
  [46; 103; 99; 111; 108; 111; 114; 32; 100; 101; 102; 97; 117; 108; 116; 10;
   46; 102; 99; 111; 108; 111; 114; 32; 100; 101; 102; 97; 117; 108; 116; 10;
   88; 10].
(* .defcolor hex_#ff0000 rgb #ff0000 / .gcolor hex_#ff0000 / .fcolor default / X *)
Definition rf_doc_extended_expected : list N :=
  [46; 100; 101; 102; 99; 111; 108; 111; 114; 32; 104; 101; 120; 95; 35; 102; 102; 48; 48; 48; 48; 32; 114; 103; 98; 32; 35; 102; 102; 48; 48; 48; 48; 10;
   46; 103; 99; 111; 108; 111; 114; 32; 104; 101; 120; 95; 35; 102; 102; 48; 48; 48; 48; 10;
   46; 102; 99; 111; 108; 111; 114; 32; 100; 101; 102; 97; 117; 108; 116; 10;
   88; 10].

Lemma rf_extended_colours_refuted :
  exists input, input = rf_witness_extended /\
    rf_to_roff input = Some rf_doc_extended_model /\
    rf_general_doc input = Some rf_doc_extended_expected /\
    rf_doc_extended_model <> rf_doc_extended_expected.
Proof.
  exists rf_witness_extended. split; [reflexivity|]. split; [vm_compute; reflexivity|]. split; [vm_compute; reflexivity|discriminate].
Qed.

(* F15-3  ESC[0;1;2m X, a member of D: bold and faint together; cansi keeps the last intensity.  The document is
   that of F15-2: default colours, X in roman *)
Definition rf_witness_bold_faint : list rf_seg := [mkRfSeg [RfBold; RfFaint] None None [88]].

Lemma rf_bold_faint_refuted :
  exists segs, segs = rf_witness_bold_faint /\ rf_D segs /\
    rf_print_D segs = [27; 91; 48; 59; 49; 59; 50; 109; 88] /\
    rf_to_roff (rf_print_D segs) = Some rf_doc_extended_model /\
    rf_to_roff (rf_print_D segs) <> Some (rf_spec_doc segs).
Proof.
  exists rf_witness_bold_faint. split; [reflexivity|]. split.
  - constructor; [|constructor]. split; [exact I|]. split; [exact I|]. cbn. intros [H|[]]. discriminate.
  - split; [vm_compute; reflexivity|]. split; [vm_compute; reflexivity|]. vm_compute. discriminate.
Qed.

(* add_color_to_roff on its own: its Rgb / Ansi256 arms are not reachable through to_roff *)
Lemma rf_hex_digit_eq d : rf_hex_digit_lc d = rf_hex_digit d.
Proof. unfold rf_hex_digit_lc, rf_hex_digit. destruct (d <? 10) eqn:E; [reflexivity|]. apply N.ltb_ge in E. lia. Qed.

Lemma rf_hex_digit_neqb d : (32 =? rf_hex_digit d) = false.
Proof. apply N.eqb_neq. unfold rf_hex_digit. destruct (d <? 10); lia. Qed.

Lemma rf_hex_fixed_step k v x : x < 16 ->
  rf_hex_fixed (S k) (v * 16 + x) = rf_hex_fixed k v ++ [rf_hex_digit_lc x].
Proof.
  intros Hx. cbn [rf_hex_fixed].
  assert (E1 : (v * 16 + x) / 16 = v) by (symmetry; apply (N.div_unique _ 16 v x); lia).
  assert (E2 : (v * 16 + x) mod 16 = x) by (symmetry; apply (N.mod_unique _ 16 v x); lia).
  rewrite E1, E2. reflexivity.
Qed.

Lemma rf_hex_fixed_byte k v x : x < 256 -> rf_hex_fixed (S (S k)) (v * 256 + x) = rf_hex_fixed k v ++ rf_hex2 x.
Proof.
  intros Hx. unfold rf_hex2. rewrite <- !rf_hex_digit_eq.
  assert (Hq : x / 16 < 16) by (apply N.div_lt_upper_bound; lia).
  assert (Hr : x mod 16 < 16) by (apply N.mod_lt; discriminate).
  pose proof (N.div_mod x 16 ltac:(discriminate)) as E. revert Hq Hr E. generalize (x / 16) (x mod 16). intros q r Hq Hr E.
  replace (v * 256 + x) with ((v * 16 + q) * 16 + r) by lia.
  rewrite !rf_hex_fixed_step, <- app_assoc by assumption. reflexivity.
Qed.

Lemma rf_to_hex_ok r g b : r < 256 -> g < 256 -> b < 256 -> rf_to_hex (r, g, b) = rf_hex_value (r, g, b).
Proof.
  intros Hr Hg Hb. unfold rf_to_hex, rf_hex_value, rf_fmt_lower_hex.
  change rf_hex_prefix with [35]. change rf_hex_width with 6%nat. cbn [app]. f_equal.
  rewrite !N.shiftl_mul_pow2. change (2 ^ 16) with 65536. change (2 ^ 8) with 256.
  change (16 ^ N.of_nat 6) with 16777216.
  replace (r * 65536 + g * 256 + b <? 16777216) with true by (symmetry; apply N.ltb_lt; lia).
  replace (r * 65536 + g * 256 + b) with (((0 * 256 + r) * 256 + g) * 256 + b) by lia.
  rewrite !rf_hex_fixed_byte by assumption. reflexivity.
Qed.

Lemma rf_hex_value_nospace c :
  existsb (N.eqb 32) (rf_hex_value c) = false /\ existsb (N.eqb 32) (rf_hex_name c) = false.
Proof.
  destruct c as [[r g] b].
  assert (H : existsb (N.eqb 32) (rf_hex_value (r, g, b)) = false)
    by (unfold rf_hex_value, rf_hex2; cbn [app existsb]; rewrite !rf_hex_digit_neqb; reflexivity).
  split; [exact H|]. unfold rf_hex_name. cbn [app existsb]. cbn [N.eqb Pos.eqb orb]. exact H.
Qed.

Lemma rf_rgb_branch req c : rgb_ok c -> rf_color_requests req (Some (Rgb c)) = Some (rf_rgb_requests req c).
Proof.
  destruct c as [[r g] b]. intros (Hr & Hg & Hb). unfold rf_color_requests, rf_add_color, rf_add_color_direct. f_equal.
  unfold rf_rgb_name. rewrite rf_to_hex_ok by assumption.
  destruct (rf_hex_value_nospace (r, g, b)) as [N1 N2].
  change (rf_rgb_name_prefix ++ rf_hex_value (r, g, b)) with (rf_hex_name (r, g, b)).
  unfold rf_render. cbn [map concat rf_render_line]. unfold rf_escape_spaces. rewrite N1, N2.
  change (existsb (N.eqb 32) rf_rgb_word) with false. cbn iota.
  unfold rf_rgb_requests, rf_request.
  change rf_req_defcolor with rf_word_defcolor. change rf_rgb_word with rf_word_rgb. unfold rf_NL.
  rewrite app_nil_r. cbn [app]. rewrite <- !app_assoc. cbn [app]. reflexivity.
Qed.

Lemma rf_ansi_branch req a : a < 16 ->
  rf_color_requests req (Some (Ansi a)) = Some (rf_gen_color_requests req (Some (TAnsi a))).
Proof.
  intros Ha. unfold rf_color_requests, rf_add_color, rf_add_color_direct, rf_render. cbn [map concat]. rewrite app_nil_r.
  rewrite rf_render_control. change (rf_ansi_name a) with (rf_model_color_name (Some a)).
  rewrite (rf_color_name_ok (Some a) Ha). reflexivity.
Qed.

Lemma rf_xterm_cases i : i < 256 ->
  rf_xterm_to_ansi_or_rgb i = Some (if i <? 16 then Ansi i else Rgb (xterm_fixed i)).
Proof.
  intros Hi. unfold rf_xterm_to_ansi_or_rgb. destruct (N.ltb_spec i 16) as [Hlo|Hhi].
  - rewrite (into_ansi_low i Hlo). reflexivity.
  - unfold into_ansi. rewrite (assoc_keys_below into_ansi_arms 16 i eq_refl Hhi).
    rewrite (proj1 (high_indices_rgb vga i (proj1 shipped_palettes_ok) (conj Hhi Hi))). reflexivity.
Qed.

Lemma rf_ansi256_branch req i : i < 256 ->
  rf_color_requests req (Some (Ansi256 i)) = Some (rf_gen_color_requests req (Some (TAnsi256 i))).
Proof.
  intros Hi. unfold rf_color_requests, rf_add_color. cbn [rf_gen_color_requests]. rewrite (rf_xterm_cases i Hi).
  destruct (N.ltb_spec i 16) as [Hlo|Hhi].
  - exact (rf_ansi_branch req i Hlo).
  - exact (rf_rgb_branch req _ (xterm_fixed_ok i (conj Hhi Hi))).
Qed.

Lemma rf_rgb_branch_correct req c :
  match c with
  | Rgb (r, g, b) => r < 256 /\ g < 256 /\ b < 256
  | Ansi256 i => i < 256
  | Ansi a => a < 16
  end ->
  rf_color_requests req (Some c) = Some (rf_gen_color_requests req (Some (rf_tcolor_of c))).
Proof.
  destruct c as [a|i|[[r g] b]]; cbn [rf_tcolor_of].
  - apply rf_ansi_branch.
  - apply rf_ansi256_branch.
  - exact (rf_rgb_branch req (r, g, b)).
Qed.
