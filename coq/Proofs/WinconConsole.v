(* Proofs/WinconConsole.v -- the legacy-console stream (Model/WinconStream:
   write / write_all / write_vectored / write_fmt over a scripted console writer)
   hands every styled run of the extractor to the console exactly once, in order,
   with 16-colour fg/bg; short writes are completed, errors are reported (C18). *)
From Coq Require Import NArith List Bool Lia Arith.
From AV Require Import Generated.Table Spec.Utf8 Spec.Vt Spec.Sgr Spec.Io Model.Base Model.Utf8parse
  Model.Parser Model.Strip Model.Wincon Model.Stream Model.WinconStream
  Proofs.TableFacts Proofs.VtFacts Proofs.ParserSim Proofs.VtCancel Proofs.WinconRuns Proofs.WinconSpecRuns.
Import ListNotations.
Local Open Scope N_scope.

(* the parser of the stream is related to a state of the specification machine by
   C02's simulation relation [R]; ws_new is such a state and every operation keeps it *)
Definition ws_wf (s : wstream) : Prop := exists v, R (ws_parser s) v.

Lemma ws_new_wf : ws_wf ws_new.
Proof. exists vt_init. exact R_init. Qed.

Definition run_call (r : sstyle * list N) : ccall :=
  let '(style, txt) := r in
  mkCC (cap_opt (s_fg style)) (cap_opt (s_bg style)) (str_bytes txt)
       (inl (N.of_nat (length (str_bytes txt)))).

Definition cc_accepted (cc : ccall) : list N :=
  match cc_res cc with inl n => firstn (N.to_nat n) (cc_data cc) | inr _ => [] end.
Definition accepted (calls : list ccall) : list N := flat_map cc_accepted calls.
Definition accepted_col (calls : list ccall) : list (option N * option N * N) :=
  flat_map (fun cc => map (fun b => (cc_fg cc, cc_bg cc, b)) (cc_accepted cc)) calls.

Definition run_col (r : sstyle * list N) : list (option N * option N * N) :=
  let '(style, txt) := r in
  map (fun b => (cap_opt (s_fg style), cap_opt (s_bg style), b)) (str_bytes txt).
Definition runs_col (rs : list (sstyle * list N)) : list (option N * option N * N) :=
  flat_map run_col rs.
Definition runs_bytes (rs : list (sstyle * list N)) : list N :=
  flat_map (fun r => str_bytes (snd r)) rs.

(* the error [k] comes from the last call: a kind the console produced (other than
   Interrupted, which is retried) or WriteZero after the console accepted 0 bytes *)
Definition err_from (new : list ccall) (k : ekind) : Prop :=
  exists pre last, new = pre ++ [last] /\
    ((cc_res last = inr k /\ k <> Interrupted) \/ (cc_res last = inl 0 /\ k = WriteZero)).

Definition res_of (r : unit + ekind) : sres := match r with inl _ => ROk | inr e => RErr e end.

Lemma accepted_app a b : accepted (a ++ b) = accepted a ++ accepted b.
Proof. unfold accepted. apply flat_map_app. Qed.
Lemma accepted_col_app a b : accepted_col (a ++ b) = accepted_col a ++ accepted_col b.
Proof. unfold accepted_col. apply flat_map_app. Qed.

Lemma accepted_col_bytes : forall calls, map snd (accepted_col calls) = accepted calls.
Proof.
  induction calls as [|cc calls IH]; [reflexivity|].
  unfold accepted_col, accepted in *. cbn [flat_map]. rewrite map_app, IH. f_equal.
  rewrite map_map. cbn [snd]. apply map_id.
Qed.

Lemma runs_col_bytes : forall rs, map snd (runs_col rs) = runs_bytes rs.
Proof.
  induction rs as [|[s t] rs IH]; [reflexivity|].
  unfold runs_col, runs_bytes in *. cbn [flat_map]. rewrite map_app, IH. f_equal.
  cbn [run_col snd]. rewrite map_map. cbn [snd]. apply map_id.
Qed.

Lemma accepted_col_uniform : forall calls fg bg,
  Forall (fun cc => cc_fg cc = fg /\ cc_bg cc = bg) calls ->
  accepted_col calls = map (fun b => (fg, bg, b)) (accepted calls).
Proof.
  induction calls as [|cc calls IH]; intros fg bg H; [reflexivity|].
  inversion H as [|? ? [A B] Hr]; subst.
  unfold accepted_col, accepted in *. cbn [flat_map]. rewrite map_app, (IH _ _ Hr). reflexivity.
Qed.

Lemma cap_colour :
  (forall a, cap_wincon_color (CAnsi a) = Some a) /\
  (forall i, i < 16 -> cap_wincon_color (CIdx i) = Some i) /\
  (forall i, 16 <= i -> cap_wincon_color (CIdx i) = None) /\
  (forall r g b, cap_wincon_color (CRgb r g b) = None).
Proof.
  split; [reflexivity|]. split; [|split; [|reflexivity]].
  - intros i H. cbn [cap_wincon_color]. apply N.ltb_lt in H. rewrite H. reflexivity.
  - intros i H. cbn [cap_wincon_color]. apply N.ltb_ge in H. rewrite H. reflexivity.
Qed.

Lemma run_loop_nil : forall f c fg bg, wc_run_loop f c fg bg [] = (c, inl tt).
Proof. intros [|f] c fg bg; reflexivity. Qed.

Lemma utf8_encode_nonempty : forall cp, utf8_encode cp <> [].
Proof.
  intros cp. unfold utf8_encode.
  destruct (cp <? 128); [discriminate|]. destruct (cp <? 2048); [discriminate|].
  destruct (cp <? 65536); discriminate.
Qed.

Lemma str_bytes_nonempty : forall txt, txt <> [] -> str_bytes txt <> [].
Proof.
  intros [|cp txt] H; [congruence|]. unfold str_bytes. cbn [flat_map].
  pose proof (utf8_encode_nonempty cp) as Hn. destruct (utf8_encode cp); [congruence | discriminate].
Qed.

Lemma run_loop_accept_all : forall f c fg bg data,
  con_script c = [] -> data <> [] ->
  wc_run_loop (S f) c fg bg data
  = (mkCon [] (con_calls c ++ [mkCC fg bg data (inl (N.of_nat (length data)))]) (con_flushes c), inl tt).
Proof.
  intros f c fg bg data Hs Hd. destruct data as [|d ds]; [congruence|].
  cbn [wc_run_loop]. unfold con_write_colored. rewrite Hs.
  destruct (N.of_nat (length (d :: ds))) as [|pn] eqn:E.
  { cbn [length] in E. lia. }
  rewrite <- E, Nat2N.id, skipn_all, run_loop_nil. reflexivity.
Qed.

Lemma firstn_to_nat_min : forall (n : N) (buf : list N),
  firstn (N.to_nat (N.min n (N.of_nat (length buf)))) buf = firstn (N.to_nat n) buf.
Proof.
  intros n buf. destruct (N.min_spec n (N.of_nat (length buf))) as [[A ->] | [A ->]]; [reflexivity|].
  rewrite Nat2N.id, firstn_all. symmetry. apply firstn_all2. lia.
Qed.

Definition run_post (c : console) (fg bg : option N) (buf : list N) (x : console * (unit + ekind)) : Prop :=
  exists new,
    con_calls (fst x) = con_calls c ++ new /\
    con_flushes (fst x) = con_flushes c /\
    (length (con_script (fst x)) <= length (con_script c))%nat /\
    Forall (fun cc => cc_fg cc = fg /\ cc_bg cc = bg /\ exists pre, buf = pre ++ cc_data cc) new /\
    match snd x with
    | inl _ => accepted new = buf
    | inr k => (exists rest, accepted new ++ rest = buf) /\ err_from new k
    end.

Definition called (c : console) (rest : list resp) (cc : ccall) : console :=
  mkCon rest (con_calls c ++ [cc]) (con_flushes c).

Lemma run_post_stop c rest fg bg buf res k :
  (length rest <= length (con_script c))%nat ->
  (res = inr k /\ k <> Interrupted) \/ (res = inl 0 /\ k = WriteZero) ->
  run_post c fg bg buf (called c rest (mkCC fg bg buf res), inr k).
Proof.
  intros Hl Hres. exists [mkCC fg bg buf res]. cbn [fst snd called con_calls con_flushes con_script].
  repeat split; auto.
  - constructor; [|constructor]. cbn. repeat split. exists []. reflexivity.
  - exists buf. destruct Hres as [[-> _]|[-> _]]; reflexivity.
  - exists [], (mkCC fg bg buf res). split; [reflexivity | exact Hres].
Qed.

Lemma run_post_step c rest fg bg buf res j x :
  (length rest <= length (con_script c))%nat ->
  cc_accepted (mkCC fg bg buf res) = firstn j buf ->
  run_post (called c rest (mkCC fg bg buf res)) fg bg (skipn j buf) x ->
  run_post c fg bg buf x.
Proof.
  intros Hl Hacc (new & A & B & C & D & E). exists (mkCC fg bg buf res :: new).
  cbn [called con_calls con_flushes con_script] in A, B, C.
  split; [rewrite A, <- app_assoc; reflexivity|].
  split; [exact B|].
  split; [lia|].
  split.
  { (* every call carries the colours and a suffix of [buf] *)
    constructor.
    - cbn. repeat split. exists []. reflexivity.
    - eapply Forall_impl; [|exact D]. cbv beta. intros cc (F1 & F2 & pre & F3).
      repeat split; auto. exists (firstn j buf ++ pre). rewrite <- app_assoc, <- F3, firstn_skipn. reflexivity. }
  change (accepted (mkCC fg bg buf res :: new)) with (cc_accepted (mkCC fg bg buf res) ++ accepted new).
  rewrite Hacc. destruct (snd x) as [u|k].
  - rewrite E, firstn_skipn. reflexivity.
  - destruct E as [[rs E1] (pre & last & E2 & E3)]. split.
    + exists rs. rewrite <- app_assoc, E1, firstn_skipn. reflexivity.
    + exists (mkCC fg bg buf res :: pre), last. rewrite E2. split; [reflexivity | exact E3].
Qed.

Lemma con_write_called c fg bg buf :
  exists rest res,
    con_write_colored c fg bg buf = (called c rest (mkCC fg bg buf res), res) /\
    ((length rest < length (con_script c))%nat \/ (con_script c = [] /\ rest = [] /\ res = inl (N.of_nat (length buf)))).
Proof.
  unfold con_write_colored, called. destruct (con_script c) as [|[n|e] rest]; do 2 eexists; (split; [reflexivity|]).
  - right. auto.
  - left. cbn. lia.
  - left. cbn. lia.
Qed.

Lemma run_loop_post : forall fuel c fg bg buf,
  buf = [] \/ (length (con_script c) < fuel)%nat -> run_post c fg bg buf (wc_run_loop fuel c fg bg buf).
Proof.
  induction fuel as [|f IH]; intros c fg bg buf Hf.
  all: destruct buf as [|d ds];
    [rewrite run_loop_nil; exists []; cbn [fst snd]; rewrite app_nil_r; repeat split; auto|].
  { destruct Hf; [discriminate|lia]. }
  destruct Hf as [Hf|Hf]; [discriminate|].
  cbn [wc_run_loop]. set (buf := d :: ds).
  destruct (con_write_called c fg bg buf) as (rest & res & -> & Hrest).
  assert (Hle : (length rest <= length (con_script c))%nat) by (destruct Hrest as [?|(-> & -> & _)]; lia).
  destruct res as [[|pn]|e].
  - apply run_post_stop; auto.
  - apply (run_post_step c rest fg bg buf (inl (N.pos pn)) (N.to_nat (N.pos pn)) _ Hle eq_refl). apply IH.
    destruct Hrest as [?|(_ & _ & E)]; [right; cbn; lia | left].
    replace (N.pos pn) with (N.of_nat (length buf)) by congruence. rewrite Nat2N.id. apply skipn_all.
  - assert (Hstop : e <> Interrupted -> run_post c fg bg buf (called c rest (mkCC fg bg buf (inr e)), inr e)).
    { intros He. apply run_post_stop; auto. }
    destruct e; try (apply Hstop; discriminate).
    apply (run_post_step c rest fg bg buf (inr Interrupted) 0 _ Hle eq_refl). apply IH. right.
    destruct Hrest as [?|(_ & _ & E)]; [cbn; lia | discriminate E].
Qed.

Lemma run_loop_spec : forall fuel c fg bg buf,
  (length (con_script c) < fuel)%nat -> run_post c fg bg buf (wc_run_loop fuel c fg bg buf).
Proof. intros fuel c fg bg buf Hf. apply run_loop_post. right. exact Hf. Qed.

Fixpoint feed_runs (runs : list (sstyle * list N)) (c : console) : console * (unit + ekind) :=
  match runs with
  | [] => (c, inl tt)
  | (style, txt) :: rest =>
      let data := str_bytes txt in
      let '(c1, r) := wc_run_loop (S (length (con_script c) + length data)) c
                        (cap_opt (s_fg style)) (cap_opt (s_bg style)) data in
      match r with
      | inl _ => feed_runs rest c1
      | inr e => (c1, inr e)
      end
  end.

(* the loop of write_all is lazy: on an error the extractor stops where it is, so the
   final stream state is known only on success *)
Lemma write_all_loop_feed : forall fuel bs p cap its p' cap' c,
  wincon_iter fuel bs p cap = Some (its, p', cap') ->
  exists s1,
    wc_write_all_loop fuel bs p cap c
      = Some (s1, fst (feed_runs its c), res_of (snd (feed_runs its c))) /\
    (forall u, snd (feed_runs its c) = inl u -> s1 = mkWS p' cap').
Proof.
  induction fuel as [|f IH]; intros bs p cap its p' cap' c H; [discriminate H|].
  cbn [wincon_iter wc_write_all_loop] in *.
  destruct (wincon_next bs p cap) as [[[[item bs1] p1] cap1]|]; [|discriminate H].
  destruct item as [[style txt]|].
  - destruct (wincon_iter f bs1 p1 cap1) as [[[its' p2] c2]|] eqn:E; [|discriminate H].
    inversion H; subst. cbn [feed_runs].
    destruct (wc_run_loop (S (length (con_script c) + length (str_bytes txt))) c
                (cap_opt (s_fg style)) (cap_opt (s_bg style)) (str_bytes txt)) as [c1 r].
    destruct r as [u|e].
    + apply (IH bs1 p1 cap1 its' p' cap' c1 E).
    + cbn [fst snd res_of]. eexists. split; [reflexivity|]. intros u Hu. discriminate Hu.
  - inversion H; subst. cbn [feed_runs fst snd res_of]. eexists. split; [reflexivity|]. reflexivity.
Qed.

Lemma feed_runs_accept_all : forall its c,
  con_script c = [] -> Forall (fun r => snd r <> []) its ->
  feed_runs its c = (mkCon [] (con_calls c ++ map run_call its) (con_flushes c), inl tt).
Proof.
  induction its as [|[style txt] its IH]; intros c Hs Hall.
  - cbn [feed_runs map]. rewrite app_nil_r. destruct c; cbn in *; subst; reflexivity.
  - inversion Hall as [|? ? Ht Hr]; subst. cbn [snd] in Ht.
    cbn [feed_runs]. rewrite Hs at 1. cbn [length plus].
    rewrite (run_loop_accept_all _ c _ _ _ Hs (str_bytes_nonempty txt Ht)).
    rewrite IH; [|reflexivity | exact Hr]. cbn [con_calls con_flushes map run_call].
    rewrite <- app_assoc. reflexivity.
Qed.

Definition from_run (r : sstyle * list N) (cc : ccall) : Prop :=
  cc_fg cc = cap_opt (s_fg (fst r)) /\ cc_bg cc = cap_opt (s_bg (fst r)) /\
  exists pre, str_bytes (snd r) = pre ++ cc_data cc.

Lemma feed_runs_spec : forall its c,
  exists new,
    con_calls (fst (feed_runs its c)) = con_calls c ++ new /\
    con_flushes (fst (feed_runs its c)) = con_flushes c /\
    Forall (fun cc => exists r, In r its /\ from_run r cc) new /\
    match snd (feed_runs its c) with
    | inl _ => accepted_col new = runs_col its
    | inr k => (exists rest, accepted_col new ++ rest = runs_col its) /\ err_from new k
    end.
Proof.
  induction its as [|[style txt] its IH]; intros c.
  - exists []. cbn [feed_runs fst snd]. rewrite app_nil_r. repeat split; auto.
  - cbn [feed_runs].
    destruct (run_loop_spec (S (length (con_script c) + length (str_bytes txt))) c
                (cap_opt (s_fg style)) (cap_opt (s_bg style)) (str_bytes txt)) as (new1 & A & B & _ & D & E);
      [lia|].
    destruct (wc_run_loop _ c _ _ (str_bytes txt)) as [c1 r]. cbn [fst snd] in A, B, E.
    assert (Hcol : accepted_col new1 = map (fun b => (cap_opt (s_fg style), cap_opt (s_bg style), b)) (accepted new1)).
    { apply accepted_col_uniform. eapply Forall_impl; [|exact D]. cbv beta. tauto. }
    assert (D' : Forall (fun cc => exists r, In r ((style, txt) :: its) /\ from_run r cc) new1).
    { eapply Forall_impl; [|exact D]. intros cc H. exists (style, txt). split; [left; reflexivity | exact H]. }
    change (runs_col ((style, txt) :: its)) with (run_col (style, txt) ++ runs_col its). cbn [run_col].
    destruct r as [u|e].
    + destruct (IH c1) as (new2 & A2 & B2 & D2 & E2).
      exists (new1 ++ new2). split; [rewrite A2, A, <- app_assoc; reflexivity|].
      split; [congruence|]. split.
      { apply Forall_app. split; [exact D'|]. eapply Forall_impl; [|exact D2].
        intros cc (r & Hin & H). exists r. split; [right; exact Hin | exact H]. }
      rewrite accepted_col_app, Hcol, E.
      destruct (snd (feed_runs its c1)) as [u2|k].
      * rewrite E2. reflexivity.
      * destruct E2 as [[rs E3] (pre & last & E4 & E5)]. split.
        { exists rs. rewrite <- app_assoc, E3. reflexivity. }
        { exists (new1 ++ pre), last. rewrite E4, app_assoc. split; [reflexivity | exact E5]. }
    + cbn [fst snd]. exists new1. split; [exact A|]. split; [exact B|]. split; [exact D'|].
      destruct E as [[rs E1] E2]. split; [|exact E2].
      rewrite <- E1, map_app, Hcol, <- app_assoc. eauto.
Qed.

Lemma write_all_feed : forall s buf c, ws_wf s -> bytes_lt buf ->
  exists its p' cap' s1,
    extract_next buf (ws_parser s) (ws_capture s) = Some (its, p', cap') /\
    Forall (fun r => snd r <> []) its /\
    wc_write_all s buf c = Some (s1, fst (feed_runs its c), res_of (snd (feed_runs its c))) /\
    (forall u, snd (feed_runs its c) = inl u -> s1 = mkWS p' cap').
Proof.
  intros s buf c [v HR] Hbs.
  destruct (extract_next_spec buf (ws_parser s) v (ws_capture s) Hbs HR)
    as (its & p' & He & _ & _ & _ & Hall).
  unfold extract_next in He.
  destruct (write_all_loop_feed _ _ _ _ _ _ _ c He) as (s1 & Hw & Hs1).
  exists its, p', (mkCap (style_after (c_style (ws_capture s)) (snd (vt_run v buf))) [] None), s1.
  split; [exact He|]. split; [exact Hall|].
  split; [exact Hw | exact Hs1].
Qed.

Theorem write_all_hands_over : forall s buf c,
  ws_wf s -> bytes_lt buf -> con_script c = [] ->
  exists its p' cap',
    extract_next buf (ws_parser s) (ws_capture s) = Some (its, p', cap') /\
    wc_write_all s buf c
      = Some (mkWS p' cap', mkCon [] (con_calls c ++ map run_call its) (con_flushes c), ROk).
Proof.
  intros s buf c Hwf Hbs Hs.
  destruct (write_all_feed s buf c Hwf Hbs) as (its & p' & cap' & s1 & He & Hall & Hw & Hs1).
  exists its, p', cap'. split; [exact He|].
  rewrite (feed_runs_accept_all its c Hs Hall) in Hw, Hs1. cbn [fst snd res_of] in Hw, Hs1.
  rewrite (Hs1 tt eq_refl) in Hw. exact Hw.
Qed.

Theorem write_all_scripted : forall s buf c,
  ws_wf s -> bytes_lt buf ->
  exists its p' cap' s1 c1 r new,
    extract_next buf (ws_parser s) (ws_capture s) = Some (its, p', cap') /\
    wc_write_all s buf c = Some (s1, c1, r) /\
    con_calls c1 = con_calls c ++ new /\ con_flushes c1 = con_flushes c /\
    ((r = ROk /\ s1 = mkWS p' cap' /\ accepted_col new = runs_col its /\ accepted new = runs_bytes its)
     \/ (exists k, r = RErr k /\
           (exists rest, accepted_col new ++ rest = runs_col its) /\
           (exists rest, accepted new ++ rest = runs_bytes its) /\
           err_from new k)).
Proof.
  intros s buf c Hwf Hbs.
  destruct (write_all_feed s buf c Hwf Hbs) as (its & p' & cap' & s1 & He & _ & Hw & Hs1).
  destruct (feed_runs_spec its c) as (new & A & B & _ & E).
  exists its, p', cap', s1, (fst (feed_runs its c)), (res_of (snd (feed_runs its c))), new.
  split; [exact He|]. split; [exact Hw|]. split; [exact A|]. split; [exact B|].
  destruct (snd (feed_runs its c)) as [u|k].
  - left. cbn [res_of]. split; [reflexivity|]. split; [apply (Hs1 u); reflexivity|].
    split; [exact E|]. rewrite <- accepted_col_bytes, <- runs_col_bytes, E. reflexivity.
  - right. exists k. cbn [res_of]. split; [reflexivity|]. destruct E as [[rs E1] E2].
    split; [exists rs; exact E1|]. split; [|exact E2].
    exists (map snd rs). rewrite <- accepted_col_bytes, <- runs_col_bytes, <- E1, map_app. reflexivity.
Qed.

Theorem write_reports_all_or_error : forall s buf c,
  ws_wf s -> bytes_lt buf ->
  exists its p' cap' s1 c1 r new,
    extract_next buf (ws_parser s) (ws_capture s) = Some (its, p', cap') /\
    wc_write s buf c = Some (s1, c1, r) /\
    con_calls c1 = con_calls c ++ new /\
    ((r = ROkN (N.of_nat (length buf)) /\ s1 = mkWS p' cap' /\
      accepted_col new = runs_col its /\ accepted new = runs_bytes its)
     \/ (exists k, r = RErr k /\ (exists rest, accepted new ++ rest = runs_bytes its) /\ err_from new k)).
Proof.
  intros s buf c Hwf Hbs.
  destruct (write_all_scripted s buf c Hwf Hbs)
    as (its & p' & cap' & s1 & c1 & r & new & He & Hw & A & _ & Hcase).
  unfold wc_write. rewrite Hw.
  destruct Hcase as [(-> & H1 & H2 & H3) | (k & -> & _ & H2 & H3)].
  - exists its, p', cap', s1, c1, (ROkN (N.of_nat (length buf))), new.
    split; [exact He|]. split; [reflexivity|]. split; [exact A|]. left. auto.
  - exists its, p', cap', s1, c1, (RErr k), new.
    split; [exact He|]. split; [reflexivity|]. split; [exact A|]. right. exists k. auto.
Qed.

Corollary write_never_partial : forall s buf c s1 c1 n,
  ws_wf s -> bytes_lt buf -> wc_write s buf c = Some (s1, c1, ROkN n) -> n = N.of_nat (length buf).
Proof.
  intros s buf c s1 c1 n Hwf Hbs H.
  destruct (write_reports_all_or_error s buf c Hwf Hbs)
    as (its & p' & cap' & s2 & c2 & r & new & _ & Hw & _ & Hcase).
  rewrite Hw in H. inversion H; subst.
  destruct Hcase as [(E & _) | (k & E & _)]; [inversion E; reflexivity | discriminate E].
Qed.

Lemma vectored_is_write : forall s c bufs,
  wc_op s c (OWriteVectored bufs) = wc_write s (first_nonempty bufs) c.
Proof. reflexivity. Qed.

(* every operation keeps the stream state well-formed -- also after an error.  Wherever the loop
   stops, the parser has consumed a prefix of the input and nothing is pending: an invariant [P] of
   the specification machine under [vt_run] still holds of the state the parser is related to *)
Lemma write_all_loop_inv (P : vt -> Prop) :
  (forall v bs, bytes_lt bs -> P v -> P (fst (vt_run v bs))) ->
  forall fuel bs p v cap c s1 c1 r,
  bytes_lt bs -> R p v -> P v ->
  wc_write_all_loop fuel bs p cap c = Some (s1, c1, r) ->
  (exists v', R (ws_parser s1) v' /\ P v') /\ c_printable (ws_capture s1) = [].
Proof.
  intros HP. induction fuel as [|f IH]; intros bs p v cap c s1 c1 r Hbs HR Hv H; [discriminate H|].
  cbn [wc_write_all_loop] in H. unfold wincon_next in H.
  destruct (wn_loop_spec bs p v (mkCap (c_style cap) (c_printable cap) None) Hbs HR eq_refl)
    as (bs0 & bs1 & p1 & cap1 & Hw & Hsplit & HR1 & _).
  rewrite Hw in H.
  assert (Hbs01 : bytes_lt bs0 /\ bytes_lt bs1).
  { unfold bytes_lt in *. rewrite Hsplit in Hbs. apply Forall_app in Hbs. exact Hbs. }
  destruct Hbs01 as [Hbs0 Hbs1]. pose proof (HP v bs0 Hbs0 Hv) as Hv1.
  destruct (c_printable cap1) as [|ch t] eqn:Hpr.
  - inversion H; subst. cbn [ws_parser ws_capture]. split; [eauto | exact Hpr].
  - match type of H with context [wc_run_loop ?a ?b ?c ?d ?e] => destruct (wc_run_loop a b c d e) as [c2 r2] end.
    destruct r2 as [u|e].
    + eapply IH; eauto.
    + inversion H; subst. cbn [ws_parser ws_capture c_printable]. split; [eauto | reflexivity].
Qed.

Lemma write_all_wf : forall s buf c s1 c1 r,
  ws_wf s -> bytes_lt buf -> wc_write_all s buf c = Some (s1, c1, r) -> ws_wf s1.
Proof.
  intros s buf c s1 c1 r [v HR] Hbs H.
  destruct (write_all_loop_inv (fun _ => True) (fun _ _ _ _ => I) _ _ _ _ _ _ _ _ _ Hbs HR I H) as [(v' & HR' & _) _].
  exists v'. exact HR'.
Qed.

Fixpoint write_all_seq (s : wstream) (frags : list (list N)) (c : console)
  : option (wstream * console * sres) :=
  match frags with
  | [] => Some (s, c, ROk)
  | fr :: rest =>
      match wc_write_all s fr c with
      | Some (s1, c1, RErr e) => Some (s1, c1, RErr e)
      | Some (s1, c1, _) => write_all_seq s1 rest c1
      | None => None
      end
  end.

Lemma write_fmt_is_seq : forall frags s c, wc_write_fmt s frags c = write_all_seq s frags c.
Proof.
  induction frags as [|fr rest IH]; intros s c; [reflexivity|].
  cbn [wc_write_fmt write_all_seq].
  destruct (wc_write_all s fr c) as [[[s1 c1] r]|]; [|reflexivity].
  destruct r; try reflexivity; apply IH.
Qed.

(* write_fmt over an accept-all console: the fragments' runs, one call each; as
   coloured bytes this is what write_all of the concatenation hands over *)

Lemma accepted_col_run_calls : forall rs, accepted_col (map run_call rs) = runs_col rs.
Proof.
  induction rs as [|[style txt] rs IH]; [reflexivity|].
  unfold accepted_col, runs_col in *. cbn [map flat_map]. rewrite IH. f_equal.
  unfold cc_accepted. cbn [run_call run_col cc_res cc_data cc_fg cc_bg].
  rewrite Nat2N.id, firstn_all. reflexivity.
Qed.

Lemma runs_col_flatten : forall rs,
  runs_col rs =
  flat_map (fun x => map (fun b => (cap_opt (s_fg (fst x)), cap_opt (s_bg (fst x)), b)) (utf8_encode (snd x)))
           (flatten rs).
Proof.
  induction rs as [|[style txt] rs IH]; [reflexivity|].
  change (flatten ((style, txt) :: rs)) with (map (pair style) txt ++ flatten rs).
  rewrite flat_map_app, <- IH.
  change (runs_col ((style, txt) :: rs)) with (run_col (style, txt) ++ runs_col rs).
  f_equal. cbn [run_col]. unfold str_bytes.
  induction txt as [|cp txt IHt]; [reflexivity|].
  cbn [flat_map map fst snd]. rewrite map_app, IHt. reflexivity.
Qed.

Lemma write_fmt_accept_all : forall frags s c,
  ws_wf s -> bytes_lt (concat frags) -> con_script c = [] ->
  exists itss p' cap',
    extract_chunks frags (ws_parser s) (ws_capture s) = Some (itss, p', cap') /\
    wc_write_fmt s frags c
      = Some (mkWS p' cap', mkCon [] (con_calls c ++ map run_call (concat itss)) (con_flushes c), ROk).
Proof.
  induction frags as [|fr rest IH]; intros s c Hwf Hbs Hs.
  - exists [], (ws_parser s), (ws_capture s). cbn [extract_chunks wc_write_fmt concat map].
    rewrite app_nil_r. destruct s, c. cbn in *. subst. split; reflexivity.
  - cbn [concat] in Hbs. unfold bytes_lt in Hbs. apply Forall_app in Hbs. destruct Hbs as [Hb1 Hb2].
    destruct (write_all_hands_over s fr c Hwf Hb1 Hs) as (its & p1 & cap1 & He & Hw).
    pose proof (write_all_wf _ _ _ _ _ _ Hwf Hb1 Hw) as Hwf1.
    destruct (IH (mkWS p1 cap1) (mkCon [] (con_calls c ++ map run_call its) (con_flushes c)) Hwf1 Hb2 eq_refl)
      as (itss & p' & cap' & Hc & Hf).
    cbn [ws_parser ws_capture con_calls con_flushes] in Hc, Hf.
    exists (its :: itss), p', cap'. cbn [extract_chunks wc_write_fmt]. rewrite He, Hc, Hw, Hf.
    split; [reflexivity|]. cbn [concat]. rewrite map_app, app_assoc. reflexivity.
Qed.

Theorem write_fmt_hands_over : forall frags s c,
  ws_wf s -> c_printable (ws_capture s) = [] -> c_ready (ws_capture s) = None ->
  bytes_lt (concat frags) -> con_script c = [] ->
  exists itss its p' cap' c1,
    extract_chunks frags (ws_parser s) (ws_capture s) = Some (itss, p', cap') /\
    extract_next (concat frags) (ws_parser s) (ws_capture s) = Some (its, p', cap') /\
    wc_write_fmt s frags c = Some (mkWS p' cap', c1, ROk) /\
    con_calls c1 = con_calls c ++ map run_call (concat itss) /\
    accepted_col (map run_call (concat itss)) = runs_col its.
Proof.
  intros frags s c [v HR] Hpr Hrd Hbs Hs.
  destruct (wincon_chunked_from frags _ v _ Hbs HR Hpr Hrd) as (itss & its & p' & cap' & Hc & He & Hfl & _).
  destruct (write_fmt_accept_all frags s c (ex_intro _ v HR) Hbs Hs) as (itss2 & p2 & cap2 & Hc2 & Hw).
  rewrite Hc in Hc2. inversion Hc2; subst itss2 p2 cap2.
  eexists itss, its, p', cap', _. split; [exact Hc|]. split; [exact He|]. split; [exact Hw|].
  cbn [con_calls]. split; [reflexivity|].
  rewrite accepted_col_run_calls, !runs_col_flatten, Hfl. reflexivity.
Qed.

Definition ws_clean (s : wstream) : Prop :=
  (exists v, R (ws_parser s) v /\ uni_ok v) /\ Forall byte_clean (c_printable (ws_capture s)).

Definition call_clean (cc : ccall) : Prop := Forall byte_clean (cc_data cc).

Definition op_bytes_lt (o : sop) : Prop :=
  match o with
  | OWrite b | OWriteAll b => bytes_lt b
  | OWriteVectored bufs | OWriteFmt bufs => Forall bytes_lt bufs
  | OFlush => True
  end.

Lemma ws_new_clean : ws_clean ws_new.
Proof. split; [exists vt_init; split; [exact R_init | exact I] | constructor]. Qed.

Lemma ws_clean_wf s : ws_clean s -> ws_wf s.
Proof. intros [(v & HR & _) _]. exists v. exact HR. Qed.

Definition all_clean (s : wstream) (c : console) : Prop := ws_clean s /\ Forall call_clean (con_calls c).

Definition step (f : wstream -> console -> option (wstream * console * sres)) : Prop :=
  forall s c, ws_wf s ->
  exists s1 c1 r, f s c = Some (s1, c1, r) /\ ws_wf s1 /\ (all_clean s c -> all_clean s1 c1).

Lemma write_all_step buf : bytes_lt buf -> step (fun s c => wc_write_all s buf c).
Proof.
  intros Hbs s c Hwf.
  destruct (write_all_feed s buf c Hwf Hbs) as (its & p' & cap' & s1 & He & _ & Hw & _).
  do 3 eexists. split; [exact Hw|]. split; [exact (write_all_wf _ _ _ _ _ _ Hwf Hbs Hw)|].
  intros [[(v & HR & Hu) Hpr] Hcalls]. split.
  - destruct (write_all_loop_inv uni_ok (fun v bs Hb Hv => proj2 (run_ev_ok bs v Hb Hv)) _ _ _ _ _ _ _ _ _ Hbs HR Hu Hw)
      as [A B].
    split; [exact A | rewrite B; constructor].
  - (* every call carries a suffix of the bytes of a run, and those are clean *)
    destruct (runs_clean_from buf _ v _ Hbs HR Hu Hpr) as (its2 & p2 & cap2 & He2 & Hclean & _).
    rewrite He in He2. inversion He2; subst its2 p2 cap2.
    destruct (feed_runs_spec its c) as (new & A & _ & D & _).
    rewrite A. apply Forall_app. split; [exact Hcalls|].
    eapply Forall_impl; [|exact D]. cbv beta. intros cc (rn & Hin & _ & _ & pre & Hd).
    rewrite Forall_forall in Hclean. specialize (Hclean rn Hin). rewrite Hd in Hclean.
    apply Forall_app in Hclean. exact (proj2 Hclean).
Qed.

Lemma write_step buf : bytes_lt buf -> step (fun s c => wc_write s buf c).
Proof.
  intros Hbs s c Hwf. destruct (write_all_step buf Hbs s c Hwf) as (s1 & c1 & r & Hw & H).
  unfold wc_write. rewrite Hw. destruct r; eauto.
Qed.

Lemma write_fmt_step frags : Forall bytes_lt frags -> step (fun s c => wc_write_fmt s frags c).
Proof.
  induction 1 as [|fr rest Hfr _ IH]; intros s c Hwf; cbn [wc_write_fmt].
  - exists s, c, ROk. auto.
  - destruct (write_all_step fr Hfr s c Hwf) as (s1 & c1 & r & -> & Hwf1 & Hcl).
    destruct (IH s1 c1 Hwf1) as (s2 & c2 & r2 & E & Hwf2 & Hcl2).
    destruct r; [| |do 3 eexists; eauto]; rewrite E; do 3 eexists; eauto.
Qed.

Lemma first_nonempty_lt : forall bufs, Forall bytes_lt bufs -> bytes_lt (first_nonempty bufs).
Proof.
  induction bufs as [|b bufs IH]; intros H; [constructor|].
  inversion H; subst. destruct b; cbn [first_nonempty]; [apply IH; assumption | assumption].
Qed.

Lemma op_step o : op_bytes_lt o -> step (fun s c => wc_op s c o).
Proof.
  destruct o; cbn [wc_op op_bytes_lt]; intros Ho.
  - apply write_step, Ho.
  - apply write_all_step, Ho.
  - apply write_step, first_nonempty_lt, Ho.
  - apply write_fmt_step, Ho.
  - intros s c Hwf. do 3 eexists. eauto.
Qed.

Lemma ops_step : forall ops, Forall op_bytes_lt ops -> forall s c, ws_wf s ->
  exists s1 c1 rs, wc_run_ops s c ops = Some (s1, c1, rs) /\ ws_wf s1 /\ (all_clean s c -> all_clean s1 c1).
Proof.
  induction 1 as [|o ops Ho _ IH]; intros s c Hwf; cbn [wc_run_ops].
  - exists s, c, []. auto.
  - destruct (op_step o Ho s c Hwf) as (s1 & c1 & r & -> & Hwf1 & Hcl).
    destruct (IH s1 c1 Hwf1) as (s2 & c2 & rs & -> & Hwf2 & Hcl2). do 3 eexists. eauto.
Qed.

Theorem ops_total : forall ops s c,
  ws_wf s -> Forall op_bytes_lt ops ->
  exists s1 c1 rs, wc_run_ops s c ops = Some (s1, c1, rs) /\ ws_wf s1.
Proof.
  intros ops s c Hwf Hops. destruct (ops_step ops Hops s c Hwf) as (s1 & c1 & rs & E & Hwf1 & _). eauto.
Qed.

Corollary stream_no_escape : forall script ops s1 c1 rs,
  Forall op_bytes_lt ops ->
  wc_run_ops ws_new (console_of script) ops = Some (s1, c1, rs) ->
  Forall call_clean (con_calls c1).
Proof.
  intros script ops s1 c1 rs Hops H.
  destruct (ops_step ops Hops ws_new (console_of script) ws_new_wf) as (s2 & c2 & rs2 & E & _ & Hcl).
  rewrite H in E. injection E as <- <- <-. apply Hcl. split; [exact ws_new_clean | constructor].
Qed.

Lemma write_fmt_res : forall frags s c s1 c1 r,
  wc_write_fmt s frags c = Some (s1, c1, r) -> r = ROk \/ exists k, r = RErr k.
Proof.
  induction frags as [|fr rest IH]; intros s c s1 c1 r H; cbn [wc_write_fmt] in H.
  - injection H as _ _ <-. auto.
  - destruct (wc_write_all s fr c) as [[[s2 c2] [n| |k]]|]; try discriminate H; try (eapply IH; exact H).
    injection H as _ _ <-. eauto.
Qed.

Lemma write_fmt_total : forall frags s c, ws_wf s -> bytes_lt (concat frags) ->
  exists s1 c1 r, wc_write_fmt s frags c = Some (s1, c1, r) /\ ws_wf s1 /\
                  (r = ROk \/ exists k, r = RErr k).
Proof.
  intros frags s c Hwf Hbs. apply Forall_concat in Hbs.
  destruct (write_fmt_step frags Hbs s c Hwf) as (s1 & c1 & r & E & Hwf1 & _).
  exists s1, c1, r. split; [exact E|]. split; [exact Hwf1 | exact (write_fmt_res _ _ _ _ _ _ E)].
Qed.
