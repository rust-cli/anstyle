(* What the styled-run extractor yields, against the specification's event stream (through
   C02's refinement theorem): the text of every run consists of code points printed by the
   parser and of TAB / LF / FF / CR, so no byte handed to the console is ESC or another
   control (C18); on inputs whose SGR sequences are in the grammar G, the merged runs are the
   specification's runs (C07). *)
From Coq Require Import NArith ZArith List Bool Lia Arith.
From AV Require Import Generated.Table Spec.Utf8 Spec.Vt Spec.Sgr Spec.Io Model.Base Model.Utf8parse
  Model.Parser Model.Strip Model.Wincon Model.Stream Model.WinconStream
  Proofs.TableFacts Proofs.VtFacts Proofs.ParserSim Proofs.VtCancel Proofs.VtCompose Proofs.WinconSgr Proofs.WinconRuns.
Import ListNotations.
Local Open Scope N_scope.

(* inside a multi-byte character: the bytes collected so far already force the
   decoded scalar value to be at least 0x80 *)
Definition uinv (u : ustate) (acc : list N) : Prop :=
  match u, acc with
  | UTail1, [a] => 2 <= a mod 32
  | UTail1, [a; b] => 1 <= a mod 16 \/ 32 <= b mod 64
  | UTail1, [a; b; _] => 1 <= a mod 8 \/ 16 <= b mod 64
  | UTail2, [a] => 1 <= a mod 16
  | UTail2, [a; b] => 1 <= a mod 8 \/ 16 <= b mod 64
  | UTail3, [a] => 1 <= a mod 8
  | UE0, [_] => True
  | UED, [a] => 1 <= a mod 16
  | UF0, [_] => True
  | UF4, [a] => 1 <= a mod 8
  | _, _ => False
  end.

Definition uni_ok (v : vt) : Prop :=
  match uni v with Some (u, acc) => uinv u acc | None => True end.

(* [lia] with the equations of euclidean division, for the three lemmas about residues *)
Local Ltac Zify.zify_post_hook ::= Z.to_euclidean_division_equations.

Lemma in_range_iff lo hi b : in_range lo hi b = true <-> lo <= b <= hi.
Proof. unfold in_range. rewrite andb_true_iff, !N.leb_le. tauto. Qed.

Lemma lead_uinv : forall b u, utf8_lead b = Some u -> uinv u [b].
Proof.
  intros b u. unfold utf8_lead.
  repeat match goal with
  | |- (if ?c then _ else _) = _ -> _ =>
      let E := fresh "E" in destruct c eqn:E;
      [ intros H; inversion H; subst; cbn [uinv];
        try apply in_range_iff in E; try apply N.eqb_eq in E; try exact I; lia | ]
  end.
  discriminate.
Qed.

Lemma cont_more_uinv : forall u acc b u',
  uinv u acc -> utf8_cont u b = UMore u' -> uinv u' (acc ++ [b]).
Proof.
  intros u acc b u' Hi Hc.
  destruct u; cbn [utf8_cont] in Hc;
    match type of Hc with (if ?c then _ else _) = _ => destruct c eqn:E; [|discriminate Hc] end;
    inversion Hc; subst; apply in_range_iff in E;
    destruct acc as [|a0 [|a1 [|a2 [|a3 acc]]]]; cbn [uinv app] in *; try contradiction; try tauto; try lia.
Qed.

Lemma cont_done_decode : forall u acc b,
  uinv u acc -> utf8_cont u b = UDone -> 128 <= utf8_decode (acc ++ [b]).
Proof.
  intros u acc b Hi Hc.
  destruct u; cbn [utf8_cont] in Hc;
    try (match type of Hc with (if ?c then _ else _) = _ => destruct c; discriminate Hc end).
  destruct acc as [|a0 [|a1 [|a2 [|a3 acc]]]]; cbn [uinv app utf8_decode] in *; try contradiction; lia.
Qed.

Local Ltac Zify.zify_post_hook ::= idtac.

Definition ev_ok (e : event) : Prop :=
  match e with
  | EPrint cp => 32 <= cp
  | EExecute b => is_ascii_whitespace b = is_ws_exec b /\ b <> 27
  | _ => True
  end.

Lemma vact_cases (a : vact) :
  forall b, vact_eqb a b = true -> a = b.
Proof. intros b. apply vact_eqb_eq. Qed.

Lemma ws_exec_agree b : b <> 32 -> is_ascii_whitespace b = is_ws_exec b.
Proof.
  intros H. unfold is_ascii_whitespace, is_ws_exec.
  replace (b =? 32) with false; [apply orb_false_r|]. symmetry. now apply N.eqb_neq.
Qed.

Lemma action_ev_ok v b tgt a : vt_trans (vs v) b = (tgt, a) -> Forall ev_ok (snd (do_action v a b)).
Proof.
  intros E. destruct a; cbn [do_action snd]; try solve [repeat constructor].
  - constructor; [exact (trans_print _ _ _ E) | constructor].
  - destruct (trans_execute _ _ _ E) as [H1 H2].
    constructor; [split; [apply ws_exec_agree, H1 | exact H2] | constructor].
  - destruct (final_params v). repeat constructor.
  - destruct (utf8_lead b); constructor.
Qed.

Lemma step_ev_ok : forall v b, b < 256 -> uni_ok v ->
  Forall ev_ok (snd (vt_step v b)) /\ uni_ok (fst (vt_step v b)).
Proof.
  intros v b Hb Hu.
  destruct (uni v) as [[u acc]|] eqn:Euni.
  { unfold uni_ok, vt_step in *. rewrite Euni in *.
    destruct (utf8_cont u b) eqn:Ec; cbn [fst snd set_uni uni].
    - split; [constructor | eapply cont_more_uinv; eauto].
    - split; [|exact I]. constructor; [|constructor]. cbn [ev_ok].
      pose proof (cont_done_decode u acc b Hu Ec). lia.
    - split; [|exact I]. constructor; [|constructor]. cbn [ev_ok]. unfold replacement. lia. }
  destruct (vt_trans (vs v) b) as [tgt a] eqn:E. split.
  - apply (step_events_forall ev_ok v b tgt a Euni E); [exact I | intros; exact I | intros; exact I |].
    exact (action_ev_ok v b tgt a E).
  - (* only the action of a lead byte touches the UTF-8 state *)
    assert (Hact : uni_ok (fst (do_action v a b))).
    { unfold uni_ok. destruct a; try (rewrite do_action_uni, Euni by discriminate; exact I).
      cbn [do_action]. destruct (utf8_lead b) as [u|] eqn:El; cbn [fst uni].
      - apply lead_uinv, El.
      - rewrite Euni. exact I. }
    unfold uni_ok. rewrite (vt_step_none v b Euni), E. cbn [fst snd].
    destruct tgt; cbn [fst]; rewrite ?enter_uni; exact Hact.
Qed.

Lemma run_ev_ok : forall bs v, bytes_lt bs -> uni_ok v ->
  Forall ev_ok (snd (vt_run v bs)) /\ uni_ok (fst (vt_run v bs)).
Proof.
  induction bs as [|b bs IH]; intros v Hbs Hu.
  - cbn [vt_run fst snd]. split; [constructor | exact Hu].
  - inversion Hbs as [|? ? Hb Hr]; subst. rewrite vt_run_cons. cbn [fst snd].
    destruct (step_ev_ok v b Hb Hu) as [A B].
    destruct (IH _ Hr B) as [C D]. split; [apply Forall_app; split; assumption | exact D].
Qed.

Lemma spec_events_ok : forall bs, bytes_lt bs -> Forall ev_ok (spec_events bs).
Proof. intros bs Hbs. unfold spec_events. apply run_ev_ok; [exact Hbs | exact I]. Qed.

Definition byte_clean (b : N) : Prop :=
  b <> 27 /\ (b < 32 -> b = 9 \/ b = 10 \/ b = 12 \/ b = 13).

Lemma ev_chars_clean : forall e, ev_ok e -> Forall byte_clean (ev_chars e).
Proof.
  intros e H. destruct e; cbn [ev_chars]; try constructor.
  - cbn [ev_ok] in H. split; lia.
  - constructor.
  - destruct (is_ascii_whitespace b) eqn:E; constructor; [|constructor].
    unfold is_ascii_whitespace in E. repeat rewrite orb_true_iff in E. rewrite !N.eqb_eq in E.
    split; lia.
Qed.

Lemma tags_clean : forall es s, Forall ev_ok es -> Forall (fun x => byte_clean (snd x)) (tags s es).
Proof.
  induction es as [|e es IH]; intros s H; cbn [tags]; [constructor|].
  inversion H as [|? ? He Hr]; subst. apply Forall_app. split; [|apply IH, Hr].
  unfold tag_ev. apply Forall_map. cbn [snd]. apply ev_chars_clean, He.
Qed.

(* every byte of a multi-byte encoding is 0x80 or above *)
Lemma byte_clean_high b x : 128 <= b -> byte_clean (b + x).
Proof. unfold byte_clean. lia. Qed.

Lemma utf8_encode_clean : forall cp, byte_clean cp -> Forall byte_clean (utf8_encode cp).
Proof.
  intros cp H. unfold utf8_encode.
  destruct (cp <? 128); [constructor; [exact H | constructor]|].
  destruct (cp <? 2048); [|destruct (cp <? 65536)];
    repeat (constructor; [apply byte_clean_high; discriminate|]); constructor.
Qed.

Lemma str_bytes_clean : forall txt, Forall byte_clean txt -> Forall byte_clean (str_bytes txt).
Proof.
  induction txt as [|cp txt IH]; intros H; [constructor|].
  inversion H; subst. unfold str_bytes. cbn [flat_map]. apply Forall_app.
  split; [apply utf8_encode_clean; assumption | apply IH; assumption].
Qed.

Lemma flatten_chars : forall its (P : N -> Prop),
  Forall (fun x => P (snd x)) (flatten its) -> Forall (fun r => Forall P (snd r)) its.
Proof.
  induction its as [|[s t] its IH]; intros P H; [constructor|].
  change (flatten ((s, t) :: its)) with (map (pair s) t ++ flatten its) in H.
  apply Forall_app in H. destruct H as [A B]. constructor; [|apply IH, B].
  cbn [snd]. rewrite Forall_map in A. exact A.
Qed.

Theorem runs_clean_from : forall bs p v c,
  bytes_lt bs -> R p v -> uni_ok v -> Forall byte_clean (c_printable c) ->
  exists its p' c',
    extract_next bs p c = Some (its, p', c') /\
    Forall (fun r => Forall byte_clean (str_bytes (snd r))) its /\
    (exists v', R p' v' /\ uni_ok v') /\ c_printable c' = [].
Proof.
  intros bs p v c Hbs HR Hu Hc.
  destruct (extract_next_spec bs p v c Hbs HR) as (its & p' & He & _ & HR' & Hfl & _).
  destruct (run_ev_ok bs v Hbs Hu) as [Hev Hu'].
  eexists its, p', _. split; [exact He|]. split; [|split; [eauto | reflexivity]].
  assert (H : Forall (fun x => byte_clean (snd x)) (flatten its)).
  { rewrite Hfl. apply Forall_app. split; [|apply tags_clean, Hev].
    unfold pend0. apply Forall_map. cbn [snd]. exact Hc. }
  apply flatten_chars in H. eapply Forall_impl; [|exact H]. cbv beta.
  intros r. apply str_bytes_clean.
Qed.

Theorem no_escape_bytes : forall input, bytes_lt input ->
  exists its p c,
    extract_next input parser_new capture_default = Some (its, p, c) /\
    Forall (fun r => Forall byte_clean (str_bytes (snd r))) its.
Proof.
  intros input Hbs.
  destruct (runs_clean_from input parser_new vt_init capture_default Hbs R_init I (Forall_nil _))
    as (its & p & c & He & H & _).
  eauto.
Qed.

(* along the interpretation: every SGR event met in state [s] is a sequence of the
   grammar G that satisfies the underline-interaction hypothesis in [s]; other
   events are unconstrained *)
Inductive sgr_events_ok : sstyle -> list event -> Prop :=
  | seo_nil : forall s, sgr_events_ok s []
  | seo_sgr : forall s items rest,
      Forall (fun i => item_in_G i = true) items -> ul_simple s items ->
      sgr_events_ok (sgr_apply s (groups_of items)) rest ->
      sgr_events_ok s (ECsi (groups_of items) [] false 109 :: rest)
  | seo_other : forall s e rest,
      (forall ps, e <> ECsi ps [] false 109) ->
      sgr_events_ok s rest ->
      sgr_events_ok s (e :: rest).

Lemma non_sgr_inert : forall s e, (forall ps, e <> ECsi ps [] false 109) ->
  cap_style_step s e = s /\ event_style s e = s.
Proof.
  intros s e H. destruct (sgr_or_inert e) as [[ps ->]|[Hn He]]; [destruct (H ps eq_refl)|].
  split; [|apply He]. destruct e as [| | | | | |ps i g a|]; try reflexivity.
  cbn [cap_style_step]. destruct g; [reflexivity|].
  destruct (N.eqb_spec a 109) as [->|_]; [|reflexivity]. destruct i; [discriminate Hn | reflexivity].
Qed.

Lemma tags_interp : forall es s, Forall ev_ok es -> sgr_events_ok s es ->
  tags s es = fst (interp s es) /\ style_after s es = snd (interp s es).
Proof.
  induction es as [|e es IH]; intros s Hev Hok.
  - cbn. split; reflexivity.
  - inversion Hev as [|? ? He Hevr]; subst.
    inversion Hok as [| ? items ? HG Hul Hrest | ? ? ? Hns Hrest]; subst.
    + (* an SGR sequence of the grammar *)
      assert (Hs : cap_style_step s (ECsi (groups_of items) [] false 109) = sgr_apply s (groups_of items)).
      { cbn [cap_style_step negb]. rewrite N.eqb_refl. cbn [negb].
        rewrite (dispatch_is_sgr items s HG Hul). reflexivity. }
      destruct (IH _ Hevr Hrest) as [A B].
      cbn [tags style_after fold_left interp]. rewrite Hs.
      change (event_style s (ECsi (groups_of items) [] false 109)) with (sgr_apply s (groups_of items)).
      fold (style_after (sgr_apply s (groups_of items)) es).
      destruct (interp (sgr_apply s (groups_of items)) es) as [out s2]. cbn [fst snd] in *.
      cbn [tag_ev ev_chars map app]. split; assumption.
    + destruct (non_sgr_inert s e Hns) as [H1 H2].
      destruct (IH _ Hevr Hrest) as [A B].
      cbn [tags style_after fold_left interp]. rewrite H1, H2.
      fold (style_after s es).
      destruct (interp s es) as [out s2]. cbn [fst snd] in *.
      destruct e; cbn [tag_ev ev_chars map app fst snd]; try (split; assumption).
      * split; [rewrite A; reflexivity | exact B].
      * cbn [ev_ok] in He. destruct He as [He _]. rewrite He.
        destruct (is_ws_exec b); cbn [map app fst snd]; split; try assumption.
        rewrite A. reflexivity.
Qed.

Theorem runs_are_spec_from : forall bs p v c,
  bytes_lt bs -> R p v -> uni_ok v -> sgr_events_ok (c_style c) (snd (vt_run v bs)) ->
  exists its p' c',
    extract_next bs p c = Some (its, p', c') /\
    merge_runs its = group_runs (pend0 c ++ fst (interp (c_style c) (snd (vt_run v bs)))) /\
    c_style c' = snd (interp (c_style c) (snd (vt_run v bs))).
Proof.
  intros bs p v c Hbs HR Hu Hok.
  destruct (extract_next_spec bs p v c Hbs HR) as (its & p' & He & _ & _ & Hfl & Hall).
  destruct (tags_interp _ _ (proj1 (run_ev_ok bs v Hbs Hu)) Hok) as [A B].
  eexists its, p', _. split; [exact He|]. rewrite (merge_is_group _ Hall), Hfl, A. split; [reflexivity | exact B].
Qed.

Theorem runs_are_spec : forall input,
  bytes_lt input -> sgr_events_ok style_default (spec_events input) ->
  exists its p c,
    extract_next input parser_new capture_default = Some (its, p, c) /\
    merge_runs its = spec_runs input.
Proof.
  intros input Hbs Hok.
  destruct (runs_are_spec_from input parser_new vt_init capture_default Hbs R_init I Hok) as (its & p & c & He & Hm & _).
  exists its, p, c. split; [exact He | exact Hm].
Qed.

(* non-vacuity of the hypothesis: "a ESC[1;31m b ESC[38;5;9m TAB ESC[?25h c ESC[0m d" *)
Lemma example_runs :
  sgr_events_ok style_default
    (spec_events [97; 27; 91; 49; 59; 51; 49; 109; 98; 27; 91; 51; 56; 59; 53; 59; 57; 109; 9;
                  27; 91; 63; 50; 53; 104; 99; 27; 91; 48; 109; 100]) /\
  spec_runs [97; 27; 91; 49; 59; 51; 49; 109; 98; 27; 91; 51; 56; 59; 53; 59; 57; 109; 9;
             27; 91; 63; 50; 53; 104; 99; 27; 91; 48; 109; 100]
  = [(style_default, [97]); (mkStyle (Some (CAnsi 1)) None None 1, [98]);
     (mkStyle (Some (CIdx 9)) None None 1, [9; 99]); (style_default, [100])].
Proof.
  split; [|vm_compute; reflexivity].
  vm_compute.
  (* the items of each SGR event are given by hand: [groups_of] cannot be inverted by unification *)
  apply seo_other; [discriminate|].
  apply (seo_sgr _ [GCode 1; GCode 31]); [repeat constructor | vm_compute; tauto |].
  apply seo_other; [discriminate|].
  apply (seo_sgr _ [GIdx false 38 9]); [repeat constructor | vm_compute; tauto |].
  apply seo_other; [discriminate|].
  apply seo_other; [discriminate|].
  apply seo_other; [discriminate|].
  apply (seo_sgr _ [GCode 0]); [repeat constructor | vm_compute; tauto |].
  apply seo_other; [discriminate|].
  apply seo_nil.
Qed.
