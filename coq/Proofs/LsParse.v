(* Proofs/LsParse.v -- C12: the textual layer (numbers, split / join) and the
   property theorems about the model of anstyle_ls::parse. *)
From Coq Require Import NArith List Bool Lia.
From AV Require Import Generated.Ls Spec.StyleRec Spec.SgrCodes Model.Base Model.Text Model.Ls Proofs.BaseFacts Proofs.Text Proofs.Ls.
Import ListNotations.
Local Open Scope N_scope.

Definition value_from (acc : N) (ds : list N) : N := fold_left (fun v c => 10 * v + (c - 48)) ds acc.

Lemma value_from_mono : forall ds acc, acc <= value_from acc ds.
Proof.
  unfold value_from. induction ds as [|c ds IH]; intros acc; cbn [fold_left]; [lia|].
  specialize (IH (10 * acc + (c - 48))). lia.
Qed.

Lemma to_digit_10 : forall c, to_digit 10 c = if is_digit c then Some (c - 48) else None.
Proof.
  intros c. unfold to_digit, is_digit, between. destruct ((48 <=? c) && (c <=? 57)) eqn:D.
  - apply andb_true_iff in D as [A B]. apply N.leb_le in A, B. now rewrite (proj2 (N.ltb_lt (c - 48) 10)) by lia.
  - (* a letter has a value of 10 or more *)
    destruct ((97 <=? c) && (c <=? 122)); [now rewrite (proj2 (N.ltb_ge _ _)) by lia|].
    destruct ((65 <=? c) && (c <=? 90)); [now rewrite (proj2 (N.ltb_ge _ _)) by lia | reflexivity].
Qed.

Lemma digits_u8_spec : forall ds acc, acc <= 255 ->
  digits_u8 10 ds acc =
  if forallb is_digit ds then (if value_from acc ds <=? 255 then Some (value_from acc ds) else None) else None.
Proof.
  induction ds as [|c ds IH]; intros acc Hacc.
  - cbn. apply N.leb_le in Hacc. now rewrite Hacc.
  - cbn [digits_u8 forallb]. rewrite to_digit_10. destruct (is_digit c); cbn [andb]; [|reflexivity].
    replace (acc * 10 + (c - 48)) with (10 * acc + (c - 48)) by lia.
    change (value_from acc (c :: ds)) with (value_from (10 * acc + (c - 48)) ds).
    destruct (10 * acc + (c - 48) <=? 255) eqn:E.
    + apply IH. now apply N.leb_le.
    + apply N.leb_gt in E. pose proof (value_from_mono ds (10 * acc + (c - 48))) as M.
      destruct (forallb is_digit ds); [|reflexivity].
      destruct (N.leb_spec (value_from (10 * acc + (c - 48)) ds) 255); [lia | reflexivity].
Qed.

Lemma digits_u8_strict : forall f, f <> [] -> digits_u8 10 f 0 = strict_u8 f.
Proof.
  intros f Hf. rewrite digits_u8_spec by lia. unfold strict_u8, dec_value, value_from.
  destruct f; [contradiction | reflexivity].
Qed.

Lemma strict_u8_first : forall c ds, is_digit c = false -> strict_u8 (c :: ds) = None.
Proof. intros c ds H. unfold strict_u8. cbn [forallb]. now rewrite H. Qed.

(* outside the open class ('+' followed by a number) the std parser accepts exactly
   the numbers in 0-255 *)
Lemma parse_u8_closed : forall f, open_field f = false -> parse_u8 f = strict_u8 f.
Proof.
  intros [|c rest] Hopen; [reflexivity|].
  unfold parse_u8.
  destruct (N.eq_dec c 43) as [->|N43].
  - (* leading '+' *)
    cbn [open_field] in Hopen. rewrite N.eqb_refl in Hopen. cbn [andb] in Hopen.
    rewrite strict_u8_first by reflexivity. unfold u8_from_str_radix. destruct rest as [|d rest]; [reflexivity|].
    rewrite N.eqb_refl. rewrite digits_u8_strict by discriminate.
    destruct (strict_u8 (d :: rest)); [discriminate Hopen | reflexivity].
  - destruct (N.eq_dec c 45) as [->|N45].
    + (* '-' is not a sign of an unsigned type *)
      rewrite strict_u8_first by reflexivity. unfold u8_from_str_radix. destruct rest as [|d rest]; [reflexivity|].
      cbn [N.eqb Pos.eqb]. cbn [digits_u8]. rewrite to_digit_10. reflexivity.
    + rewrite from_str_no_sign by assumption. apply digits_u8_strict. discriminate.
Qed.

Lemma strict_not_open : forall f v, strict_u8 f = Some v -> open_field f = false.
Proof.
  intros [|c rest] v H; [reflexivity|]. cbn [open_field].
  destruct (N.eqb_spec c 43) as [->|_]; [|reflexivity]. now rewrite strict_u8_first in H.
Qed.

Lemma strict_bound : forall f v, strict_u8 f = Some v -> v <= 255.
Proof.
  intros f v H. unfold strict_u8 in H. destruct f; [discriminate|].
  destruct (forallb is_digit (n :: f)); [|discriminate].
  destruct (dec_value (n :: f) <=? 255) eqn:E; [|discriminate]. injection H as <-. now apply N.leb_le.
Qed.

Lemma dec_facts_b :
  forallb (fun c => match dec c with
                    | d :: _ => is_digit d
                    | [] => false
                    end && forallb is_digit (dec c)
                    && match strict_u8 (dec c) with Some v => v =? c | None => false end) all_bytes = true.
Proof. vm_compute. reflexivity. Qed.

Lemma dec_facts : forall c, c <= 255 ->
  (exists d ds, dec c = d :: ds /\ is_digit d = true) /\ forallb is_digit (dec c) = true /\ strict_u8 (dec c) = Some c.
Proof.
  intros c Hc. assert (Hc' : c < 256) by lia.
  pose proof (forall_bytes _ dec_facts_b c Hc') as H. cbv beta in H.
  apply andb_true_iff in H as [H H3]. apply andb_true_iff in H as [H1 H2].
  split; [|split].
  - destruct (dec c) as [|d ds]; [discriminate|]. now exists d, ds.
  - exact H2.
  - destruct (strict_u8 (dec c)); [|discriminate]. apply N.eqb_eq in H3. now subst.
Qed.

Lemma is_digit_range : forall c, is_digit c = true -> 48 <= c <= 57.
Proof. intros c H. unfold is_digit, between in H. apply andb_true_iff in H as [A B]. apply N.leb_le in A, B. lia. Qed.

Lemma print_field_digits : forall z c, c <= 255 -> forallb is_digit (print_field (z, c)) = true.
Proof.
  intros z c Hc. unfold print_field. cbn [fst snd]. rewrite forallb_app.
  destruct (dec_facts c Hc) as (_ & H & _). rewrite H, andb_true_r.
  induction z; [reflexivity|]. cbn [repeat forallb]. now rewrite IHz.
Qed.

Lemma parse_u8_field : forall z c, c <= 255 -> parse_u8 (print_field (z, c)) = Some c.
Proof.
  intros z c Hc. destruct (dec_facts c Hc) as ((d & ds & Hd & Hdig) & Hall & Hs).
  unfold print_field, parse_u8. cbn [fst snd].
  assert (Hdec : digits_u8 10 (dec c) 0 = Some c).
  { rewrite digits_u8_strict; [exact Hs | rewrite Hd; discriminate]. }
  destruct z as [|z].
  - cbn [repeat app]. rewrite Hd in *. apply is_digit_range in Hdig.
    rewrite from_str_no_sign by lia. exact Hdec.
  - cbn [repeat app]. rewrite from_str_no_sign by (unfold ZERO; lia).
    change (ZERO :: repeat ZERO z ++ dec c) with (repeat 48 (S z) ++ dec c).
    rewrite digits_u8_zeros. exact Hdec.
Qed.

Lemma split_on_join : forall sep fs, fs <> [] ->
  (forall f, In f fs -> ~ In sep f) -> split_on sep (join sep fs) = fs.
Proof.
  intros sep. unfold split_on. induction fs as [|f fs IH]; intros Hne H; [contradiction|].
  assert (Hf : forall c, In c f -> (sep =? c) = false).
  { intros c Hc. apply N.eqb_neq. intros ->. exact (H f (or_introl eq_refl) Hc). }
  destruct fs as [|g fs].
  - cbn [join]. now apply split_pred_clean.
  - change (join sep (f :: g :: fs)) with (f ++ sep :: join sep (g :: fs)).
    rewrite split_pred_app_sep; [|exact Hf|apply N.eqb_refl].
    f_equal. apply IH; [discriminate|]. intros f' Hf'. apply H. now right.
Qed.

Lemma bytes_list_eqb : forall a b, bytes_eqb a b = list_eqb a b.
Proof. induction a as [|x a IH]; intros [|y b]; cbn; try reflexivity. Qed.

Lemma none_strings_agree : forall s, existsb (list_eqb s) ls_none_strings = no_style_string s.
Proof.
  intros s. unfold no_style_string. rewrite !bytes_list_eqb.
  unfold ls_none_strings. cbn [existsb]. rewrite orb_false_r, orb_assoc. reflexivity.
Qed.

Lemma fields_acc_split : forall s cur,
  fields_acc cur s = match split_pred (N.eqb SEMI) s with f :: fs => (rev cur ++ f) :: fs | [] => [] end.
Proof.
  induction s as [|c s IH]; intros cur.
  - cbn. now rewrite app_nil_r.
  - cbn [fields_acc split_pred]. rewrite (N.eqb_sym c SEMI), !IH.
    destruct (split_pred_cons (N.eqb SEMI) s) as (f & fs & ->).
    destruct (SEMI =? c); cbn [rev app]; [now rewrite app_nil_r | now rewrite <- app_assoc].
Qed.

Lemma fields_split : forall s, fields s = split_on ls_separator s.
Proof.
  intros s. unfold fields. rewrite fields_acc_split. unfold split_on. change ls_separator with SEMI.
  destruct (split_pred (N.eqb SEMI) s); reflexivity.
Qed.

Lemma all_some_collect {A} : forall l : list (option A), all_some l = collect_option l.
Proof. reflexivity. Qed.

Theorem ls_is_fold : forall fields : list (nat * N),
  fields <> [] ->
  Forall (fun zc => snd zc <= 255) fields ->
  well_formed (map snd fields) = true ->
  ls_parse (print_codes fields) =
  if no_style_string (print_codes fields) then Some None
  else Some (Some (sgr_codes t_default (map snd fields))).
Proof.
  intros fs Hne Hb Hwf. unfold ls_parse. rewrite none_strings_agree.
  destruct (no_style_string (print_codes fs)); [reflexivity|].
  unfold print_codes. change ls_separator with SEMI.
  rewrite split_on_join.
  - rewrite map_map.
    rewrite (collect_option_map_some (fun x => parse_u8 (print_field x)) snd).
    + rewrite loop_is_fold; [reflexivity | | exact Hwf].
      rewrite Forall_forall in *. intros c Hc. apply in_map_iff in Hc as (zc & <- & Hin). now apply Hb.
    + intros [z c] Hin. rewrite Forall_forall in Hb. specialize (Hb _ Hin). cbn [snd] in *. now apply parse_u8_field.
  - destruct fs; [contradiction | discriminate].
  - intros f Hf Hsemi. apply in_map_iff in Hf as ([z c] & <- & Hin).
    rewrite Forall_forall in Hb. specialize (Hb _ Hin). cbn [snd] in Hb.
    pose proof (print_field_digits z c Hb) as D. rewrite forallb_forall in D.
    specialize (D _ Hsemi). apply is_digit_range in D. unfold SEMI in D. lia.
Qed.

Theorem ls_none :
  ls_parse [] = Some None /\ ls_parse [48] = Some None /\ ls_parse [48; 48] = Some None.
Proof. repeat split; reflexivity. Qed.

(* a field that is not a number in 0-255 (and is not in the open class '+number')
   anywhere in the list: the whole string is rejected *)
Theorem ls_rejects : forall (fs : list (list N)) (f : list N),
  In f fs -> (forall g, In g fs -> ~ In SEMI g) ->
  strict_u8 f = None -> open_field f = false ->
  ls_parse (join SEMI fs) = Some None.
Proof.
  intros fs f Hin Hsemi Hbad Hopen. unfold ls_parse.
  destruct (existsb (list_eqb (join SEMI fs)) ls_none_strings); [reflexivity|].
  change ls_separator with SEMI. rewrite split_on_join; [| destruct fs; [destruct Hin | discriminate] | exact Hsemi].
  rewrite (collect_option_map_none parse_u8 fs f Hin); [reflexivity|].
  rewrite parse_u8_closed by exact Hopen. exact Hbad.
Qed.

Lemma strict_u8_none_iff : forall f,
  strict_u8 f = None <->
  (f = [] \/ (exists c, In c f /\ is_digit c = false) \/ (forallb is_digit f = true /\ 255 < dec_value f)).
Proof.
  intros f. unfold strict_u8. destruct f as [|c f]; [split; [now left | reflexivity]|].
  destruct (forallb is_digit (c :: f)) eqn:E.
  - destruct (N.leb_spec (dec_value (c :: f)) 255).
    + split; [discriminate|]. intros [H0 | [(d & Hd & Hnd) | [_ H2]]]; [discriminate H0 | | lia].
      rewrite forallb_forall in E. rewrite (E d Hd) in Hnd. discriminate.
    + split; [|reflexivity]. intros _. right. right. now split.
  - split; [|reflexivity]. intros _. right. left. now apply forallb_false_ex.
Qed.

Theorem ls_rejects_explicit : forall (fs : list (list N)) (f : list N),
  In f fs -> (forall g, In g fs -> ~ In SEMI g) ->
  (f = [] \/ (exists c, In c f /\ is_digit c = false) \/ (forallb is_digit f = true /\ 255 < dec_value f)) ->
  open_field f = false ->
  ls_parse (join SEMI fs) = Some None.
Proof. intros fs f Hin Hs Hbad Ho. apply (ls_rejects fs f Hin Hs); [now apply strict_u8_none_iff | exact Ho]. Qed.

Theorem ls_no_panic : forall s, ls_parse s <> None.
Proof.
  intros s. unfold ls_parse. destruct (existsb (list_eqb s) ls_none_strings); [discriminate|].
  destruct (collect_option (map parse_u8 (split_on ls_separator s))); discriminate.
Qed.

(* the whole function at once: wherever the statement decides (spec_ls is not
   LsOpen), the model gives exactly that answer -- for every input string *)
Definition answer_of (a : ls_answer) : option tstyle :=
  match a with LsStyle st => Some st | _ => None end.

Theorem ls_model_is_spec : forall s, spec_ls s <> LsOpen -> ls_parse s = Some (answer_of (spec_ls s)).
Proof.
  intros s Hdec. unfold spec_ls in *. unfold ls_parse. rewrite none_strings_agree.
  destruct (no_style_string s); [reflexivity|].
  rewrite !fields_split in *. change (@all_some N) with (@collect_option N) in *.
  set (fs := split_on ls_separator s) in *.
  destruct (collect_option (map strict_u8 fs)) as [codes|] eqn:E.
  - assert (Hp : map parse_u8 fs = map strict_u8 fs).
    { apply map_ext_in. intros f Hf. apply parse_u8_closed.
      apply collect_option_some_all in E.
      assert (In (strict_u8 f) (map Some codes)) as Hs by (rewrite <- E; now apply in_map).
      apply in_map_iff in Hs as (v & Hv & _). symmetry in Hv. now apply (strict_not_open f v). }
    rewrite Hp, E.
    destruct (well_formed codes) eqn:W; [|contradiction].
    cbn [answer_of]. rewrite loop_is_fold; [reflexivity | | exact W].
    apply collect_option_some_all in E. rewrite Forall_forall. intros c Hc.
    assert (In (Some c) (map strict_u8 fs)) as Hs by (rewrite E; now apply in_map).
    apply in_map_iff in Hs as (f & Hf & _). now apply (strict_bound f c).
  - destruct (existsb _ fs) eqn:X; [|contradiction].
    apply existsb_exists in X as (f & Hf & Hb). apply andb_true_iff in Hb as [Ho Hn].
    apply negb_true_iff in Ho.
    rewrite (collect_option_map_none parse_u8 fs f Hf); [reflexivity|].
    rewrite parse_u8_closed by exact Ho. destruct (strict_u8 f); [discriminate | reflexivity].
Qed.
