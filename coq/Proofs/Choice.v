(* C09: the hand model of colour auto-detection is the decision list of the property statement,
   for every environment (choice_is_spec).  On the way: each probe of anstyle_query against the
   convention it implements, as a boolean equation (probe_.._spec) and as a proposition about the
   environment (probe_..); the process-wide cell (atomic_..), the clap flag (flag_..) and the
   stream types that are never a terminal (const_false_..). *)
From Coq Require Import NArith List Bool String Ascii.
From AV Require Import Spec.Choice Generated.Choice Model.Choice.
Import ListNotations.
Local Open Scope N_scope.

Lemma ch_bytes_eq_chs_eqb : forall a b, ch_bytes_eq a b = chs_eqb a b.
Proof.
  induction a as [|x a IH]; destruct b as [|y b]; cbn [ch_bytes_eq chs_eqb].
  1-3: reflexivity.
  destruct (x =? y); [apply IH | reflexivity].
Qed.

Lemma chs_eqb_spec : forall a b, reflect (a = b) (chs_eqb a b).
Proof.
  induction a as [|x a IH]; destruct b as [|y b]; cbn [chs_eqb]; try (constructor; congruence).
  destruct (N.eqb_spec x y) as [->|Hn]; cbn [andb]; [|constructor; congruence].
  destruct (IH b) as [->|Hn]; constructor; congruence.
Qed.

Lemma set_non_empty_iff : forall e v, set_non_empty e v = true <-> exists x, e v = Some x /\ x <> [].
Proof.
  intros e v. unfold set_non_empty. destruct (e v) as [[|c x]|]; split; try discriminate.
  - intros (x & [= <-] & N). contradiction.
  - intros _. exists (c :: x). split; [reflexivity|discriminate].
  - reflexivity.
  - intros (x & E & _). discriminate.
Qed.

Lemma is_set_iff : forall e v, is_set e v = true <-> exists x, e v = Some x.
Proof.
  intros e v. unfold is_set. destruct (e v) as [x|]; split; try discriminate.
  - intros _. exists x. reflexivity.
  - reflexivity.
  - intros [x E]. discriminate.
Qed.

Lemma set_to_iff : forall e v s, set_to e v s = true <-> e v = Some s.
Proof.
  intros e v s. unfold set_to. destruct (e v) as [x|]; [|split; discriminate].
  destruct (chs_eqb_spec x s) as [->|Hn]; split; try reflexivity; try discriminate. intros [= E]. contradiction.
Qed.

Lemma set_other_than_iff : forall e v s, set_other_than e v s = true <-> exists x, e v = Some x /\ x <> s.
Proof.
  intros e v s. unfold set_other_than. destruct (e v) as [x|].
  - destruct (chs_eqb_spec x s) as [->|Hn]; cbn [negb]; split; try discriminate; try reflexivity.
    + intros (x & [= <-] & N). contradiction.
    + intros _. exists x. auto.
  - split; [discriminate|]. intros (x & E & _). discriminate.
Qed.

Lemma spelling_holds : spelling.
Proof. unfold spelling. vm_compute. repeat split. Qed.

(* the hinge between the code's literals (Generated/Choice.v, read off the Rust sources) and the
   names the specification is written with: a changed variable name or literal in the crates
   changes the table and the translation alike, the tie (ChoiceGen.v) still proves, and THIS
   lemma fails -- a failure of the property, not of the tie.  The probes below pick their
   conjuncts by position: add new names at the end *)
Lemma ch_names_published :
  ch_var_no_color = NO_COLOR /\ ch_var_clicolor_force = CLICOLOR_FORCE /\ ch_var_clicolor = CLICOLOR /\
  ch_var_term = TERM /\ ch_var_colorterm = COLORTERM /\ ch_var_ci = CI /\
  ch_lit_clicolor_off = V_0 /\ ch_lit_term_dumb = V_dumb /\
  ch_lit_truecolor = [V_truecolor; V_24bit].
Proof. vm_compute. repeat split. Qed.

Lemma probe_no_color_spec : forall e, ch_no_color e = spec_no_color e.
Proof.
  intro e. unfold ch_no_color, spec_no_color, set_non_empty, ch_non_empty.
  destruct ch_names_published as (-> & _). destruct (e NO_COLOR) as [[|x v]|]; reflexivity.
Qed.

Lemma probe_clicolor_force_spec : forall e, ch_clicolor_force e = spec_clicolor_force e.
Proof.
  intro e. unfold ch_clicolor_force, spec_clicolor_force, set_non_empty, ch_non_empty.
  destruct ch_names_published as (_ & -> & _). destruct (e CLICOLOR_FORCE) as [[|x v]|]; reflexivity.
Qed.

Lemma probe_clicolor_spec : forall e, ch_clicolor e = spec_clicolor e.
Proof.
  intro e. unfold ch_clicolor, spec_clicolor.
  destruct ch_names_published as (_ & _ & -> & _ & _ & _ & -> & _).
  destruct (e CLICOLOR) as [v|]; [|reflexivity]. rewrite ch_bytes_eq_chs_eqb. reflexivity.
Qed.

Lemma probe_term_spec : forall e, ch_term_supports_color e = spec_term_color e.
Proof.
  intro e. unfold ch_term_supports_color, spec_term_color, set_other_than.
  destruct ch_names_published as (_ & _ & _ & -> & _ & _ & _ & -> & _).
  destruct (e TERM) as [v|]; [|reflexivity]. rewrite ch_bytes_eq_chs_eqb.
  destruct (chs_eqb v (V_dumb)); reflexivity.
Qed.

Lemma probe_term_ansi_spec : forall e, ch_term_supports_ansi_color e = spec_term_color e.
Proof. exact probe_term_spec. Qed.

Lemma probe_truecolor_spec : forall e, ch_truecolor e = spec_truecolor e.
Proof.
  intro e. unfold ch_truecolor, spec_truecolor, set_to.
  destruct ch_names_published as (_ & _ & _ & _ & -> & _ & _ & _ & ->).
  destruct (e COLORTERM) as [v|]; cbn [ch_unwrap_or existsb].
  - rewrite !ch_bytes_eq_chs_eqb. rewrite orb_false_r. reflexivity.
  - reflexivity.
Qed.

Lemma probe_is_ci_spec : forall e, ch_is_ci e = spec_is_ci e.
Proof.
  intro e. unfold ch_is_ci, spec_is_ci, is_set.
  destruct ch_names_published as (_ & _ & _ & _ & _ & -> & _). reflexivity.
Qed.

Lemma probe_no_color : forall e,
  ch_no_color e = true <-> exists v, e NO_COLOR = Some v /\ v <> [].
Proof. intro e. rewrite probe_no_color_spec. exact (set_non_empty_iff e NO_COLOR). Qed.

Lemma probe_clicolor_force : forall e,
  ch_clicolor_force e = true <-> exists v, e CLICOLOR_FORCE = Some v /\ v <> [].
Proof. intro e. rewrite probe_clicolor_force_spec. exact (set_non_empty_iff e CLICOLOR_FORCE). Qed.

Lemma probe_clicolor : forall e,
  (ch_clicolor e = None <-> e CLICOLOR = None) /\
  (forall b, ch_clicolor e = Some b <-> exists v, e CLICOLOR = Some v /\ (b = true <-> v <> V_0)).
Proof.
  intro e. rewrite probe_clicolor_spec. unfold spec_clicolor.
  destruct (e CLICOLOR) as [v|].
  - split; [split; discriminate|]. intro b.
    destruct (chs_eqb_spec v V_0) as [->|Hn]; cbn [negb]; split.
    + intros [= <-]. exists V_0. split; [reflexivity|]. split; [discriminate|congruence].
    + intros (w & [= <-] & Hb). destruct b; [destruct Hb as [Hb _]; destruct (Hb eq_refl eq_refl)|reflexivity].
    + intros [= <-]. exists v. tauto.
    + intros (w & [= <-] & Hb). destruct b; [reflexivity|]. apply Hb in Hn. discriminate.
  - split; [split; reflexivity|]. intro b. split; [discriminate|]. intros (w & E & _). discriminate.
Qed.

Lemma probe_term : forall e,
  ch_term_supports_color e = true <-> exists v, e TERM = Some v /\ v <> V_dumb.
Proof. intro e. rewrite probe_term_spec. exact (set_other_than_iff e TERM V_dumb). Qed.

Lemma probe_term_ansi : forall e,
  ch_term_supports_ansi_color e = true <-> exists v, e TERM = Some v /\ v <> V_dumb.
Proof. exact probe_term. Qed.

Lemma probe_truecolor : forall e,
  ch_truecolor e = true <-> e COLORTERM = Some (V_truecolor) \/ e COLORTERM = Some (V_24bit).
Proof.
  intro e. rewrite probe_truecolor_spec. unfold spec_truecolor. rewrite orb_true_iff, !set_to_iff. reflexivity.
Qed.

Lemma probe_is_ci : forall e, ch_is_ci e = true <-> exists v, e CI = Some v.
Proof. intro e. rewrite probe_is_ci_spec. exact (is_set_iff e CI). Qed.

Lemma choice_is_spec : forall global e tty, choice_model global e tty = choice_spec global e tty.
Proof.
  intros global e tty. destruct global; try reflexivity.
  unfold choice_model, choice_spec.
  rewrite probe_no_color_spec, probe_clicolor_force_spec, probe_clicolor_spec, probe_term_spec, probe_is_ci_spec.
  unfold spec_no_color, spec_clicolor_force, spec_clicolor, spec_term_color, spec_is_ci, set_to, set_other_than.
  destruct (set_non_empty e NO_COLOR); [reflexivity|].
  destruct (set_non_empty e CLICOLOR_FORCE); [reflexivity|].
  destruct (e CLICOLOR) as [v|]; cbn [ch_unwrap_or].
  - destruct (chs_eqb v (V_0)); reflexivity.
  - reflexivity.
Qed.

Lemma choice_never_auto : forall global e tty, choice_model global e tty <> ChAuto.
Proof.
  intros global e tty. destruct global; cbn; try discriminate.
  destruct (ch_no_color e); [discriminate|].
  destruct (ch_clicolor_force e); [discriminate|].
  destruct (negb (ch_unwrap_or (ch_clicolor e) true)); [discriminate|].
  destruct (tty && _); discriminate.
Qed.

(* what the statement says about streams that are not terminals: nothing but an
   explicit choice or CLICOLOR_FORCE enables colour *)
Lemma choice_not_terminal : forall e,
  choice_model ChAuto e false = ChAlways -> ch_no_color e = false /\ ch_clicolor_force e = true.
Proof.
  intro e. cbn.
  destruct (ch_no_color e); [discriminate|].
  destruct (ch_clicolor_force e); [auto|].
  destruct (negb (ch_unwrap_or (ch_clicolor e) true)); discriminate.
Qed.

Lemma atomic_roundtrip : forall c, ch_to_choice (ch_from_choice c) = Some c.
Proof. destruct c; reflexivity. Qed.

Lemma atomic_from_injective : forall c d, ch_from_choice c = ch_from_choice d -> c = d.
Proof.
  intros c d H. assert (E : ch_to_choice (ch_from_choice c) = ch_to_choice (ch_from_choice d)) by (rewrite H; reflexivity).
  rewrite !atomic_roundtrip in E. congruence.
Qed.

Lemma global_write_then_read : forall c, ch_global_after_write c = Some c.
Proof. exact atomic_roundtrip. Qed.

Lemma flag_is_spec : forall f, ch_as_choice f = flag_choice_spec f.
Proof. destruct f; reflexivity. Qed.

Lemma flag_injective_named :
  (forall f g, ch_as_choice f = ch_as_choice g -> f = g) /\
  (forall f, choice_word (ch_as_choice f) = flag_word f).
Proof.
  split.
  - intros f g. destruct f, g; cbn; intro H; try reflexivity; discriminate.
  - destruct f; reflexivity.
Qed.

(* typing a flag word selects the choice of that name, and only the three words are flags *)
Lemma flag_word_choice : forall w c,
  ch_flag_choice w = Some c <-> choice_word c = w /\ c <> ChAlwaysAnsi.
Proof.
  intros w c. split.
  - unfold ch_flag_choice, flag_of_word. cbn [find all_flags].
    destruct (chs_eqb_spec w (flag_word FlAuto)) as [->|_].
    { intros [= <-]. split; [reflexivity|discriminate]. }
    destruct (chs_eqb_spec w (flag_word FlAlways)) as [->|_].
    { intros [= <-]. split; [reflexivity|discriminate]. }
    destruct (chs_eqb_spec w (flag_word FlNever)) as [->|_]; [|discriminate].
    intros [= <-]. split; [reflexivity|discriminate].
  - intros [<- N]. destruct c; [reflexivity|contradiction|reflexivity|reflexivity].
Qed.

Lemma const_false_streams : forall ty fd_tty,
  In ty ch_streams_const_false -> ch_is_terminal ty fd_tty = Some false.
Proof.
  intros ty fd_tty H. unfold ch_is_terminal.
  replace (existsb (ch_bytes_eq ty) ch_streams_const_false) with true; [reflexivity|].
  symmetry. apply existsb_exists. exists ty. split; [exact H|].
  rewrite ch_bytes_eq_chs_eqb. destruct (chs_eqb_spec ty ty); congruence.
Qed.

Lemma const_false_streams_choice : forall ty fd_tty global e,
  In ty ch_streams_const_false -> ch_choice_on ty fd_tty global e = Some (choice_spec global e false).
Proof.
  intros. unfold ch_choice_on. rewrite const_false_streams by assumption. rewrite choice_is_spec. reflexivity.
Qed.
