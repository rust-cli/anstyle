(* The functions translated from crates/anstyle/src/{effect.rs,color.rs,style.rs}
   (Generated/StyleFn.v, written by tools/gen_fn_style.py on every run) are extensionally equal to
   the hand model (Model/Style.v over the tables of Generated/Style.v) the theorems of C13 are about.
   A translated function that can panic answers in the option monad ([None] = panic); the lemmas
   then read [= Some (hand model)]: none of them panics. *)
From Coq Require Import NArith List Bool Lia.
From AV Require Import Generated.Style Model.Base Model.Imp Model.Style Generated.StyleFn Proofs.Style.
Import ListNotations.
Local Open Scope N_scope.

Lemma g_eff_new_eq : g_eff_new = e_new.
Proof. reflexivity. Qed.

Lemma g_eff_is_plain_eq e : g_eff_is_plain e = e_is_plain e.
Proof. reflexivity. Qed.

Lemma g_eff_contains_eq s o : g_eff_contains s o = e_contains s o.
Proof. reflexivity. Qed.

Lemma g_eff_insert_eq s o : g_eff_insert s o = e_insert s o.
Proof. reflexivity. Qed.

(* `self.0 &= !other.0`: the complement is taken at the width of the field (u16) *)
Lemma g_eff_remove_eq s o : g_eff_remove s o = e_remove s o.
Proof. reflexivity. Qed.

Lemma g_eff_clear_eq s : g_eff_clear s = e_clear s.
Proof. reflexivity. Qed.

Lemma g_eff_set_eq s o en : g_eff_set s o en = e_set s o en.
Proof. unfold g_eff_set, e_set. destruct en; [apply g_eff_insert_eq | apply g_eff_remove_eq]. Qed.

Lemma g_eff_bitor_eq s o : g_eff_bitor s o = e_bitor s o.
Proof. reflexivity. Qed.

Lemma g_eff_bitor_assign_eq s o : g_eff_bitor_assign s o = e_bitor_assign s o.
Proof. reflexivity. Qed.

Lemma g_eff_sub_eq s o : g_eff_sub s o = e_sub s o.
Proof. reflexivity. Qed.

Lemma g_eff_sub_assign_eq s o : g_eff_sub_assign s o = e_sub_assign s o.
Proof. reflexivity. Qed.

(* Effects::render wraps the set (`EffectsDisplay(self)`); what Display does with it is C05's *)
Lemma g_eff_render_eq e : g_eff_render e = e.
Proof. reflexivity. Qed.

(* the hand model runs an iterator to exhaustion ([iter_loop]); one call of `next` from position
   [i], [n] positions before the end of METADATA, is [e_next]: *)
Fixpoint e_next {A} (item : N -> N -> A) (e : N) (n : nat) (i : N) : option (eff_iter * option A) :=
  match n with
  | O => Some (mkEffIter i e, None)
  | S k =>
      effect <- shl1_u16 i ;;
      if e_contains e effect then Some (mkEffIter (i + 1) e, Some (item i effect))
      else e_next item e k (i + 1)
  end.

(* the 12 of the statements below ([j < 12], [i + N.of_nat n = 12], [j <=? 11]) is this length *)
Lemma len_metadata : len metadata = 12.
Proof. reflexivity. Qed.

Lemma cshl_u16_one i : i < 16 -> cshl 16 1 i = Some (N.shiftl 1 i).
Proof.
  intro H. unfold cshl. rewrite (proj2 (N.ltb_lt _ _) H). f_equal.
  apply N.mod_small. rewrite N.shiftl_1_l. apply N.pow_lt_mono_r; lia.
Qed.

Lemma shl1_u16_small i : i < 16 -> shl1_u16 i = Some (N.shiftl 1 i).
Proof. intro H. unfold shl1_u16. apply N.ltb_lt in H. rewrite H. reflexivity. Qed.

(* The scan both `next` perform, told WITHOUT the loop: the first position in [i, i + n) whose bit is set.
   The proofs below do not depend on how the Rust code spells the loop (in `next` itself, in a shared
   helper over `&mut self.index`, the cursor or the whole iterator as the loop state, `contains(Effects(1 << i))`
   or `self.0 & (1 << i) != 0` as the test, the item built inside or after the loop): the translated loop
   body is only asked to MEAN one step of this scan ([scan_loop]), see HACKING.d/robust_R1.md. *)
Fixpoint e_find (e : N) (n : nat) (i : N) : option N :=
  match n with
  | O => None
  | S k => if N.testbit e i then Some i else e_find e k (i + 1)
  end.

Lemma e_find_range e : forall n i j, e_find e n i = Some j -> i <= j /\ j < i + N.of_nat n.
Proof.
  induction n as [|k IH]; intros i j H; cbn [e_find] in H; [discriminate|].
  destruct (N.testbit e i).
  - injection H as <-. lia.
  - apply IH in H. lia.
Qed.

Lemma e_contains_bit e i : e_contains e (N.shiftl 1 i) = N.testbit e i.
Proof. exact (contains_singleton e i). Qed.

Lemma e_next_find {A} (item : N -> N -> A) e : forall n i, i + N.of_nat n = 12 ->
  e_next item e n i
  = Some (match e_find e n i with
          | Some j => (mkEffIter (j + 1) e, Some (item j (N.shiftl 1 j)))
          | None => (mkEffIter 12 e, None)
          end).
Proof.
  induction n as [|k IH]; intros i Hi; cbn [e_next e_find].
  - replace i with 12 by lia. reflexivity.
  - rewrite shl1_u16_small by lia. cbv iota. rewrite e_contains_bit.
    destruct (N.testbit e i); [reflexivity|]. apply IH. lia.
Qed.

(* ANY loop whose body, in a state that stands for position [i] ([mk i]: the iterator, the bare cursor, a tuple
   with a result variable ..), leaves the loop with [hit i] (a `return` or a `break`, carrying whatever the code
   carries) when bit [i] is set, goes on with the state of [i + 1] when it is not, and leaves with [endv] at the end
   of the table, performs the scan.  [while_fuel] (a loop with a `return` inside) and [while_fuel0] (none). *)
Definition lctl_is_next {S R} (c : lctl S R) : bool := match c with LNext _ => true | _ => false end.
Definition lctl_stop {S R} (c : lctl S R) : S + R :=
  match c with LRet r => inr r | LBreak s => inl s | LNext s => inl s end.

Lemma scan_loop {St X} (step : St -> option (lctl St X)) (mk : N -> St) (hit : N -> lctl St X) (endv : lctl St X) e :
  (forall i, i < 12 -> step (mk i) = Some (if N.testbit e i then hit i else LNext (mk (i + 1)))) ->
  (forall i, lctl_is_next (hit i) = false) ->
  step (mk 12) = Some endv ->
  lctl_is_next endv = false ->
  forall n i wf, i + N.of_nat n = 12 -> (n < wf)%nat ->
  while_fuel wf step (mk i)
  = Some (lctl_stop (match e_find e n i with Some j => hit j | None => endv end)).
Proof.
  intros Hstep Hhit Hend Hendv.
  induction n as [|k IH]; intros i wf Hi Hwf; (destruct wf as [|wf]; [lia|]); cbn [while_fuel e_find].
  - replace i with 12 by lia. rewrite Hend. destruct endv; try discriminate; reflexivity.
  - rewrite Hstep by lia. destruct (N.testbit e i); [|apply IH; lia].
    specialize (Hhit i). destruct (hit i); try discriminate; reflexivity.
Qed.

Lemma scan_loop0 {St} (step : St -> option (bctl St)) (mk : N -> St) (hit : N -> St) (endv : St) e :
  (forall i, i < 12 -> step (mk i) = Some (if N.testbit e i then BBreak (hit i) else BNext (mk (i + 1)))) ->
  step (mk 12) = Some (BBreak endv) ->
  forall n i wf, i + N.of_nat n = 12 -> (n < wf)%nat ->
  while_fuel0 wf step (mk i)
  = Some (match e_find e n i with Some j => hit j | None => endv end).
Proof.
  intros Hstep Hend.
  induction n as [|k IH]; intros i wf Hi Hwf; (destruct wf as [|wf]; [lia|]); cbn [while_fuel0 e_find].
  - replace i with 12 by lia. rewrite Hend. reflexivity.
  - rewrite Hstep by lia. destruct (N.testbit e i); [reflexivity|]. apply IH; lia.
Qed.

(* the same scan written as `for index in self.index..METADATA.len()`: the position is the loop variable, the
   state [s] stays as it is until the loop is left *)
Lemma scan_for {St X} (body : N -> St -> option (lctl St X)) (s : St) (hit : N -> lctl St X) e :
  (forall j, j < 12 -> body j s = Some (if N.testbit e j then hit j else LNext s)) ->
  (forall j, lctl_is_next (hit j) = false) ->
  forall n i, i + N.of_nat n = 12 ->
  for_list body (range_from i n) s
  = Some (match e_find e n i with Some j => lctl_stop (hit j) | None => inl s end).
Proof.
  intros Hbody Hhit.
  induction n as [|k IH]; intros i Hi; cbn [range_from for_list e_find]; [reflexivity|].
  rewrite Hbody by lia. destruct (N.testbit e i); [|apply IH; lia].
  specialize (Hhit i). destruct (hit i); try discriminate; reflexivity.
Qed.

Lemma scan_for0 {St} (body : N -> St -> option (bctl St)) (s : St) (hit : N -> St) e :
  (forall j, j < 12 -> body j s = Some (if N.testbit e j then BBreak (hit j) else BNext s)) ->
  forall n i, i + N.of_nat n = 12 ->
  for_list0 body (range_from i n) s
  = Some (match e_find e n i with Some j => hit j | None => s end).
Proof.
  intros Hbody.
  induction n as [|k IH]; intros i Hi; cbn [range_from for_list0 e_find]; [reflexivity|].
  rewrite Hbody by lia. destruct (N.testbit e i); [reflexivity|]. apply IH; lia.
Qed.

(* normalise a translated loop body applied to the state of a position *)
Ltac scan_norm :=
  cbv beta iota zeta;
  cbn [ei_index ei_effects set_ei_index fst snd];
  rewrite ?len_metadata;
  unfold eff_new, eff_f0;
  rewrite ?cshl_u16_one by lia;
  cbv beta iota zeta;
  cbn [ei_index ei_effects set_ei_index fst snd];
  unfold eff_new, eff_f0;
  rewrite ?g_eff_contains_eq;
  rewrite ?e_contains_bit, ?land_bit_ne0, ?land_bit_ne0', ?land_bit_eq, ?land_bit_eq', ?land_bit_eq0, ?land_bit_eq0',
          ?shr_bit_ne0, ?shr_bit_eq1.

(* the ways of asking "is position j inside the table", for j < 12 *)
Lemma in_table_tests j : j < 12 ->
  (j <? 12) = true /\ (12 <=? j) = false /\ (j =? 12) = false /\ (12 =? j) = false /\ (12 <? j) = false /\ (j <=? 11) = true.
Proof.
  intro H. repeat split;
    first [ apply N.ltb_lt; lia | apply N.leb_gt; lia | apply N.eqb_neq; lia | apply N.ltb_ge; lia | apply N.leb_le; lia ].
Qed.

(* side goal [forall j, j < 12 -> step (mk j) = Some (if N.testbit e j then ?hit j else <next> (mk (j + 1)))] *)
Ltac scan_step_side step e :=
  let j := fresh "j" in let Hj := fresh "Hj" in
  intros j Hj; unfold step; scan_norm;
  let T := fresh "T" in
  destruct (in_table_tests j Hj) as (?T & ?T & ?T & ?T & ?T & ?T);
  repeat match goal with
         | H : _ = true |- _ => rewrite !H
         | H : _ = false |- _ => rewrite !H
         end;
  cbn [negb];
  scan_norm;
  destruct (N.testbit e j); cbn [negb]; reflexivity.

Ltac scan_side_of L tac :=
  match type of L with
  | ?P -> _ => let H := fresh "Hside" in assert (H : P); [ tac | specialize (L H); clear H ]
  end.

(* goal: [<translated next> (mkEffIter i e) = e_next item e n i] under [Hi : i + N.of_nat n = 12] *)
Ltac scan_next e n i Hi :=
  cbv zeta; cbn [ei_index ei_effects set_ei_index];
  rewrite ?len_metadata;
  try replace (N.to_nat (12 - i)) with n by lia;
  let L := fresh "L" in
  (* the repository's `while self.index < METADATA.len()` is the [while_fuel] branch; the other three are reached only
     by sources that spell the scan differently (HACKING.d/robust_R1.md) *)
  lazymatch goal with
  | |- context [for_list ?f (range_from i n) ?s] =>
      let step := fresh "step" in
      set (step := f);
      epose proof (scan_for step s _ e) as L;
      scan_side_of L ltac:(scan_step_side step e);
      scan_side_of L ltac:(intros; reflexivity);
      specialize (L n i Hi); rewrite L; clear L
  | |- context [for_list0 ?f (range_from i n) ?s] =>
      let step := fresh "step" in
      set (step := f);
      epose proof (scan_for0 step s _ e) as L;
      scan_side_of L ltac:(scan_step_side step e);
      specialize (L n i Hi); rewrite L; clear L
  | |- context [while_fuel ?wf ?f ?s] =>
      let mkp := eval pattern i in s in
      lazymatch mkp with
      | ?mk _ =>
          let step := fresh "step" in
          set (step := f);
          epose proof (scan_loop step mk _ _ e) as L;
          scan_side_of L ltac:(scan_step_side step e);
          scan_side_of L ltac:(intros; reflexivity);
          scan_side_of L ltac:(unfold step; scan_norm; reflexivity);
          scan_side_of L ltac:(reflexivity);
          specialize (L n i wf Hi); cbv beta in L;
          rewrite L by (cbn; lia); clear L
      end
  | |- context [while_fuel0 ?wf ?f ?s] =>
      let mkp := eval pattern i in s in
      lazymatch mkp with
      | ?mk _ =>
          let step := fresh "step" in
          set (step := f);
          epose proof (scan_loop0 step mk _ _ e) as L;
          scan_side_of L ltac:(scan_step_side step e);
          scan_side_of L ltac:(unfold step; scan_norm; reflexivity);
          specialize (L n i wf Hi); cbv beta in L;
          rewrite L by (cbn; lia); clear L
      end
  end;
  rewrite (e_next_find _ e n i Hi);
  let Hr := fresh "Hr" in
  pose proof (e_find_range e n i) as Hr;
  let j := fresh "j" in
  destruct (e_find e n i) as [j|];
  [ specialize (Hr j eq_refl) | clear Hr ];
  cbv beta iota zeta delta [lctl_stop];
  cbn [ei_index ei_effects set_ei_index fst snd];
  unfold eff_new, eff_f0;
  rewrite ?cshl_u16_one by lia;
  cbv beta iota zeta;
  cbn [ei_index ei_effects set_ei_index fst snd];
  reflexivity.

(* EffectIter::next, from any position inside the table *)
Lemma g_eff_iter_next_eq e : forall n i, i + N.of_nat n = 12 ->
  g_eff_iter_next (mkEffIter i e) = e_next (fun _ effect => effect) e n i.
Proof. intros n i Hi. unfold g_eff_iter_next. scan_next e n i Hi. Qed.

Lemma g_eff_index_iter_next_eq e : forall n i, i + N.of_nat n = 12 ->
  g_eff_index_iter_next (mkEffIter i e) = e_next (fun index _ => index) e n i.
Proof. intros n i Hi. unfold g_eff_index_iter_next. scan_next e n i Hi. Qed.

Lemma drain_e_next {A} (item : N -> N -> A) (next : eff_iter -> option (eff_iter * option A)) e :
  (forall n i, i + N.of_nat n = 12 -> next (mkEffIter i e) = e_next item e n i) ->
  forall n i df, i + N.of_nat n = 12 -> (n < df)%nat ->
  iter_drain next df (mkEffIter i e) = iter_loop item n i e.
Proof.
  intro Hnext. induction n as [|k IH]; intros i df Hi Hdf; (destruct df as [|df]; [lia|]).
  - cbn [iter_drain iter_loop]. rewrite (Hnext O i Hi). reflexivity.
  - assert (Hlt : i < 16) by lia.
    cbn [iter_drain iter_loop]. rewrite (Hnext (S k) i Hi). cbn [e_next].
    rewrite shl1_u16_small by exact Hlt. cbv iota.
    destruct (e_contains e (N.shiftl 1 i)).
    + rewrite IH by lia. destruct (iter_loop item k (i + 1) e); reflexivity.
    + rewrite <- (Hnext k (i + 1)) by lia.
      specialize (IH (i + 1) (S df)). cbn [iter_drain] in IH. rewrite IH by lia.
      destruct (iter_loop item k (i + 1) e); reflexivity.
Qed.

(* `effects.iter()` / `effects.index_iter()` collected: the translated constructor, then the
   translated `next` until it answers None *)
Definition g_eff_iter_items (e : N) : option (list N) :=
  iter_drain g_eff_iter_next (S (length metadata)) (g_eff_iter e).
Definition g_eff_index_iter_items (e : N) : option (list N) :=
  iter_drain g_eff_index_iter_next (S (length metadata)) (g_eff_index_iter e).

Lemma g_eff_iter_eq e : g_eff_iter_items e = e_iter e.
Proof.
  unfold g_eff_iter_items, g_eff_iter, e_iter.
  apply (drain_e_next (fun _ effect => effect) g_eff_iter_next e (g_eff_iter_next_eq e)); [reflexivity | cbn; lia].
Qed.

Lemma g_eff_index_iter_eq e : g_eff_index_iter_items e = e_index_iter e.
Proof.
  unfold g_eff_index_iter_items, g_eff_index_iter, e_index_iter.
  apply (drain_e_next (fun index _ => index) g_eff_index_iter_next e (g_eff_index_iter_next_eq e)); [reflexivity | cbn; lia].
Qed.

(* for a Debug impl that takes the first name with `next()` before the loop *)
Lemma index_iter_uncons e : forall n i, i + N.of_nat n = 12 ->
  exists l, iter_loop (fun index _ => index) n i e = Some l /\
    match l with
    | [] => exists it', g_eff_index_iter_next (mkEffIter i e) = Some (it', None)
    | x :: t => exists it', g_eff_index_iter_next (mkEffIter i e) = Some (it', Some x)
                 /\ forall df, (12 < df)%nat -> iter_drain g_eff_index_iter_next df it' = Some t
    end.
Proof.
  induction n as [|k IH]; intros i Hi.
  - exists []. split; [reflexivity|]. rewrite (g_eff_index_iter_next_eq e O i Hi). eexists. reflexivity.
  - destruct (IH (i + 1)) as [l' [Hl' Hn]]; [lia|].
    rewrite (g_eff_index_iter_next_eq e (S k) i Hi). cbn [iter_loop e_next]. rewrite shl1_u16_small by lia. cbv iota.
    rewrite Hl'. destruct (e_contains e (N.shiftl 1 i)).
    + exists (i :: l'). split; [reflexivity|]. eexists. split; [reflexivity|]. intros df Hdf.
      rewrite (drain_e_next _ _ e (g_eff_index_iter_next_eq e) k (i + 1) df) by lia. exact Hl'.
    + exists l'. split; [reflexivity|]. rewrite <- (g_eff_index_iter_next_eq e k (i + 1)) by lia. exact Hn.
Qed.

(* the names after the first: every step appends " | " and the name *)
Lemma debug_rest_loop {R} (step : N -> list N -> option (lctl (list N) R)) :
  (forall x acc, step x acc = option_map (fun md => LNext (acc ++ str_bar ++ fst md)) (aget metadata x)) ->
  forall l j acc, for_list step l acc = option_map (fun b => inl (acc ++ b)) (debug_body (S j) l).
Proof.
  intro Hs. induction l as [|x t IH]; intros j acc; cbn [for_list debug_body].
  - cbn [option_map]. rewrite app_nil_r. reflexivity.
  - rewrite Hs. destruct (aget metadata x) as [md|]; [|reflexivity]. cbn [option_map]. rewrite (IH (S j)).
    destruct (debug_body (S (S j)) t) as [rest|]; cbn [option_map]; cbv iota; [|reflexivity].
    rewrite <- !app_assoc. reflexivity.
Qed.

(* `for (i, index) in ..enumerate()`: every step appends the name, after " | " unless i = 0 *)
Lemma debug_enum_loop {R} (step : N * N -> list N -> option (lctl (list N) R)) :
  (forall j x acc, step (j, x) acc
     = option_map (fun md => LNext (acc ++ (if j =? 0 then [] else str_bar) ++ fst md)) (aget metadata x)) ->
  forall l j acc, for_list step (enumerate_from j l) acc = option_map (fun b => inl (acc ++ b)) (debug_body (N.to_nat j) l).
Proof.
  intro Hs. induction l as [|x t IH]; intros j acc; cbn [enumerate_from for_list debug_body].
  - cbn [option_map]. rewrite app_nil_r. reflexivity.
  - rewrite Hs. destruct (aget metadata x) as [md|]; [|reflexivity]. cbn [option_map]. rewrite IH.
    replace (N.to_nat (j + 1)) with (S (N.to_nat j)) by lia.
    destruct (debug_body (S (N.to_nat j)) t) as [rest|]; cbn [option_map]; cbv iota; [|reflexivity].
    destruct (j =? 0) eqn:Ej.
    + apply N.eqb_eq in Ej. subst j. change (N.to_nat 0) with O. cbv iota. rewrite <- !app_assoc. reflexivity.
    + apply N.eqb_neq in Ej. destruct (N.to_nat j) as [|jn] eqn:En; [lia|]. cbv iota. rewrite <- !app_assoc. reflexivity.
Qed.

Ltac debug_enumerate e :=
  change (iter_drain g_eff_index_iter_next (S (length metadata)) (g_eff_index_iter e)) with (g_eff_index_iter_items e);
  rewrite g_eff_index_iter_eq;
  let l := fresh "l" in
  destruct (e_index_iter e) as [l|]; [|reflexivity]; cbv iota;
  unfold enumerate0;
  lazymatch goal with
  | |- context [for_list ?F _ _] =>
      rewrite (debug_enum_loop F)
        by (let j := fresh "j" in intros j ? ?; unfold fmt_write_str, md_name, str_bar; cbv beta iota zeta;
            destruct (j =? 0); cbn [negb]; cbv beta iota zeta;
            destruct (aget metadata _); cbn [option_map]; cbv beta iota zeta; rewrite <- ?app_assoc; reflexivity)
  end;
  change (N.to_nat 0) with O;
  destruct (debug_body 0 l) as [body|]; cbn [option_map]; cbv iota; [|reflexivity];
  unfold fmt_write_str, str_effects_open, str_close; rewrite <- !app_assoc; reflexivity.

Ltac debug_first_then_rest e :=
  let l := fresh "l" in let Hl := fresh "Hl" in let Hn := fresh "Hn" in
  destruct (index_iter_uncons e 12 0 eq_refl) as [l [Hl Hn]];
  unfold e_index_iter; change (length metadata) with 12%nat; rewrite Hl;
  change (g_eff_index_iter e) with (mkEffIter 0 e);
  let x := fresh "x" in let t := fresh "t" in let it' := fresh "it'" in let Hd := fresh "Hd" in
  destruct l as [|x t];
  [ destruct Hn as [it' Hn]; rewrite Hn; cbv beta iota zeta;
    unfold fmt_write_str, str_effects_open, str_close; cbn [debug_body option_map app]; cbv beta iota;
    rewrite <- ?app_assoc; reflexivity
  | destruct Hn as [it' [Hn Hd]]; rewrite Hn; cbv beta iota zeta;
    rewrite Hd by (cbn; lia); cbv beta iota zeta;
    cbn [debug_body]; unfold md_name;
    let md := fresh "md" in
    destruct (aget metadata x) as [md|]; [|reflexivity]; cbv beta iota zeta;
    lazymatch goal with
    | |- context [for_list ?F _ _] =>
        rewrite (debug_rest_loop F) with (j := O)
          by (intros; unfold fmt_write_str, md_name, str_bar; cbv beta iota zeta;
              destruct (aget metadata _); cbn [option_map]; cbv beta iota zeta; rewrite <- ?app_assoc; reflexivity)
    end;
    destruct (debug_body 1 t) as [rest|]; cbn [option_map]; cbv beta iota zeta; [|reflexivity];
    unfold fmt_write_str, str_effects_open, str_close; rewrite <- ?app_assoc; reflexivity ].

(* <Effects as Debug>::fmt appends the hand model's text to what the formatter holds and answers Ok(()) *)
Lemma g_eff_debug_fmt_eq e f :
  g_eff_debug_fmt e f = option_map (fun t => (f ++ t, inl tt)) (e_debug e).
Proof.
  unfold g_eff_debug_fmt, e_debug. cbv zeta.
  lazymatch goal with
  | |- context [enumerate0] =>
      (* the repository's spelling: `for (i, index) in self.index_iter().enumerate()`, the separator chosen by `i != 0` *)
      debug_enumerate e
  | |- context [g_eff_index_iter_next (g_eff_index_iter e)] =>
      (* the first name taken with `next()`, the others in a loop that writes the separator first *)
      debug_first_then_rest e
  end.
Qed.

(* `format!("{:?}", effects)`: an empty formatter, the text it holds afterwards *)
Definition g_eff_debug (e : N) : option (list N) := option_map fst (g_eff_debug_fmt e []).

Lemma g_eff_debug_eq e : g_eff_debug e = e_debug e.
Proof. unfold g_eff_debug. rewrite g_eff_debug_fmt_eq. destruct (e_debug e); reflexivity. Qed.

Lemma g_ansi_bright_eq c yes : g_ansi_bright c yes = Some (ansi_bright c yes).
Proof. destruct c, yes; reflexivity. Qed.

Lemma g_ansi_is_bright_eq c : g_ansi_is_bright c = Some (ansi_is_bright c).
Proof. destruct c; reflexivity. Qed.

Lemma g_a256_index_eq n : g_a256_index n = n.
Proof. reflexivity. Qed.

Lemma g_a256_into_ansi_eq n : g_a256_into_ansi n = Some (ansi256_into_ansi n).
Proof.
  unfold g_a256_into_ansi, g_a256_index, a256_f0, ansi256_into_ansi. cbv zeta.
  destruct n as [|p]; [reflexivity|].
  do 5 (try (destruct p as [p|p|]; try reflexivity)).
Qed.

Lemma g_a256_from_ansi_eq c : g_a256_from_ansi c = Some (ansi256_from c).
Proof. destruct c; reflexivity. Qed.

Lemma g_st_new_eq : g_st_new = st_new.
Proof. reflexivity. Qed.

Lemma g_st_fg_color_eq s v : g_st_fg_color s v = st_fg_color s v.
Proof. reflexivity. Qed.

Lemma g_st_bg_color_eq s v : g_st_bg_color s v = st_bg_color s v.
Proof. reflexivity. Qed.

Lemma g_st_underline_color_eq s v : g_st_underline_color s v = st_underline_color s v.
Proof. reflexivity. Qed.

Lemma g_st_effects_eq s e : g_st_effects s e = st_effects s e.
Proof. reflexivity. Qed.

(* the eight convenience methods, by the name Generated/Style.v gives them *)
Definition g_st_conv (m : conv_method) : style -> style :=
  match m with
  | Conv_bold => g_st_bold
  | Conv_dimmed => g_st_dimmed
  | Conv_italic => g_st_italic
  | Conv_underline => g_st_underline
  | Conv_blink => g_st_blink
  | Conv_invert => g_st_invert
  | Conv_hidden => g_st_hidden
  | Conv_strikethrough => g_st_strikethrough
  end.

Lemma g_st_conv_eq m s : g_st_conv m s = st_conv m s.
Proof. destruct m; reflexivity. Qed.

Lemma g_st_get_fg_color_eq s : g_st_get_fg_color s = st_get_fg_color s.
Proof. reflexivity. Qed.

Lemma g_st_get_bg_color_eq s : g_st_get_bg_color s = st_get_bg_color s.
Proof. reflexivity. Qed.

Lemma g_st_get_underline_color_eq s : g_st_get_underline_color s = st_get_underline_color s.
Proof. reflexivity. Qed.

Lemma g_st_get_effects_eq s : g_st_get_effects s = st_get_effects s.
Proof. reflexivity. Qed.

Lemma g_st_is_plain_eq s : g_st_is_plain s = st_is_plain s.
Proof. reflexivity. Qed.

Lemma g_st_from_effects_eq e : g_st_from_effects e = st_from_effects e.
Proof. reflexivity. Qed.

Lemma g_st_bitor_eq s e : g_st_bitor s e = st_bitor s e.
Proof. reflexivity. Qed.

Lemma g_st_bitor_assign_eq s e : g_st_bitor_assign s e = st_bitor_assign s e.
Proof. reflexivity. Qed.

Lemma g_st_sub_eq s e : g_st_sub s e = st_sub s e.
Proof. reflexivity. Qed.

Lemma g_st_sub_assign_eq s e : g_st_sub_assign s e = st_sub_assign s e.
Proof. reflexivity. Qed.

Lemma g_st_eq_effects_eq s e : g_st_eq_effects s e = st_eq_effects s e.
Proof. reflexivity. Qed.

Theorem translated_effects_are_model :
  g_eff_new = e_new /\
  (forall e, g_eff_is_plain e = e_is_plain e /\ g_eff_clear e = e_clear e /\ g_eff_render e = e /\
             g_eff_iter_items e = e_iter e /\ g_eff_index_iter_items e = e_index_iter e /\ g_eff_debug e = e_debug e) /\
  (forall a b, g_eff_contains a b = e_contains a b /\ g_eff_insert a b = e_insert a b /\ g_eff_remove a b = e_remove a b /\
               g_eff_bitor a b = e_bitor a b /\ g_eff_bitor_assign a b = e_bitor_assign a b /\
               g_eff_sub a b = e_sub a b /\ g_eff_sub_assign a b = e_sub_assign a b) /\
  (forall a b en, g_eff_set a b en = e_set a b en).
Proof.
  split; [exact g_eff_new_eq|]. split; [|split].
  - intro e. repeat split. apply g_eff_iter_eq. apply g_eff_index_iter_eq. apply g_eff_debug_eq.
  - intros a b. repeat split.
  - exact g_eff_set_eq.
Qed.

Theorem translated_colors_are_model :
  (forall c yes, g_ansi_bright c yes = Some (ansi_bright c yes)) /\
  (forall c, g_ansi_is_bright c = Some (ansi_is_bright c)) /\
  (forall n, g_a256_into_ansi n = Some (ansi256_into_ansi n)) /\
  (forall c, g_a256_from_ansi c = Some (ansi256_from_ansi c)).
Proof.
  split; [exact g_ansi_bright_eq|]. split; [exact g_ansi_is_bright_eq|]. split; [exact g_a256_into_ansi_eq|].
  exact g_a256_from_ansi_eq.
Qed.

Theorem translated_style_is_model :
  g_st_new = st_new /\
  (forall s v, g_st_fg_color s v = st_fg_color s v /\ g_st_bg_color s v = st_bg_color s v /\
               g_st_underline_color s v = st_underline_color s v) /\
  (forall s e, g_st_effects s e = st_effects s e /\ g_st_bitor s e = st_bitor s e /\ g_st_bitor_assign s e = st_bitor_assign s e /\
               g_st_sub s e = st_sub s e /\ g_st_sub_assign s e = st_sub_assign s e /\ g_st_eq_effects s e = st_eq_effects s e) /\
  (forall m s, g_st_conv m s = st_conv m s) /\
  (forall s, g_st_get_fg_color s = st_get_fg_color s /\ g_st_get_bg_color s = st_get_bg_color s /\
             g_st_get_underline_color s = st_get_underline_color s /\ g_st_get_effects s = st_get_effects s /\
             g_st_is_plain s = st_is_plain s) /\
  (forall e, g_st_from_effects e = st_from_effects e).
Proof.
  split; [reflexivity|]. split; [intros; repeat split|]. split; [intros; repeat split|].
  split; [exact g_st_conv_eq|]. split; [intros; repeat split|]. exact g_st_from_effects_eq.
Qed.

Theorem translated_style_api_is_model :
  (g_eff_new = e_new /\
   (forall e, g_eff_is_plain e = e_is_plain e /\ g_eff_clear e = e_clear e /\ g_eff_render e = e /\
              g_eff_iter_items e = e_iter e /\ g_eff_index_iter_items e = e_index_iter e /\ g_eff_debug e = e_debug e) /\
   (forall a b, g_eff_contains a b = e_contains a b /\ g_eff_insert a b = e_insert a b /\ g_eff_remove a b = e_remove a b /\
                g_eff_bitor a b = e_bitor a b /\ g_eff_bitor_assign a b = e_bitor_assign a b /\
                g_eff_sub a b = e_sub a b /\ g_eff_sub_assign a b = e_sub_assign a b) /\
   (forall a b en, g_eff_set a b en = e_set a b en)) /\
  ((forall c yes, g_ansi_bright c yes = Some (ansi_bright c yes)) /\
   (forall c, g_ansi_is_bright c = Some (ansi_is_bright c)) /\
   (forall n, g_a256_into_ansi n = Some (ansi256_into_ansi n)) /\
   (forall c, g_a256_from_ansi c = Some (ansi256_from_ansi c))) /\
  (g_st_new = st_new /\
   (forall s v, g_st_fg_color s v = st_fg_color s v /\ g_st_bg_color s v = st_bg_color s v /\
                g_st_underline_color s v = st_underline_color s v) /\
   (forall s e, g_st_effects s e = st_effects s e /\ g_st_bitor s e = st_bitor s e /\ g_st_bitor_assign s e = st_bitor_assign s e /\
                g_st_sub s e = st_sub s e /\ g_st_sub_assign s e = st_sub_assign s e /\ g_st_eq_effects s e = st_eq_effects s e) /\
   (forall m s, g_st_conv m s = st_conv m s) /\
   (forall s, g_st_get_fg_color s = st_get_fg_color s /\ g_st_get_bg_color s = st_get_bg_color s /\
              g_st_get_underline_color s = st_get_underline_color s /\ g_st_get_effects s = st_get_effects s /\
              g_st_is_plain s = st_is_plain s) /\
   (forall e, g_st_from_effects e = st_from_effects e)).
Proof. exact (conj translated_effects_are_model (conj translated_colors_are_model translated_style_is_model)). Qed.
