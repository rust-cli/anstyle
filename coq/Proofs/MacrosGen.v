(* The print macros translated from crates/anstream/src/_macros.rs (Generated/MacrosFn.v, written by
   tools/gen_fn_macros.py and its macro_rules reader) do what the hand models assume about them
   (Model/Glue.v mac_emit / mac_captured / mac_adapted; ocaml/drv_stream.ml `pm`, `tas`):
   * outside tests every arm makes a FRESH AutoStream::auto stream over ITS OWN std handle (print / println: stdout,
     eprint / eprintln: stderr), performs exactly ONE write_fmt on it (println / eprintln: of `format_args_nl!`) and
     panics on an error that is not BrokenPipe; nothing else happens;
   * under test the fragments go through to_adapted_string, which asks the stream the macro names (print: stdout, eprint
     and panic!: stderr) and strips in an in-memory Vec; the text goes to std's own macro;
   * panic!(..) adapts its message for stderr, panic!() is std's.
   A change to one of the arms changes the translation; if it changes the meaning, a proof here fails. *)
From Coq Require Import NArith List Bool Lia.
From AV Require Import Generated.Table Spec.Io Model.Base Model.Imp Model.Utf8parse Model.Parser Model.Strip Model.Stream Model.Glue
  Generated.StreamFn Generated.AutoFn Generated.GlueFn Generated.MacrosFn Proofs.StreamGen Proofs.AutoGen Proofs.GlueGen.
Import ListNotations.
Local Open Scope N_scope.

Section Macros.
Variable lossy : list N -> list N.
Variable fmt_nl : list (list N) -> list (list N).

Lemma mac_mode_decided d : d <> CAuto -> forall d', auto_mode d d' = mac_mode d.
Proof. intros Hd d'. unfold mac_mode. destruct d; [congruence|reflexivity..]. Qed.

(* the two ways the macros make a stream, with a choice that is decided *)
Lemma g_as_new_explicit cf raw d : d <> CAuto -> g_as_new cf raw d = Some (as_of (mac_mode d) sb_new raw).
Proof.
  intros Hd. rewrite g_as_new_eq, auto_new_some by (left; exact Hd). rewrite (mac_mode_decided d Hd). reflexivity.
Qed.

Lemma g_as_auto_decided cf h :
  ac_decided cf <> CAuto -> g_as_auto cf h = Some (as_of (mac_mode (ac_decided cf)) sb_new h).
Proof. intros Hd. rewrite g_as_auto_eq, auto_new_some by (right; exact Hd). reflexivity. Qed.

(* write_fmt on a stream value of the hand model, the answer read back as an io::Result: g_as_op_eq gives the
   equation after [sres_of_unit]; that map is injective, so the equation can be read backwards case by case *)
Lemma g_as_write_fmt_model cf m s w frags :
  g_as_write_fmt cf (as_of m s w) frags =
  match auto_op (ac_wv_all cf) m s w (OWriteFmt frags) with
  | Some (s1, w1, r) => Some (as_of m s1 w1, match r with RErr e => inr e | _ => inl tt end)
  | None => None
  end.
Proof.
  pose proof (g_as_op_eq cf m s w (OWriteFmt frags)) as H. cbn [g_as_op] in H.
  destruct (g_as_write_fmt cf (as_of m s w) frags) as [[a1 [[]|e]]|],
           (auto_op (ac_wv_all cf) m s w (OWriteFmt frags)) as [[[s1 w1] r]|].
  - injection H as <- <-. reflexivity.
  - discriminate H.
  - injection H as <- <-. reflexivity.
  - discriminate H.
  - discriminate H.
  - reflexivity.
Qed.

Lemma g_to_adapted_string_eq cfv ch frags target :
  ch target <> CAuto ->
  g_to_adapted_string lossy cfv ch frags target = mac_adapted lossy (ac_wv_all cfv) (ch target) frags.
Proof.
  intros Hd. unfold g_to_adapted_string, mac_adapted. cbv zeta.
  rewrite (g_as_new_explicit _ _ _ Hd), g_as_write_fmt_model.
  destruct (auto_op (ac_wv_all cfv) (mac_mode (ch target)) sb_new (writer_of []) (OWriteFmt frags)) as [[[s1 w1] r]|];
    [|reflexivity].
  rewrite g_as_into_inner_of. reflexivity.
Qed.

(* what one macro call does: [err] the std stream, [nl] the newline variant *)
Definition mac_model (test : bool) (cfv : acfg) (ch : writer -> cchoice) (cf : acfg) (err nl : bool) (so se : writer)
           (frags : list (list N)) (world : list mevent) : option (list mevent) :=
  let h := if err then se else so in
  if test then mac_captured lossy (ac_wv_all cfv) (ch h) err nl frags world
  else mac_emit cf h (if err then mac_msg_stderr else mac_msg_stdout) (if nl then fmt_nl frags else frags) world.

Definition mac_arm (err nl : bool) (ct ft : bool) (cfv : acfg) (ch : writer -> cchoice) (cf : acfg) (so se : writer)
           (world : list mevent) (args : list (list N)) : option (list mevent) :=
  match err, nl with
  | false, false => g_print_arm0 lossy fmt_nl ct ft cfv ch cf so se world args
  | false, true => g_println_arm1 lossy fmt_nl ct ft cfv ch cf so se world args
  | true, false => g_eprint_arm0 lossy fmt_nl ct ft cfv ch cf so se world args
  | true, true => g_eprintln_arm1 lossy fmt_nl ct ft cfv ch cf so se world args
  end.

(* the non-test path, once: stream constructor, one write_fmt, the match on its answer *)
Definition emit_body (cf : acfg) (mk : option astream) (prefix : list N) (frags : list (list N)) (world : list mevent)
  : option (list mevent) :=
  match mk with
  | Some a =>
      match g_as_write_fmt cf a frags with
      | Some (a1, r) =>
          Some (match r with
                | inr e => world ++ [MWriteFmt a1 (inr e); MPanicIo prefix e]
                | inl u => world ++ [MWriteFmt a1 (inl u)]
                end)
      | None => None
      end
  | None => None
  end.

(* the path under test: the adapted text goes to std's own macro *)
Definition captured_body (cfv : acfg) (ch : writer -> cchoice) (err nl : bool) (frags : list (list N)) (target : writer)
           (world : list mevent) : option (list mevent) :=
  match g_to_adapted_string lossy cfv ch frags target with
  | Some t => Some (world ++ [MStdPrint err nl t])
  | None => None
  end.

Lemma ekindx_never_broken_pipe e : ekindx_eqb (EKOf e) EKBrokenPipe = false.
Proof. destruct e; reflexivity. Qed.

Lemma mac_arm_shape err nl ct ft cfv ch cf so se world args :
  mac_arm err nl ct ft cfv ch cf so se world args =
  if ct || ft then captured_body cfv ch err nl args (if err then se else so) world
  else emit_body cf (g_as_auto cf (if err then se else so)) (if err then mac_msg_stderr else mac_msg_stdout)
                 (if nl then fmt_nl args else args) world.
Proof.
  unfold mac_arm, g_print_arm0, g_println_arm1, g_eprint_arm0, g_eprintln_arm1, captured_body, g_FEATURE_TEST_ACTIVATED.
  (* the 27-byte message literal is folded, or every step below walks through it *)
  fold mac_msg_stdout mac_msg_stderr. cbv zeta. destruct (ct || ft).
  - destruct err, nl; destruct (g_to_adapted_string _ _ _ _ _); reflexivity.
  - rewrite ?translated_stderr_is_auto, ?translated_stdout_is_auto. unfold emit_body.
    destruct err, nl.
    all: destruct (g_as_auto cf _) as [a|]; [|reflexivity].
    all: destruct (g_as_write_fmt cf a _) as [[a1 [[]|e]]|]; [reflexivity| |reflexivity].
    (* no io::Error of the scripted writers is BrokenPipe: the macro panics *)
    all: rewrite ekindx_never_broken_pipe; cbn [negb]; rewrite <- app_assoc; reflexivity.
Qed.

Lemma emit_body_model cf h prefix frags world :
  ac_decided cf <> CAuto ->
  emit_body cf (g_as_auto cf h) prefix frags world = mac_emit cf h prefix frags world.
Proof.
  intros Hd. unfold emit_body, mac_emit. rewrite (g_as_auto_decided _ _ Hd), g_as_write_fmt_model.
  destruct (auto_op (ac_wv_all cf) (mac_mode (ac_decided cf)) sb_new h (OWriteFmt frags)) as [[[s1 w1] [n| |e]]|];
    reflexivity.
Qed.

Lemma captured_body_model cfv ch err nl frags target world :
  ch target <> CAuto ->
  captured_body cfv ch err nl frags target world = mac_captured lossy (ac_wv_all cfv) (ch target) err nl frags world.
Proof. intros Hd. unfold captured_body, mac_captured. rewrite g_to_adapted_string_eq by exact Hd. reflexivity. Qed.

Theorem translated_macros_are_model : forall (err nl ct ft : bool) cfv (ch : writer -> cchoice) cf (so se : writer) world args,
  ac_decided cf <> CAuto -> ch (if err then se else so) <> CAuto ->
  mac_arm err nl ct ft cfv ch cf so se world args = mac_model (ct || ft) cfv ch cf err nl so se args world.
Proof.
  intros. rewrite mac_arm_shape. unfold mac_model.
  destruct (ct || ft); [apply captured_body_model|apply emit_body_model]; assumption.
Qed.

Theorem translated_print_is_model : forall ct ft cfv ch cf so se world args,
  ac_decided cf <> CAuto -> ch so <> CAuto ->
  g_print_arm0 lossy fmt_nl ct ft cfv ch cf so se world args = mac_model (ct || ft) cfv ch cf false false so se args world.
Proof. intros ct ft. exact (translated_macros_are_model false false ct ft). Qed.

Theorem translated_println_is_model : forall ct ft cfv ch cf so se world args,
  ac_decided cf <> CAuto -> ch so <> CAuto ->
  g_println_arm1 lossy fmt_nl ct ft cfv ch cf so se world args = mac_model (ct || ft) cfv ch cf false true so se args world.
Proof. intros ct ft. exact (translated_macros_are_model false true ct ft). Qed.

Theorem translated_eprint_is_model : forall ct ft cfv ch cf so se world args,
  ac_decided cf <> CAuto -> ch se <> CAuto ->
  g_eprint_arm0 lossy fmt_nl ct ft cfv ch cf so se world args = mac_model (ct || ft) cfv ch cf true false so se args world.
Proof. intros ct ft. exact (translated_macros_are_model true false ct ft). Qed.

Theorem translated_eprintln_is_model : forall ct ft cfv ch cf so se world args,
  ac_decided cf <> CAuto -> ch se <> CAuto ->
  g_eprintln_arm1 lossy fmt_nl ct ft cfv ch cf so se world args = mac_model (ct || ft) cfv ch cf true true so se args world.
Proof. intros ct ft. exact (translated_macros_are_model true true ct ft). Qed.

(* println!() / eprintln!() are print!("\n") / eprint!("\n"): the one fragment "\n", no `format_args_nl!` *)
Theorem translated_empty_println_is_print : forall ct ft cfv ch cf so se world,
  g_println_arm0 lossy fmt_nl ct ft cfv ch cf so se world = g_print_arm0 lossy fmt_nl ct ft cfv ch cf so se world [[10]] /\
  g_eprintln_arm0 lossy fmt_nl ct ft cfv ch cf so se world = g_eprint_arm0 lossy fmt_nl ct ft cfv ch cf so se world [[10]].
Proof.
  intros. unfold g_println_arm0, g_eprintln_arm0. split.
  - destruct (g_print_arm0 lossy fmt_nl ct ft cfv ch cf so se world [[10]]); reflexivity.
  - destruct (g_eprint_arm0 lossy fmt_nl ct ft cfv ch cf so se world [[10]]); reflexivity.
Qed.

(* panic!(..): the message is adapted for STDERR (asked through ch), whatever the test configuration; panic!() is std's *)
Theorem translated_panic_is_model : forall ct ft cfv ch cf so se world args,
  ch se <> CAuto ->
  g_panic_arm1 lossy fmt_nl ct ft cfv ch cf so se world args =
  match mac_adapted lossy (ac_wv_all cfv) (ch se) args with Some t => Some (world ++ [MPanic t]) | None => None end.
Proof.
  intros. unfold g_panic_arm1. rewrite g_to_adapted_string_eq by assumption.
  destruct (mac_adapted lossy (ac_wv_all cfv) (ch se) args); reflexivity.
Qed.

Theorem translated_panic_empty : forall ct ft cfv ch cf so se world,
  g_panic_arm0 lossy fmt_nl ct ft cfv ch cf so se world = world ++ [MPanicExplicit].
Proof. reflexivity. Qed.

(* C08 / C09: outside tests the stream that is WRITTEN TO is the stream whose own answers (cf: choice(&raw), terminal-ness)
   decided the mode -- the handle the macro names -- and the other handle is not touched: the event is ONE write_fmt whose
   resulting stream is [as_of (mac_mode ..) s1 w1] with (s1, w1) the hand model's run over THAT handle *)
Theorem translated_print_writes_own_stream : forall cfv ch cf so se world args,
  ac_decided cf <> CAuto ->
  forall err nl,
  mac_arm err nl false false cfv ch cf so se world args =
  match auto_op (ac_wv_all cf) (mac_mode (ac_decided cf)) sb_new (if err then se else so)
                (OWriteFmt (if nl then fmt_nl args else args)) with
  | Some (s1, w1, r) =>
      Some (world ++ MWriteFmt (as_of (mac_mode (ac_decided cf)) s1 w1) (match r with RErr e => inr e | _ => inl tt end)
                     :: match r with RErr e => [MPanicIo (if err then mac_msg_stderr else mac_msg_stdout) e] | _ => [] end)
  | None => None
  end.
Proof.
  intros cfv ch cf so se world args Hd err nl. rewrite mac_arm_shape. cbn [orb].
  rewrite emit_body_model by exact Hd. unfold mac_emit.
  destruct (auto_op (ac_wv_all cf) (mac_mode (ac_decided cf)) sb_new _ _) as [[[s1 w1] [n| |e]]|]; reflexivity.
Qed.

(* C19: a macro call outside tests is ONE Write-method call (write_fmt) on a stream nobody else holds (first conjunct:
   the arm's only effect is that operation on the fresh stream); by the lock translation of Generated/AutoFn.v
   (Proofs/AutoGen.v translated_ops_lock_once) that call takes the std lock exactly once, around all its inner writes:
   the lock log of the handle grows by one Acquire / Release pair (second conjunct) *)
Theorem translated_macro_lock_once : forall (err nl : bool) cfv ch cf (so se : writer) world args log a,
  g_as_auto cf (if err then se else so) = Some a ->
  mac_arm err nl false false cfv ch cf so se world args =
  match g_as_op cf a (OWriteFmt (if nl then fmt_nl args else args)) with
  | Some (a1, r) =>
      Some (world ++ MWriteFmt a1 (match r with RErr e => inr e | _ => inl tt end)
                     :: match r with RErr e => [MPanicIo (if err then mac_msg_stderr else mac_msg_stdout) e] | _ => [] end)
  | None => None
  end /\
  gl_as_op cf (las_with log a) (OWriteFmt (if nl then fmt_nl args else args)) =
  match g_as_op cf a (OWriteFmt (if nl then fmt_nl args else args)) with
  | Some (a1, r) => Some (las_with (lock_once log (as_writer a) (as_writer a1)) a1, r)
  | None => None
  end.
Proof.
  intros err nl cfv ch cf so se world args log a Ha. split; [|apply translated_ops_lock_once].
  rewrite mac_arm_shape, Ha. cbn [orb g_as_op]. unfold emit_body, conv_as.
  destruct (g_as_write_fmt cf a _) as [[a1 [[]|e]]|]; reflexivity.
Qed.

End Macros.
