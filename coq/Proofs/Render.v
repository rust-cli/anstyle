(* Lemmas for C05.  What a style emits is a list of fragments that depends on
   neither sink nor format flags ([slots_pieces]); each is a control sequence
   with the parameter groups of Spec/Render.rn_groups_of, is read back as those
   groups (Proofs/VtSgrRead.v) and strips to nothing; applying the groups by the
   SGR rules gives the style back. *)
From Coq Require Import NArith Arith List Bool Lia.
From AV Require Import Generated.Style Generated.Render Spec.Utf8 Spec.Vt Spec.Strip Spec.Sgr Spec.Algebra
  Spec.Render Model.Base Model.Style Model.Render Proofs.FilterFacts Proofs.Style Proofs.SgrRender.
From AV Require Export Proofs.VtSgrRead.
Import ListNotations.
Local Open Scope N_scope.

Lemma strip_run_app s a b :
  strip_run s (a ++ b) =
  let '(s1, o1) := strip_run s a in let '(s2, o2) := strip_run s1 b in (s2, o1 ++ o2).
Proof.
  revert s. induction a as [|x a IH]; intros s; cbn [app strip_run].
  - destruct (strip_run s b); reflexivity.
  - destruct (strip_step s x) as [s1 k]. rewrite IH.
    destruct (strip_run s1 a) as [s2 o2]. destruct (strip_run s2 b) as [s3 o3].
    destruct k; reflexivity.
Qed.

Lemma strip_param_step v b : csi_collecting v -> 48 <= b <= 59 ->
  strip_step (mkS v None) b = (mkS VCsiParam None, false).
Proof.
  intros Hv Hb. unfold strip_step, plain_step. cbn [su sv].
  destruct Hv as [-> | ->]; [rewrite (trans_entry_param b Hb) | rewrite (trans_param_param b Hb)]; reflexivity.
Qed.

Lemma strip_params bs : forall v,
  csi_collecting v -> Forall (fun b => 48 <= b <= 59) bs ->
  exists v', csi_collecting v' /\ strip_run (mkS v None) bs = (mkS v' None, []).
Proof.
  induction bs as [|b t IH]; intros v Hv Hb.
  - exists v. split; [exact Hv|reflexivity].
  - inversion Hb as [|? ? Hb1 Hb2]; subst.
    destruct (IH VCsiParam (or_intror eq_refl) Hb2) as (v' & Hv' & E).
    exists v'. split; [exact Hv'|]. cbn [strip_run]. rewrite (strip_param_step v b Hv Hb1), E. reflexivity.
Qed.

Lemma strip_csi gs : rn_csi_ok gs = true -> strip_run s_init (rn_csi gs 109) = (s_init, []).
Proof.
  intros Hok. apply csi_ok_digits, print_params_bytes in Hok.
  unfold rn_csi, s_init. cbn [strip_run]. unfold strip_step at 1. cbn [su sv]. unfold plain_step at 1.
  change (vt_trans VGround 27) with (Some VEscape, TNone). cbn [keeps].
  unfold strip_step at 1. cbn [su sv]. unfold plain_step at 1.
  change (vt_trans VEscape 91) with (Some VCsiEntry, TNone). cbn [keeps].
  destruct (strip_params (rn_print_params gs) VCsiEntry (or_introl eq_refl) Hok) as (v' & Hv' & E).
  rewrite strip_run_app, E. cbn [strip_run]. unfold strip_step, plain_step. cbn [su sv].
  destruct Hv' as [-> | ->]; reflexivity.
Qed.

Lemma strip_pieces ps gs :
  Forall2 (fun p g => exists pr, rn_csi_ok pr = true /\ p = rn_csi pr 109 /\ rn_param_values pr = g) ps gs ->
  strip_run s_init (concat ps) = (s_init, []).
Proof.
  revert gs. induction ps as [|p t IH]; intros gs H; inversion H; subst; clear H; [reflexivity|].
  destruct H2 as (pr & Hok & -> & _). cbn [concat].
  rewrite strip_run_app, (strip_csi pr Hok), (IH _ H4). reflexivity.
Qed.

(* what write_code stores *)
Definition rn_code_digits (n : N) : list N :=
  (if (n / 100) mod 10 =? 0 then [] else [48 + (n / 100) mod 10]) ++ [48 + (n / 10) mod 10; 48 + n mod 10].

Definition cap : nat := N.to_nat rn_display_buffer_capacity.

Lemma buf_put_ok b x : (length b < cap)%nat -> rn_buf_put b x = Some (b ++ [x]).
Proof.
  intros H. unfold rn_buf_put. replace (N.of_nat (length b) <? rn_display_buffer_capacity) with true; [reflexivity|].
  symmetry. apply N.ltb_lt. unfold cap in H. lia.
Qed.

Lemma buf_put_full b x : (cap <= length b)%nat -> rn_buf_put b x = None.
Proof.
  intros H. unfold rn_buf_put. replace (N.of_nat (length b) <? rn_display_buffer_capacity) with false; [reflexivity|].
  symmetry. apply N.ltb_ge. unfold cap in H. lia.
Qed.

Lemma buf_write_str_ok p : forall b, (length b + length p <= cap)%nat -> rn_buf_write_str b p = Some (b ++ p).
Proof.
  induction p as [|x t IH]; intros b H; cbn [rn_buf_write_str].
  - now rewrite app_nil_r.
  - cbn [length] in H. rewrite buf_put_ok by lia. rewrite IH by (rewrite app_length; cbn [length]; lia).
    now rewrite <- app_assoc.
Qed.

Lemma code_digits_length n : (length (rn_code_digits n) <= 3)%nat.
Proof. unfold rn_code_digits. destruct (_ =? 0); cbn; lia. Qed.

Lemma write_code_ok b n : (length b + 3 <= cap)%nat -> rn_write_code b n = Some (b ++ rn_code_digits n).
Proof.
  intros H. unfold rn_write_code, rn_code_digits. rewrite orb_true_r.
  destruct ((n / 100) mod 10 =? 0); cbn [negb app].
  - rewrite !buf_put_ok by (rewrite ?app_length; cbn [length]; lia). now rewrite <- app_assoc.
  - rewrite !buf_put_ok by (rewrite ?app_length; cbn [length]; lia). now rewrite <- !app_assoc.
Qed.

Lemma digit_add c : c < 10 -> rn_is_digit (48 + c) = true.
Proof. intros H. apply andb_true_iff. split; apply N.leb_le; lia. Qed.

(* 1000: three digits, so in particular every u8 *)
Lemma code_digits_spec n : n < 1000 ->
  forallb rn_is_digit (rn_code_digits n) = true /\ rn_dec_value (rn_code_digits n) = n /\
  (1 <= length (rn_code_digits n) <= 3)%nat.
Proof.
  intros Hn. unfold rn_code_digits.
  assert (D : n = 100 * ((n / 100) mod 10) + 10 * ((n / 10) mod 10) + n mod 10 /\
              (n / 100) mod 10 < 10 /\ (n / 10) mod 10 < 10 /\ n mod 10 < 10).
  { rewrite (N.mod_small (n / 100)) by (apply N.div_lt_upper_bound; lia).
    replace (n / 100) with (n / 10 / 10) by (rewrite N.div_div by lia; reflexivity).
    pose proof (N.div_mod n 10). pose proof (N.div_mod (n / 10) 10).
    pose proof (N.mod_lt n 10). pose proof (N.mod_lt (n / 10) 10).
    assert (n / 10 / 10 < 10) by (rewrite N.div_div by lia; apply N.div_lt_upper_bound; lia). lia. }
  revert D. generalize ((n / 100) mod 10) ((n / 10) mod 10) (n mod 10). intros c1 c2 c3 (D & H1 & H2 & H3).
  unfold rn_dec_value, rn_dec_from.
  destruct (N.eqb_spec c1 0) as [Z|Z]; cbn [app forallb fold_left length];
    rewrite !digit_add by assumption; (split; [reflexivity | lia]).
Qed.

Lemma code_digits_ok n : n < 256 -> rn_digits_ok (rn_code_digits n) = true.
Proof.
  intros H. destruct (code_digits_spec n ltac:(lia)) as (A & B & _).
  unfold rn_digits_ok. rewrite A, B. cbn [andb]. apply N.ltb_lt. lia.
Qed.

Fixpoint rn_parts_bytes (ps : list rn_part) (fields : list N) : list N :=
  match ps with
  | [] => []
  | RnStr s :: t => s ++ rn_parts_bytes t fields
  | RnCode k :: t => rn_code_digits (nth k fields 0) ++ rn_parts_bytes t fields
  end.

Fixpoint rn_parts_max (ps : list rn_part) : nat :=
  match ps with
  | [] => 0
  | RnStr s :: t => length s + rn_parts_max t
  | RnCode _ :: t => 3 + rn_parts_max t
  end.

Definition rn_part_fits (n : nat) (p : rn_part) : Prop :=
  match p with RnCode k => (k < n)%nat | RnStr _ => True end.

Lemma run_parts_ok ps : forall b fields,
  (length b + rn_parts_max ps <= cap)%nat -> Forall (rn_part_fits (length fields)) ps ->
  rn_run_parts b ps fields = Some (b ++ rn_parts_bytes ps fields) /\
  (length (b ++ rn_parts_bytes ps fields) <= cap)%nat.
Proof.
  induction ps as [|[s|k] t IH]; intros b fields H F; cbn [rn_run_parts rn_parts_bytes rn_parts_max] in *.
  - rewrite app_nil_r. split; [reflexivity | lia].
  - inversion F; subst. rewrite buf_write_str_ok, app_assoc by lia.
    apply IH; [rewrite app_length; lia | assumption].
  - inversion F as [|? ? Hk F']; subst. cbn [rn_part_fits] in Hk.
    rewrite (nth_error_nth' fields 0 Hk), write_code_ok, app_assoc by lia.
    pose proof (code_digits_length (nth k fields 0)).
    apply IH; [rewrite app_length; lia | assumption].
Qed.

(* canonical decimal form, used to name the printed form of the table entries *)
Definition rn_print_dec (n : N) : list N :=
  if n <? 10 then [48 + n]
  else if n <? 100 then [48 + n / 10; 48 + n mod 10]
  else [48 + n / 100; 48 + (n / 10) mod 10; 48 + n mod 10].
Definition rn_print_groups (g : list (list N)) : list (list (list N)) := map (map rn_print_dec) g.

(* for a concrete table entry the three hypotheses are closed and hold by evaluation *)
Lemma table_entry_sgr p g :
  rn_csi_ok (rn_print_groups g) = true -> p = rn_csi (rn_print_groups g) 109 ->
  rn_param_values (rn_print_groups g) = g -> rn_is_sgr p g.
Proof. intros A B C. exists (rn_print_groups g). auto. Qed.

Definition rn_color_wf (c : color) : Prop := rn_colour_wf (rn_colour c).

Definition rn_buffer_piece (b : option rn_buf) (g : list (list N)) : Prop :=
  exists p, b = Some p /\ (length p <= cap)%nat /\ rn_is_sgr p g.

(* [parts] is left to be unified with the generated builder chain and is determined by the equation, a closed side goal:
   [apply] then never has to unify two long concrete lists.  [d1; d2] are the digits of [code]
   (51 56 = "38", 52 56 = "48", 53 56 = "58"). *)
Lemma idx_buffer code d1 d2 parts n :
  parts = [RnStr [27; 91; d1; d2; 59; 53; 59]; RnCode 0%nat; RnStr [109]] ->
  rn_dec_value [d1; d2] = code -> rn_digits_ok [d1; d2] = true ->
  n < 256 ->
  rn_buffer_piece (rn_run_parts rn_buf_new parts [n]) [[code]; [5]; [n]].
Proof.
  intros -> Hv Hd Hn.
  destruct (run_parts_ok [RnStr [27; 91; d1; d2; 59; 53; 59]; RnCode 0%nat; RnStr [109]] rn_buf_new [n]) as [E L];
    [cbn; lia | repeat constructor |].
  eexists. split; [exact E|]. split; [exact L|].
  exists [[[d1; d2]]; [[53]]; [rn_code_digits n]]. split; [|split].
  - apply csi_ok_iff. split; [reflexivity | split; [|cbn; lia]].
    repeat constructor; try assumption. now apply code_digits_ok.
  - reflexivity.
  - unfold rn_param_values. cbn [map]. rewrite Hv.
    destruct (code_digits_spec n ltac:(lia)) as (_ & -> & _). reflexivity.
Qed.

Lemma rgb_buffer code d1 d2 parts r g b :
  parts = [RnStr [27; 91; d1; d2; 59; 50; 59]; RnCode 0%nat; RnStr [59]; RnCode 1%nat; RnStr [59]; RnCode 2%nat; RnStr [109]] ->
  rn_dec_value [d1; d2] = code -> rn_digits_ok [d1; d2] = true ->
  r < 256 -> g < 256 -> b < 256 ->
  rn_buffer_piece (rn_run_parts rn_buf_new parts [r; g; b]) [[code]; [2]; [r]; [g]; [b]].
Proof.
  intros -> Hv Hd Hr Hg Hb.
  destruct (run_parts_ok [RnStr [27; 91; d1; d2; 59; 50; 59]; RnCode 0%nat; RnStr [59]; RnCode 1%nat; RnStr [59];
                          RnCode 2%nat; RnStr [109]] rn_buf_new [r; g; b]) as [E L];
    [cbn; lia | repeat constructor |].
  eexists. split; [exact E|]. split; [exact L|].
  exists [[[d1; d2]]; [[50]]; [rn_code_digits r]; [rn_code_digits g]; [rn_code_digits b]]. split; [|split].
  - apply csi_ok_iff. split; [reflexivity | split; [|cbn; lia]].
    repeat constructor; try assumption; now apply code_digits_ok.
  - cbn [rn_buf_new rn_parts_bytes nth app]. unfold rn_csi, rn_print_params. cbn [map rn_join app].
    rewrite <- !app_assoc. cbn [app]. rewrite <- !app_assoc. reflexivity.
  - unfold rn_param_values. cbn [map]. rewrite Hv.
    destruct (code_digits_spec r ltac:(lia)) as (_ & -> & _).
    destruct (code_digits_spec g ltac:(lia)) as (_ & -> & _).
    destruct (code_digits_spec b ltac:(lia)) as (_ & -> & _). reflexivity.
Qed.

Lemma ansi_disc_lt a : ansi_disc a < 16.
Proof. destruct a; reflexivity. Qed.

Lemma str_buffer p g : (length p <=? cap)%nat = true -> rn_is_sgr p g ->
  rn_buffer_piece (rn_buf_write_str rn_buf_new p) g.
Proof.
  intros L S. apply Nat.leb_le in L. exists p. rewrite buf_write_str_ok by exact L. auto.
Qed.

Lemma ansi_fg_piece a : rn_buffer_piece (rn_ansi_fg_buffer a) (rn_fg_groups (CAnsi (ansi_disc a))).
Proof. destruct a; (apply str_buffer; [|apply table_entry_sgr]; reflexivity). Qed.

Lemma ansi_bg_piece a : rn_buffer_piece (rn_ansi_bg_buffer a) (rn_bg_groups (CAnsi (ansi_disc a))).
Proof. destruct a; (apply str_buffer; [|apply table_entry_sgr]; reflexivity). Qed.

Lemma ansi256_from_disc a : ansi256_from a = ansi_disc a.
Proof. destruct a; reflexivity. Qed.

Lemma color_fg_piece c : rn_color_wf c -> rn_buffer_piece (rn_color_fg_buffer c) (rn_fg_groups (rn_colour c)).
Proof.
  unfold rn_color_wf. destruct c as [a|n|r g b]; cbn [rn_colour rn_colour_wf rn_color_fg_buffer].
  - intros _. apply ansi_fg_piece.
  - intros H. apply (idx_buffer 38 51 56); try reflexivity; assumption.
  - intros (Hr & Hg & Hb). apply (rgb_buffer 38 51 56); try reflexivity; assumption.
Qed.

Lemma color_bg_piece c : rn_color_wf c -> rn_buffer_piece (rn_color_bg_buffer c) (rn_bg_groups (rn_colour c)).
Proof.
  unfold rn_color_wf. destruct c as [a|n|r g b]; cbn [rn_colour rn_colour_wf rn_color_bg_buffer].
  - intros _. apply ansi_bg_piece.
  - intros H. apply (idx_buffer 48 52 56); try reflexivity; assumption.
  - intros (Hr & Hg & Hb). apply (rgb_buffer 48 52 56); try reflexivity; assumption.
Qed.

(* a 16-colour underline is rendered as its index in the 256-colour palette *)
Lemma color_ul_piece c : rn_color_wf c -> rn_buffer_piece (rn_color_ul_buffer c) (rn_ul_groups (rn_colour c)).
Proof.
  unfold rn_color_wf. destruct c as [a|n|r g b]; cbn [rn_colour rn_colour_wf rn_color_ul_buffer].
  - intros H. unfold rn_ansi_ul_buffer. rewrite ansi256_from_disc.
    apply (idx_buffer 58 53 56); try reflexivity. lia.
  - intros H. apply (idx_buffer 58 53 56); try reflexivity; assumption.
  - intros (Hr & Hg & Hb). apply (rgb_buffer 58 53 56); try reflexivity; assumption.
Qed.

(* no DisplayBuffer write is out of bounds (DISPLAY_BUFFER_CAPACITY) *)
Lemma buffer_bound c : rn_color_wf c ->
  (exists p, rn_color_fg_buffer c = Some p /\ N.of_nat (length p) <= rn_display_buffer_capacity) /\
  (exists p, rn_color_bg_buffer c = Some p /\ N.of_nat (length p) <= rn_display_buffer_capacity) /\
  (exists p, rn_color_ul_buffer c = Some p /\ N.of_nat (length p) <= rn_display_buffer_capacity).
Proof.
  intros H.
  destruct (color_fg_piece c H) as (p1 & E1 & L1 & _).
  destruct (color_bg_piece c H) as (p2 & E2 & L2 & _).
  destruct (color_ul_piece c H) as (p3 & E3 & L3 & _).
  unfold cap in *. repeat split; eexists; (split; [eassumption|lia]).
Qed.

(* the capacity is exactly what is needed: an RGB colour with three-digit components *)
Lemma buffer_bound_tight : option_map (@length N) (rn_color_ul_buffer (CoRgb 255 255 255)) = Some cap.
Proof. reflexivity. Qed.

Lemma write_code_decimal n : n < 256 ->
  exists ds, rn_write_code rn_buf_new n = Some ds /\ forallb rn_is_digit ds = true /\
             rn_dec_value ds = n /\ (1 <= length ds <= 3)%nat.
Proof.
  intros H. exists (rn_code_digits n). split.
  - rewrite write_code_ok by (cbn; lia). reflexivity.
  - apply code_digits_spec. lia.
Qed.

Definition rn_add_out (f : rn_fmt) (bs : list N) : rn_fmt := rn_f_write_str f bs.

Lemma write_str_twice f a b : rn_f_write_str (rn_f_write_str f a) b = rn_f_write_str f (a ++ b).
Proof. unfold rn_f_write_str. cbn. now rewrite app_assoc. Qed.

Lemma write_str_nil f : rn_f_write_str f [] = f.
Proof. destruct f. unfold rn_f_write_str. cbn. now rewrite app_nil_r. Qed.

(* The fragments a style emits depend on the value alone: neither on the sink (a
   Formatter or an io::Write) nor on what was written before.  [None]: building
   them panics.  Both paths of the model are "append these". *)
Fixpoint effects_pieces (l : list N) : option (list (list N)) :=
  match l with
  | [] => Some []
  | i :: t => md <- aget metadata i ;; r <- effects_pieces t ;; Some (snd md :: r)
  end.

Definition rn_effects_pieces (e : N) : option (list (list N)) := l <- e_index_iter e ;; effects_pieces l.

Definition ocolor_pieces (buffer : color -> option rn_buf) (o : option color) : option (list (list N)) :=
  match o with Some c => b <- buffer c ;; Some [b] | None => Some [] end.

Definition slot_pieces (s : style) (sl : rn_slot) : option (list (list N)) :=
  match sl with
  | RnEffects => rn_effects_pieces (st_eff s)
  | RnFg => ocolor_pieces rn_color_fg_buffer (st_fg s)
  | RnBg => ocolor_pieces rn_color_bg_buffer (st_bg s)
  | RnUl => ocolor_pieces rn_color_ul_buffer (st_ul s)
  end.

Fixpoint slots_pieces (s : style) (l : list rn_slot) : option (list (list N)) :=
  match l with
  | [] => Some []
  | sl :: t => a <- slot_pieces s sl ;; b <- slots_pieces s t ;; Some (a ++ b)
  end.

Definition fmt_add (f : rn_fmt) (ps : list (list N)) : rn_fmt := rn_f_write_str f (concat ps).

Lemma fmt_add_nil f : fmt_add f [] = f.
Proof. apply write_str_nil. Qed.

Lemma fmt_add_app f a b : fmt_add (fmt_add f a) b = fmt_add f (a ++ b).
Proof. unfold fmt_add. now rewrite write_str_twice, concat_app. Qed.

Lemma write_effects_pieces e w : rn_write_effects e w = option_map (app w) (rn_effects_pieces e).
Proof.
  unfold rn_write_effects, rn_effects_pieces. destruct (e_index_iter e) as [l|]; [|reflexivity].
  revert w. induction l as [|i t IH]; intro w; cbn [rn_write_effects_loop effects_pieces option_map].
  - now rewrite app_nil_r.
  - destruct (aget metadata i) as [md|]; [|reflexivity]. rewrite IH.
    destruct (effects_pieces t); cbn [option_map]; [|reflexivity]. now rewrite <- app_assoc.
Qed.

Lemma fmt_effects_pieces e f : rn_fmt_effects e f = option_map (fmt_add f) (rn_effects_pieces e).
Proof.
  unfold rn_fmt_effects, rn_effects_pieces. destruct (e_index_iter e) as [l|]; [|reflexivity].
  revert f. induction l as [|i t IH]; intro f; cbn [rn_fmt_effects_loop effects_pieces option_map].
  - now rewrite fmt_add_nil.
  - destruct (aget metadata i) as [md|]; [|reflexivity]. rewrite IH.
    destruct (effects_pieces t); cbn [option_map]; [|reflexivity].
    unfold fmt_add. now rewrite write_str_twice.
Qed.

Lemma write_slot_pieces s sl w : rn_write_slot s sl w = option_map (app w) (slot_pieces s sl).
Proof.
  assert (O : forall buffer o, rn_write_ocolor buffer o w = option_map (app w) (ocolor_pieces buffer o)).
  { intros buffer [c|]; cbn [rn_write_ocolor ocolor_pieces option_map]; [|now rewrite app_nil_r].
    unfold rn_buffer_write_to. now destruct (buffer c). }
  destruct sl; cbn [rn_write_slot slot_pieces]; try apply O. apply write_effects_pieces.
Qed.

Lemma fmt_slot_pieces s sl f : rn_fmt_slot s sl f = option_map (fmt_add f) (slot_pieces s sl).
Proof.
  assert (O : forall buffer o, rn_fmt_ocolor buffer o f = option_map (fmt_add f) (ocolor_pieces buffer o)).
  { intros buffer [c|]; cbn [rn_fmt_ocolor ocolor_pieces option_map]; [|now rewrite fmt_add_nil].
    unfold rn_fmt_buffer, fmt_add. destruct (buffer c); cbn [option_map concat]; [|reflexivity].
    now rewrite app_nil_r. }
  destruct sl; cbn [rn_fmt_slot slot_pieces]; try apply O. apply fmt_effects_pieces.
Qed.

Lemma write_slots_pieces s l : forall w, rn_write_slots s l w = option_map (app w) (slots_pieces s l).
Proof.
  induction l as [|sl t IH]; intro w; cbn [rn_write_slots slots_pieces option_map].
  - now rewrite app_nil_r.
  - rewrite write_slot_pieces. destruct (slot_pieces s sl) as [a|]; cbn [option_map]; [|reflexivity].
    rewrite IH. destruct (slots_pieces s t); cbn [option_map]; [|reflexivity]. now rewrite app_assoc.
Qed.

Lemma fmt_slots_pieces s l : forall f, rn_fmt_slots s l f = option_map (fmt_add f) (slots_pieces s l).
Proof.
  induction l as [|sl t IH]; intro f; cbn [rn_fmt_slots slots_pieces option_map].
  - now rewrite fmt_add_nil.
  - rewrite fmt_slot_pieces. destruct (slot_pieces s sl) as [a|]; cbn [option_map]; [|reflexivity].
    rewrite IH. destruct (slots_pieces s t); cbn [option_map]; [|reflexivity]. now rewrite fmt_add_app.
Qed.

Lemma display_render_pieces alternate flags s :
  rn_display_render alternate flags s = option_map (@concat N) (slots_pieces s rn_fmt_order).
Proof.
  unfold rn_display_render, rn_format, rn_style_fmt_to. rewrite fmt_slots_pieces.
  destruct (slots_pieces s rn_fmt_order); reflexivity.
Qed.

Definition rn_effect_escape (i : N) : list N := snd (nth (N.to_nat i) metadata ([], [])).

Lemma effect_table i : i < 12 -> rn_is_sgr (rn_effect_escape i) (rn_effect_groups i).
Proof.
  (* twelve rows, each with the three closed side goals of [table_entry_sgr] *)
  revert i. apply idxs_ind. repeat (constructor; [apply table_entry_sgr; reflexivity|]). constructor.
Qed.

Lemma effects_pieces_sgr l : Forall (fun i => i < 12) l ->
  exists ps, effects_pieces l = Some ps /\ Forall2 rn_is_sgr ps (map rn_effect_groups l).
Proof.
  induction 1 as [|i t Hi _ (ps & E & F)]; cbn [effects_pieces map].
  - exists []. split; [reflexivity | constructor].
  - unfold aget. rewrite (nth_error_nth' metadata ([], [])) by (change (length metadata) with 12%nat; lia).
    rewrite E. eexists. split; [reflexivity|]. constructor; [exact (effect_table i Hi) | exact F].
Qed.

Lemma ocolor_pieces_sgr buffer groups o :
  (forall c, rn_color_wf c -> rn_buffer_piece (buffer c) (groups (rn_colour c))) ->
  rn_ocolour_wf (option_map rn_colour o) ->
  exists ps, ocolor_pieces buffer o = Some ps /\ Forall2 rn_is_sgr ps (rn_opt groups (option_map rn_colour o)).
Proof.
  intros Hb Hw. destruct o as [c|]; cbn [ocolor_pieces option_map rn_opt].
  - destruct (Hb c Hw) as (p & -> & _ & S). exists [p]. split; [reflexivity|]. constructor; [exact S | constructor].
  - exists []. split; [reflexivity | constructor].
Qed.

Lemma slots_pieces_sgr s : rn_wf (rn_sstyle s) ->
  exists ps, slots_pieces s rn_fmt_order = Some ps /\ Forall2 rn_is_sgr ps (rn_groups_of (rn_sstyle s)).
Proof.
  intros (_ & Hf & Hb & Hu).
  unfold rn_fmt_order, rn_groups_of, rn_sstyle. cbn [slots_pieces slot_pieces s_eff s_fg s_bg s_ul] in *.
  unfold rn_effects_pieces. rewrite index_iter_members.
  destruct (effects_pieces_sgr _ (members_lt (st_eff s))) as (pe & -> & Fe).
  destruct (ocolor_pieces_sgr rn_color_fg_buffer rn_fg_groups (st_fg s) color_fg_piece Hf) as (pf & -> & Ff).
  destruct (ocolor_pieces_sgr rn_color_bg_buffer rn_bg_groups (st_bg s) color_bg_piece Hb) as (pb & -> & Fb).
  destruct (ocolor_pieces_sgr rn_color_ul_buffer rn_ul_groups (st_ul s) color_ul_piece Hu) as (pu & -> & Fu).
  eexists. split; [reflexivity|]. rewrite app_nil_r. repeat apply Forall2_app; assumption.
Qed.

Lemma render_pieces s : rn_wf (rn_sstyle s) ->
  exists ps, rn_render_style s = Some (concat ps) /\ Forall2 rn_is_sgr ps (rn_groups_of (rn_sstyle s)).
Proof.
  intros W. destruct (slots_pieces_sgr s W) as (ps & E & F). exists ps. split; [|exact F].
  unfold rn_render_style. now rewrite display_render_pieces, E.
Qed.

Lemma render_is_sgr_only s : rn_wf (rn_sstyle s) ->
  exists bs, rn_render_style s = Some bs /\ spec_events bs = map rn_sgr (rn_groups_of (rn_sstyle s)).
Proof.
  intros H. destruct (render_pieces s H) as (ps & E & F). exists (concat ps). split; [exact E|].
  destruct (spec_events_pieces_from _ _ vt_init F ground_init) as (s' & Ev & _).
  unfold spec_events. now rewrite Ev.
Qed.

Lemma strip_nothing s : rn_wf (rn_sstyle s) ->
  exists bs, rn_render_style s = Some bs /\ spec_strip bs = [].
Proof.
  intros H. destruct (render_pieces s H) as (ps & E & F). exists (concat ps). split; [exact E|].
  unfold spec_strip. now rewrite (strip_pieces _ _ F).
Qed.

Definition is_ul (i : N) : bool := (3 <=? i) && (i <=? 7).

Definition eff_step (e i : N) : N :=
  if is_ul i then N.lor (N.ldiff e underline_mask) (bit i) else N.lor e (bit i).

Lemma effect_apply s i : i < 12 ->
  sgr_apply s (rn_effect_groups i) = Sgr.mkStyle (s_fg s) (s_bg s) (s_ul s) (eff_step (s_eff s) i).
Proof. revert i. apply idxs_ind. repeat constructor. Qed.

Lemma effects_apply l : forall s, Forall (fun i => i < 12) l ->
  fold_left sgr_apply (map rn_effect_groups l) s =
  Sgr.mkStyle (s_fg s) (s_bg s) (s_ul s) (fold_left eff_step l (s_eff s)).
Proof.
  induction l as [|i t IH]; intros s H; cbn [map fold_left].
  - now destruct s.
  - inversion H; subst. rewrite effect_apply by assumption. rewrite IH by assumption. reflexivity.
Qed.

Lemma mask_bits j : N.testbit underline_mask j = is_ul j.
Proof.
  unfold underline_mask, is_ul.
  destruct (N.lt_ge_cases j 8) as [H|H].
  - assert (C : j = 0 \/ j = 1 \/ j = 2 \/ j = 3 \/ j = 4 \/ j = 5 \/ j = 6 \/ j = 7) by lia.
    repeat (destruct C as [C|C]; [subst; reflexivity|]). subst. reflexivity.
  - rewrite N.bits_above_log2 by (change (N.log2 248) with 7; lia).
    symmetry. apply andb_false_iff. right. apply N.leb_gt. lia.
Qed.

Lemma is_ul_eqb i j : is_ul i = true -> is_ul j = false -> (i =? j) = false.
Proof. intros A B. apply N.eqb_neq. intros ->. congruence. Qed.

Lemma fold_bits l : forall a j,
  N.testbit (fold_left eff_step l a) j =
  if is_ul j
  then match rn_last_opt (filter is_ul l) with Some k => k =? j | None => N.testbit a j end
  else N.testbit a j || existsb (N.eqb j) l.
Proof.
  induction l as [|i t IH]; intros a j; cbn [fold_left filter rn_last_opt existsb].
  - destruct (is_ul j); [reflexivity|now rewrite orb_false_r].
  - rewrite IH. unfold eff_step.
    destruct (is_ul j) eqn:Uj.
    + destruct (is_ul i) eqn:Ui; cbn [rn_last_opt].
      * destruct (rn_last_opt (filter is_ul t)); [reflexivity|].
        rewrite N.lor_spec, N.ldiff_spec, mask_bits, Uj, bit_testbit. cbn. now rewrite andb_false_r.
      * destruct (rn_last_opt (filter is_ul t)); [reflexivity|].
        rewrite N.lor_spec, bit_testbit. rewrite (N.eqb_sym i j), (is_ul_eqb j i Uj Ui). now rewrite orb_false_r.
    + destruct (is_ul i) eqn:Ui.
      * rewrite N.lor_spec, N.ldiff_spec, mask_bits, Uj, bit_testbit. cbn [negb]. rewrite andb_true_r.
        rewrite (N.eqb_sym j i). now rewrite orb_assoc.
      * rewrite N.lor_spec, bit_testbit. rewrite (N.eqb_sym j i). now rewrite orb_assoc.
Qed.

Lemma members_kinds e : filter is_ul (members e) = rn_underline_kinds e.
Proof. unfold members, rn_underline_kinds. rewrite filter_comm. reflexivity. Qed.

Lemma existsb_members e j : existsb (N.eqb j) (members e) = (j <? 12) && mem e j.
Proof.
  rewrite <- union_singletons_mem, members_union_low. unfold mem.
  destruct (N.ltb_spec j 12) as [H|H]; [now apply N.mod_pow2_bits_low | now apply N.mod_pow2_bits_high].
Qed.

Lemma kinds_In e k : In k (rn_underline_kinds e) <-> is_ul k = true /\ mem e k = true.
Proof.
  assert (I : In k [3; 4; 5; 6; 7] <-> 3 <= k /\ k <= 7) by (cbn [In]; lia).
  unfold rn_underline_kinds, is_ul. rewrite filter_In, andb_true_iff, !N.leb_le, I. reflexivity.
Qed.

Lemma last_opt_In {A} (l : list A) k : rn_last_opt l = Some k -> In k l.
Proof.
  induction l as [|x t IH]; cbn [rn_last_opt]; [discriminate|].
  destruct (rn_last_opt t) as [y|]; intros H; injection H as <-; [right; now apply IH | now left].
Qed.

Lemma last_kind_wins_bits e j :
  N.testbit (rn_last_kind_wins e) j =
  if is_ul j then match rn_last_opt (rn_underline_kinds e) with Some k => k =? j | None => false end
  else N.testbit e j.
Proof.
  unfold rn_last_kind_wins. rewrite N.lor_spec, N.ldiff_spec, mask_bits.
  destruct (rn_last_opt (rn_underline_kinds e)) as [k|] eqn:L.
  - rewrite bit_testbit. destruct (is_ul j) eqn:U; cbn [negb]; [now rewrite andb_false_r|].
    apply last_opt_In, kinds_In in L. rewrite andb_true_r, (is_ul_eqb k j (proj1 L) U). apply orb_false_r.
  - rewrite N.bits_0, orb_false_r. destruct (is_ul j); cbn [negb]; [apply andb_false_r | apply andb_true_r].
Qed.

Lemma effects_fold e : valid e -> fold_left eff_step (members e) 0 = rn_last_kind_wins e.
Proof.
  intros V. apply N.bits_inj. intros j.
  rewrite fold_bits, members_kinds, last_kind_wins_bits, N.bits_0.
  destruct (is_ul j); [reflexivity|]. cbn [orb].
  rewrite <- union_singletons_mem, members_union by exact V. reflexivity.
Qed.

Lemma last_kind_wins_id e : (length (rn_underline_kinds e) <= 1)%nat -> rn_last_kind_wins e = e.
Proof.
  intros H. apply N.bits_inj. intros j. rewrite last_kind_wins_bits.
  destruct (is_ul j) eqn:U; [|reflexivity].
  pose proof (kinds_In e j) as K. rewrite U in K. unfold mem in K.
  destruct (rn_underline_kinds e) as [|k [|k' t]]; cbn [rn_last_opt length In] in *; [| |lia].
  - destruct (N.testbit e j); [|reflexivity]. now destruct (proj2 K).
  - apply eq_true_iff_eq. rewrite N.eqb_eq. tauto.
Qed.

Lemma ansi_cases i : i < 16 ->
  i = 0 \/ i = 1 \/ i = 2 \/ i = 3 \/ i = 4 \/ i = 5 \/ i = 6 \/ i = 7 \/
  i = 8 \/ i = 9 \/ i = 10 \/ i = 11 \/ i = 12 \/ i = 13 \/ i = 14 \/ i = 15.
Proof. lia. Qed.

Lemma fg_apply s c : rn_colour_wf c -> sgr_apply s (rn_fg_groups c) = set_fg s (Some c).
Proof.
  destruct c as [i|n|r g b]; cbn [rn_colour_wf]; intros H; [|reflexivity|reflexivity].
  apply ansi_cases in H. repeat (destruct H as [H|H]; [subst; reflexivity|]). subst. reflexivity.
Qed.

Lemma bg_apply s c : rn_colour_wf c -> sgr_apply s (rn_bg_groups c) = set_bg s (Some c).
Proof.
  destruct c as [i|n|r g b]; cbn [rn_colour_wf]; intros H; [|reflexivity|reflexivity].
  apply ansi_cases in H. repeat (destruct H as [H|H]; [subst; reflexivity|]). subst. reflexivity.
Qed.

Lemma ul_apply s c : sgr_apply s (rn_ul_groups c) = set_ulc s (rn_norm_ul (Some c)).
Proof. destruct c; reflexivity. Qed.

Lemma groups_roundtrip_general t : rn_wf t ->
  rn_interp_style (map rn_sgr (rn_groups_of t)) style_default = rn_norm_general t.
Proof.
  intros (V & Hf & Hb & Hu). rewrite interp_sgr_groups. unfold rn_groups_of.
  rewrite !fold_left_app. rewrite effects_apply by apply members_lt.
  cbn [style_default s_fg s_bg s_ul s_eff]. rewrite (effects_fold _ V).
  destruct t as [[f|] [b|] [u|] e]; cbn [s_fg s_bg s_ul s_eff rn_opt fold_left rn_ocolour_wf] in *;
    rewrite ?fg_apply, ?bg_apply, ?ul_apply by assumption; reflexivity.
Qed.

Lemma groups_roundtrip t : rn_wf t -> rn_at_most_one_underline_kind t ->
  rn_interp_style (map rn_sgr (rn_groups_of t)) style_default = rn_norm t.
Proof.
  intros W H. rewrite (groups_roundtrip_general t W). unfold rn_norm_general, rn_norm.
  now rewrite (last_kind_wins_id _ H).
Qed.

Lemma render_roundtrip_general s : rn_wf (rn_sstyle s) ->
  exists bs, rn_render_style s = Some bs /\
             rn_interp_style (spec_events bs) style_default = rn_norm_general (rn_sstyle s).
Proof.
  intros W. destruct (render_is_sgr_only s W) as (bs & E & Ev). exists bs. split; [exact E|].
  rewrite Ev. now apply groups_roundtrip_general.
Qed.

Lemma render_roundtrip s : rn_wf (rn_sstyle s) -> rn_at_most_one_underline_kind (rn_sstyle s) ->
  exists bs, rn_render_style s = Some bs /\
             rn_interp_style (spec_events bs) style_default = rn_norm (rn_sstyle s).
Proof.
  intros W H. destruct (render_is_sgr_only s W) as (bs & E & Ev). exists bs. split; [exact E|].
  rewrite Ev. now apply groups_roundtrip.
Qed.

Lemma reset_empty_iff s : rn_render_reset s = [] <-> s = st_new.
Proof.
  unfold rn_render_reset. rewrite <- style_eqb_eq.
  destruct (style_eqb s st_new); cbn [negb]; split; (reflexivity || discriminate).
Qed.

Lemma reset_semantics s :
  (rn_render_reset s = [] <-> s = st_new) /\
  (s = st_new <-> st_is_plain s = true) /\
  (s <> st_new -> rn_render_reset s = rn_reset_str) /\
  (forall t, rn_interp_style (spec_events rn_reset_str) t = style_default) /\
  spec_strip rn_reset_str = [].
Proof.
  split; [apply reset_empty_iff|]. split; [symmetry; apply st_is_plain_iff|].
  split; [|split; reflexivity].
  intros H. unfold rn_render_reset. destruct (style_eqb s st_new) eqn:E; [|reflexivity].
  apply style_eqb_eq in E. contradiction.
Qed.

Lemma render_then_reset s : rn_wf (rn_sstyle s) ->
  exists bs, rn_render_style s = Some bs /\
             rn_interp_style (spec_events (bs ++ rn_render_reset s)) style_default = style_default.
Proof.
  intros W. destruct (render_pieces s W) as (ps & E & F). exists (concat ps). split; [exact E|].
  unfold rn_render_reset. destruct (style_eqb s st_new) eqn:Q; cbn [negb].
  - apply style_eqb_eq in Q. subst s. injection E as E. rewrite <- E. reflexivity.
  - (* RESET is one more fragment, with the single group [0] *)
    assert (R : Forall2 rn_is_sgr (ps ++ [rn_reset_str]) (rn_groups_of (rn_sstyle s) ++ [[[0]]])).
    { apply Forall2_app; [exact F|]. constructor; [|constructor]. exists [[[48]]]. repeat split. }
    destruct (spec_events_pieces_from _ _ vt_init R ground_init) as (s1 & E1 & _).
    rewrite concat_snoc in E1. unfold spec_events. rewrite E1. cbn [snd].
    rewrite interp_sgr_groups, fold_left_app. reflexivity.
Qed.

(* io::Write path = Display path *)
Lemma paths_agree s : option_map (@concat N) (rn_write_to s) = rn_render_style s.
Proof.
  unfold rn_write_to, rn_render_style. rewrite write_slots_pieces, display_render_pieces.
  change rn_write_order with rn_fmt_order. now destruct (slots_pieces s rn_fmt_order).
Qed.

Lemma paths_agree_reset s : concat (rn_write_reset_to s) = rn_render_reset s.
Proof. unfold rn_write_reset_to, rn_render_reset. destruct (negb _); reflexivity. Qed.

(* `style.render()`: neither the flags nor `#` matter *)
Lemma flags_irrelevant_render flags alternate s : rn_display_render alternate flags s = rn_render_style s.
Proof. unfold rn_render_style. now rewrite !display_render_pieces. Qed.

(* `{}` is render, `{:#}` is render_reset, whatever the flags.  (The two formatting functions are compared at
   the one formatter they are run on, before [rn_format] is unfolded: the other way round the kernel first
   evaluates the twelve steps of the effect iterator.) *)
Lemma format_ext alternate flags F G :
  F (mkRnFmt alternate flags []) = G (mkRnFmt alternate flags []) -> rn_format alternate flags F = rn_format alternate flags G.
Proof. unfold rn_format. now intros ->. Qed.

Lemma display_forms flags s :
  rn_display false flags s = rn_render_style s /\ rn_display true flags s = Some (rn_render_reset s).
Proof.
  split; [|reflexivity].
  transitivity (rn_display_render false flags s); [apply format_ext; reflexivity | apply flags_irrelevant_render].
Qed.

Lemma flags_irrelevant flags alternate s : rn_display alternate flags s = rn_display alternate rn_no_flags s.
Proof.
  destruct alternate.
  - reflexivity.
  - now rewrite (proj1 (display_forms flags s)), (proj1 (display_forms rn_no_flags s)).
Qed.

(* the other public renderers *)
Lemma flags_irrelevant_others flags alternate :
  (forall s, rn_display_reset_of alternate flags s = Some (rn_render_reset s)) /\
  (forall e, rn_display_effects alternate flags e = rn_display_effects false rn_no_flags e) /\
  (forall c, rn_display_color_fg alternate flags c = rn_color_fg_buffer c) /\
  (forall c, rn_display_color_bg alternate flags c = rn_color_bg_buffer c) /\
  (forall a, rn_display_ansi_fg alternate flags a = Some (ansi_fg_str a)) /\
  (forall a, rn_display_ansi_bg alternate flags a = Some (ansi_bg_str a)) /\
  rn_display_reset alternate flags = Some rn_reset_str.
Proof.
  repeat split; intros.
  - unfold rn_display_effects, rn_format. rewrite !fmt_effects_pieces.
    destruct (rn_effects_pieces e); reflexivity.
  - unfold rn_display_color_fg, rn_format, rn_fmt_buffer. now destruct (rn_color_fg_buffer c).
  - unfold rn_display_color_bg, rn_format, rn_fmt_buffer. now destruct (rn_color_bg_buffer c).
Qed.
