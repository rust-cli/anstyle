(* Proofs/SvgGen.v -- the functions translated from crates/anstyle-svg/src/lib.rs
   (Generated/SvgFn.v, tools/gen_fn_svg.py) are extensionally equal to the hand model
   Model/Svg.v the theorems of C14 are about.  Texts that differ in bracketing and in where literals are cut are
   compared by a small reflection ([lexp], [list_eq]).  Besides render_svg over the record of the model: Term::new,
   impl Default and the builders over the whole `struct Term` ([svg_term_full]), and render_svg over that. *)
From Coq Require Import NArith List Bool Lia.
From AV Require Import Generated.Style Generated.Palette Generated.Svg Spec.Sgr Spec.Lossy Model.Base Model.Imp
  Model.Parser Model.Wincon Model.Lossy Generated.LossyFn Proofs.LossyGen Generated.WinconFn Proofs.WinconGen
  Model.Svg Generated.SvgFn.
Import ListNotations.
Local Open Scope N_scope.

Lemma svg_of_to_color c : svg_of_color (svg_to_color c) = c.
Proof. destruct c; reflexivity. Qed.

Lemma g_svg_rgb_value_eq o c p : g_svg_rgb_value o (svg_to_color c) p = svg_rgb_value c p.
Proof.
  unfold g_svg_rgb_value, svg_rgb_value. rewrite g_color_to_rgb_eq.
  destruct (color_to_rgb (svg_to_color c) p) as [[[r g] b]|]; reflexivity.
Qed.

Lemma g_svg_color_name_eq o prefix c : g_svg_color_name o prefix (svg_to_color c) = svg_color_name prefix c.
Proof.
  destruct c as [a | i | r g b]; unfold g_svg_color_name, svg_color_name; cbn [svg_to_color].
  - rewrite g_from_ansi_eq. destruct (from_ansi a) as [i|]; [|reflexivity].
    cbv zeta. rewrite g_a256_index_eq. destruct (aget svg_ansi_names i); reflexivity.
  - reflexivity.
  - reflexivity.
Qed.

(* color_styles: one `if let Some(color) = style.get_*_color() { colors.insert(..) }` *)
Lemma insert_stage o p prefix (c : option colour) m :
  match option_map svg_to_color c with
  | Some color1 =>
      r <- g_svg_color_name o prefix color1 ;;
      r1 <- g_svg_rgb_value o color1 p ;;
      Some (svg_btree_insert m r r1)
  | None => Some m
  end = svg_insert_colour p prefix c m.
Proof.
  destruct c as [c|]; cbn [option_map svg_insert_colour]; [|reflexivity].
  rewrite g_svg_color_name_eq, g_svg_rgb_value_eq. reflexivity.
Qed.

Lemma g_svg_color_styles_eq o styled p : g_svg_color_styles o styled p = svg_color_styles styled p [].
Proof.
  unfold g_svg_color_styles. cbv zeta.
  match goal with |- context [for_list0 ?f _ _] => set (F := f) end.
  assert (L : forall l m, for_list0 F l m = svg_color_styles l p m).
  { induction l as [|[s t] l IH]; intros m; cbn [for_list0 svg_color_styles]; [reflexivity|].
    unfold F at 1. cbv zeta. unfold svg_get_fg, svg_get_bg, svg_get_ul.
    rewrite (insert_stage o p svg_fg_prefix (s_fg s) m).
    destruct (svg_insert_colour p svg_fg_prefix (s_fg s) m) as [m1|]; [|reflexivity].
    rewrite (insert_stage o p svg_bg_prefix (s_bg s) m1).
    destruct (svg_insert_colour p svg_bg_prefix (s_bg s) m1) as [m2|]; [|reflexivity].
    rewrite (insert_stage o p svg_underline_prefix (s_ul s) m2).
    destruct (svg_insert_colour p svg_underline_prefix (s_ul s) m2) as [m3|]; [|reflexivity].
    apply IH. }
  rewrite L. destruct (svg_color_styles styled p []); reflexivity.
Qed.

Lemma strip_suffix_cr s : opt_unwrap_or (svg_strip_suffix s 13) s = svg_strip_cr s.
Proof.
  induction s as [|c r IH]; [reflexivity|].
  cbn [svg_strip_suffix svg_strip_cr]. destruct r as [|d r'].
  - destruct (c =? 13); reflexivity.
  - revert IH. destruct (svg_strip_suffix (d :: r') 13) as [r1|]; cbn [opt_unwrap_or]; intros IH; rewrite <- IH; reflexivity.
Qed.

Lemma strip_last_eq (cl : list (sstyle * list N)) :
  match svg_last cl with
  | Some (w, last) => svg_set_last cl (w, opt_unwrap_or (svg_strip_suffix last 13) last)
  | None => cl
  end = svg_strip_last cl.
Proof.
  induction cl as [|x r IH]; [reflexivity|].
  cbn [svg_last svg_set_last svg_strip_last]. destruct r as [|y r'].
  - destruct x as [w last]. cbn [fst snd]. rewrite strip_suffix_cr. reflexivity.
  - revert IH. destruct (svg_last (y :: r')) as [[w last]|]; intros IH; rewrite <- IH; reflexivity.
Qed.

Lemma strip_last_eq_m (cl : list (sstyle * list N)) :
  match svg_last cl with
  | Some (w, last) => Some (svg_set_last cl (w, opt_unwrap_or (svg_strip_suffix last 13) last))
  | None => Some cl
  end = Some (svg_strip_last cl).
Proof. rewrite <- strip_last_eq. destruct (svg_last cl) as [[w last]|]; reflexivity. Qed.

Lemma split_once_length c s a b : svg_split_once c s = Some (a, b) -> length s = S (length a + length b).
Proof.
  revert a b. induction s as [|x r IH]; intros a b; cbn [svg_split_once]; [discriminate|].
  destruct (x =? c).
  - intros H. injection H as <- <-. reflexivity.
  - destruct (svg_split_once c r) as [[a' b']|]; [|discriminate].
    intros H. injection H as <- <-. cbn [length]. rewrite (IH a' b' eq_refl). reflexivity.
Qed.

(* the hand model scans characters; the code cuts at the first newline *)
Lemma run_loop_split style : forall next cur cl lines,
  svg_run_loop style next cur cl lines =
  match svg_split_once 10 next with
  | None => (lines, cl ++ [(style, cur ++ next)])
  | Some (a, b) =>
      svg_run_loop style b [] []
        (lines ++ [(if svg_is_nil (cur ++ a) then svg_strip_last cl else cl) ++ [(style, svg_strip_cr (cur ++ a))]])
  end.
Proof.
  induction next as [|c r IH]; intros cur cl lines; cbn [svg_run_loop svg_split_once].
  - rewrite app_nil_r. reflexivity.
  - destruct (c =? 10).
    + rewrite app_nil_r. reflexivity.
    + rewrite IH. destruct (svg_split_once 10 r) as [[a b]|]; rewrite <- app_assoc; reflexivity.
Qed.

Lemma map_pair_id {A B} (l : list (A * B)) : map (fun '(s1, t1) => (s1, t1)) l = l.
Proof. induction l as [|[a b] l IH]; cbn [map]; [reflexivity|]. rewrite IH. reflexivity. Qed.

Definition split_fin (st : list (list (sstyle * list N)) * list (sstyle * list N)) : list (list (sstyle * list N)) :=
  let '(l5, c10) := st in if is_empty c10 then l5 else l5 ++ [c10].

Lemma g_svg_split_lines_eq o styled : g_svg_split_lines o styled = Some (svg_split_lines styled).
Proof.
  unfold g_svg_split_lines, svg_split_lines. cbv zeta. rewrite map_pair_id.
  match goal with |- context [for_list0 ?f _ _] => set (F := f) end.
  assert (L : forall l lines cl, option_map split_fin (for_list0 F l (lines, cl)) = Some (svg_split_go l cl lines)).
  { induction l as [|[s t] l IH]; intros lines cl; cbn [for_list0 svg_split_go].
    - cbn [option_map split_fin]. destruct cl; reflexivity.
    - unfold F at 1. cbv zeta.
      match goal with |- context [while_fuel0 _ ?f _] => set (W := f) end.
      assert (LW : forall fuel next lines cl, (length next < fuel)%nat ->
                option_map (fun '(l1, c1, n1) => (l1, c1 ++ [(s, n1)])) (while_fuel0 fuel W (lines, cl, next))
                = Some (svg_run_loop s next [] cl lines)).
      { induction fuel as [|fuel IHf]; intros next lines0 cl0 Hlt; [lia|].
        cbn [while_fuel0]. unfold W at 1. cbv zeta. rewrite run_loop_split. cbn [app].
        destruct (svg_split_once 10 next) as [[a b]|] eqn:E.
        - pose proof (split_once_length _ _ _ _ E) as Hl.
          change (is_empty a) with (svg_is_nil a).
          destruct (svg_is_nil a).
          + rewrite strip_last_eq_m. rewrite strip_suffix_cr. apply IHf. lia.
          + rewrite strip_suffix_cr. apply IHf. lia.
        - reflexivity. }
      specialize (LW (S (length t)) t lines cl (le_n _)).
      destruct (while_fuel0 (S (length t)) W (lines, cl, t)) as [[[l1 c1] n1]|]; cbn [option_map] in LW; [|discriminate].
      injection LW as LW. rewrite <- LW. apply IH. }
  specialize (L styled [] []).
  destruct (for_list0 F styled ([], [])) as [[l5 c10]|]; cbn [option_map split_fin] in L; [|discriminate].
  injection L as L. rewrite <- L. destruct (is_empty c10); reflexivity.
Qed.

(* Two texts built with ++ and :: from the same pieces in the same order, bracketed differently, with literals cut
   at different places, some pieces written only under a condition: the expressions are reified, flattened with
   an accumulator and compared by conversion (literals merge by computation, the other pieces must be convertible).
   Associativity rewrites are not an option on a term of the template's size. *)
Inductive lexp (A : Type) : Type := LAtom (l : list A) | LApp (a b : lexp A) | LIf (c : bool) (a : lexp A).
Arguments LAtom {A} l.
Arguments LApp {A} a b.
Arguments LIf {A} c a.
Fixpoint ldenote {A} (e : lexp A) : list A :=
  match e with
  | LAtom l => l
  | LApp a b => ldenote a ++ ldenote b
  | LIf c a => if c then ldenote a else []
  end.
Fixpoint lflat {A} (e : lexp A) (acc : list A) : list A :=
  match e with
  | LAtom l => l ++ acc
  | LApp a b => lflat a (lflat b acc)
  | LIf c a => (if c then lflat a [] else []) ++ acc
  end.
Lemma lflat_ok {A} (e : lexp A) : forall acc, lflat e acc = ldenote e ++ acc.
Proof.
  induction e as [l|a IHa b IHb|c a IHa]; intros acc; cbn [lflat ldenote].
  - reflexivity.
  - rewrite IHa, IHb, app_assoc. reflexivity.
  - rewrite IHa, app_nil_r. reflexivity.
Qed.
Lemma lflat_eq {A} (e1 e2 : lexp A) : lflat e1 [] = lflat e2 [] -> ldenote e1 = ldenote e2.
Proof. rewrite !lflat_ok, !app_nil_r. auto. Qed.
Ltac reify_list l :=
  lazymatch l with
  | ?a ++ ?b => let ra := reify_list a in let rb := reify_list b in constr:(LApp ra rb)
  | ?x :: ?r => let rr := reify_list r in constr:(LApp (LAtom [x]) rr)
  | if ?c then ?a else [] => let ra := reify_list a in constr:(LIf c ra)
  | _ => constr:(LAtom l)
  end.
Ltac list_eq :=
  lazymatch goal with
  | |- ?x = ?y =>
      let rx := reify_list x in let ry := reify_list y in
      apply (lflat_eq rx ry); lazy [lflat app]; reflexivity
  end.

Definition opt_list {A} (o : option A) : list A := match o with Some x => [x] | None => [] end.

Lemma opt_push {A} (o : option A) (l : list A) :
  match o with Some x => Some (l ++ [x]) | None => Some l end = Some (l ++ opt_list o).
Proof. destruct o; [|cbn [opt_list]; rewrite app_nil_r]; reflexivity. Qed.

(* `if c { v.push(x) }`, `if c { write!(buffer, ..) }` *)
Lemma if_app {A} (b : bool) (l x : list A) :
  (if b then Some (l ++ x) else Some l) = Some (l ++ if b then x else []).
Proof. destruct b; [|rewrite app_nil_r]; reflexivity. Qed.

Lemma if_app2 {A} (b : bool) (l x y : list A) :
  (if b then Some ((l ++ x) ++ y) else Some l) = Some (l ++ if b then x ++ y else []).
Proof. rewrite <- app_assoc. apply if_app. Qed.

(* `style.get_*_color().map(|c| color_name(PREFIX, c))` *)
Lemma class_stage o prefix (c : option colour) :
  option_map opt_list
    match option_map svg_to_color c with
    | Some c1 => r <- g_svg_color_name o prefix c1 ;; Some (Some r)
    | None => Some None
    end = svg_opt_class prefix c.
Proof.
  destruct c as [c|]; cbn [option_map svg_opt_class]; [|reflexivity].
  rewrite g_svg_color_name_eq. destruct (svg_color_name prefix c); reflexivity.
Qed.

(* `TABLE.iter().filter(|(e, _)| test e).map(|(_, c)| *c)`, one entry at a time, however the two closures take the
   pair apart (tuple pattern, `.0` / `.1`); `cbn [filter]` would copy the tail into both branches *)
Lemma map_filter_cons {A B} (g : A -> B) (f : A -> bool) x r :
  map g (filter f (x :: r)) = (if f x then [g x] else []) ++ map g (filter f r).
Proof. cbn [filter]. destruct (f x); reflexivity. Qed.

(* case analysis on what the first bind of the translated function evaluates; [None] is a panic on both sides *)
Ltac bind_case om :=
  lazymatch goal with |- match ?m with Some _ => _ | None => None end = _ => destruct m as [om|]; [|reflexivity] end.

Lemma g_svg_write_fg_span_eq o buffer s fragment :
  g_svg_write_fg_span o buffer s fragment =
  (cl <- svg_fg_classes s ;; Some (buffer ++ svg_print_fg_span (cl, fragment))).
Proof.
  unfold g_svg_write_fg_span, svg_fg_classes, svg_get_fg, svg_get_ul. rewrite <- !(class_stage o).
  bind_case fgc. bind_case ulc. cbv beta iota zeta delta [option_map].
  repeat (rewrite opt_push; cbv beta iota).
  repeat (rewrite if_app; cbv beta iota).
  (* the class list the code has accumulated is the model's, entry by entry of the table *)
  set (cl := opt_list fgc ++ opt_list ulc ++ map snd (filter (fun p => svg_contains (s_eff s) (fst p)) svg_effect_classes)).
  match goal with |- context [is_empty ?cl'] =>
    replace cl' with cl by (unfold cl, svg_effect_classes; rewrite !map_filter_cons; list_eq)
  end.
  clearbody cl. destruct cl as [|c cl]; cbn [is_empty negb]; f_equal;
    unfold svg_print_fg_span, svg_elem, svg_class_attr, svg_attr; cbn [svg_is_nil flat_map fst snd]; list_eq.
Qed.

Lemma str_repeat_char c n : svg_str_repeat [c] n = repeat c (N.to_nat n).
Proof.
  unfold svg_str_repeat. induction (N.to_nat n) as [|k IH]; cbn [repeat concat app]; [reflexivity|].
  rewrite IH. reflexivity.
Qed.

Lemma g_svg_write_bg_span_eq o buffer s fragment :
  g_svg_write_bg_span o buffer s fragment =
  (cl <- svg_bg_classes s ;; Some (buffer ++ svg_print_bg_span (svg_o_uw o) (cl, fragment))).
Proof.
  unfold g_svg_write_bg_span, svg_bg_classes, svg_get_bg. rewrite <- (class_stage o).
  bind_case bgc. cbv beta iota zeta delta [option_map].
  destruct bgc as [nb|]; cbn [opt_is_some opt_list is_empty negb app]; f_equal;
    unfold svg_print_bg_span, svg_elem, svg_class_attr, svg_attr, svg_fill_on, svg_fill_off;
    cbn [svg_is_nil flat_map svg_join fst snd]; rewrite str_repeat_char; list_eq.
Qed.

Lemma invert_stage t s :
  (if svg_contains (s_eff s) eff_invert
   then Some (set_eff (svg_set_bg (svg_set_fg s (Some (opt_unwrap_or (svg_get_bg s) (svg_t_bg_c t))))
                                  (Some (opt_unwrap_or (svg_get_fg s) (svg_t_fg_c t))))
                      (N.ldiff (s_eff s) eff_invert))
   else Some s) = Some (svg_invert t s).
Proof.
  unfold svg_invert. destruct (svg_contains (s_eff s) eff_invert); [|reflexivity].
  destruct s as [fg bg ul eff]. unfold svg_get_bg, svg_get_fg, svg_set_bg, svg_set_fg, set_eff, set_fg, set_bg, svg_t_bg_c, svg_t_fg_c.
  cbn [s_fg s_bg s_ul s_eff option_map].
  destruct fg, bg; cbn [option_map opt_unwrap_or]; rewrite ?svg_of_to_color; reflexivity.
Qed.

Lemma has_bg_eq (line : list (sstyle * list N)) :
  existsb (fun '(s1, _) => opt_is_some (svg_get_bg s1)) line = svg_has_bg line.
Proof.
  unfold svg_has_bg. induction line as [|[s tx] l IH]; cbn [existsb]; [reflexivity|].
  rewrite IH. unfold svg_get_bg. cbn [fst]. destruct (s_bg s); reflexivity.
Qed.

(* `for (style, fragment) in line { if fragment.is_empty() { continue; } write_*_span(&mut buffer, style, fragment); }`
   for any loop body that does that *)
Lemma spans_loop (W : list N -> sstyle -> list N -> option (list N)) classes pr
    (F : sstyle * list N -> list N -> option (bctl (list N))) :
  (forall b s fr, W b s fr = (cl <- classes s ;; Some (b ++ pr (cl, fr)))) ->
  (forall st fr b, F (st, fr) b = if is_empty fr then Some (BNext b) else (o1 <- W b st fr ;; Some (BNext o1))) ->
  forall line buf, for_list0 F line buf = (sp <- svg_spans classes line ;; Some (buf ++ flat_map pr sp)).
Proof.
  intros HW HF. induction line as [|[s fr] l IH]; intros buf; cbn [for_list0 svg_spans].
  - rewrite app_nil_r. reflexivity.
  - rewrite HF. change (is_empty fr) with (svg_is_nil fr). destruct (svg_is_nil fr); [apply IH|].
    rewrite HW. destruct (classes s) as [cl|]; [|reflexivity].
    rewrite IH. destruct (svg_spans classes l) as [sp|]; [|reflexivity].
    cbn [flat_map]. rewrite <- app_assoc. reflexivity.
Qed.

Theorem translated_render_svg_is_model o t input :
  g_svg_render o t input =
  (styled <- svg_styled t input ;;
   d <- svg_doc t input ;;
   Some (svg_print (svg_width_px o (svg_split_lines styled)) (svg_o_uw o) d)).
Proof.
  unfold g_svg_render, svg_doc, svg_styled. cbv zeta.
  (* `WinconBytes::new()` and the drained `extract_next` are the TRANSLATED glue of Generated/WinconFn.v *)
  rewrite translated_wb_extract_next_is_model.
  destruct (extract_next input parser_new capture_default) as [[[runs p] c]|]; [|reflexivity].
  cbv beta iota.
  match goal with |- context [for_list0 ?f runs _] => set (FI := f) end.
  set (inv := fun p : sstyle * list N => (svg_invert t (fst p), snd p)).
  assert (LI : forall l acc e, for_list0 FI l (acc, e) =
                 Some (acc ++ map inv l, fold_left (fun e p => N.lor e (s_eff (fst p))) (map inv l) e)).
  { induction l as [|[s tx] l IH]; intros acc e; cbn [for_list0 map fold_left].
    - rewrite app_nil_r. reflexivity.
    - unfold FI at 1. rewrite invert_stage. cbv beta iota zeta. rewrite IH. rewrite <- app_assoc. reflexivity. }
  rewrite LI. clear LI FI. cbn [app]. cbv beta iota.
  change (fold_left (fun e p => N.lor e (s_eff (fst p))) (map inv runs) 0) with (svg_effects_in_use (map inv runs)).
  set (styled := map inv runs).
  rewrite g_svg_split_lines_eq. cbv beta iota.
  unfold svg_t_fg_c, svg_t_bg_c. rewrite !g_svg_rgb_value_eq.
  destruct (svg_rgb_value (svg_t_fg t) (svg_t_palette t)) as [fgc|]; [|reflexivity].
  destruct (svg_rgb_value (svg_t_bg t) (svg_t_palette t)) as [bgc|]; [|reflexivity].
  rewrite g_svg_color_styles_eq.
  destruct (svg_color_styles styled (svg_t_palette t) []) as [sheet|]; [|reflexivity].
  (* the style sheet entries *)
  match goal with |- context [for_list0 ?f sheet _] => set (FS := f) end.
  assert (LS : forall l b, for_list0 FS l b = Some (b ++ flat_map svg_print_sheet_entry l)).
  { induction l as [|[name rgb1] l IH]; intros b; cbn [for_list0 flat_map].
    - rewrite app_nil_r. reflexivity.
    - unfold FS at 1. rewrite !if_app. cbv beta iota. rewrite IH.
      unfold svg_print_sheet_entry, svg_rule, svg_str_starts_with. f_equal. list_eq. }
  rewrite LS. clear LS FS. cbv beta iota.
  (* the effect rules, the background *)
  rewrite !if_app. cbv beta iota. rewrite if_app2. cbv beta iota.
  (* the rows *)
  match goal with |- context [for_list0 ?f (svg_split_lines styled) _] => set (FL := f) end.
  assert (LL : forall ls buf y,
             for_list0 FL ls (buf, y) =
             (xs <- svg_lines_of ls ;; Some (buf ++ svg_print_lines (svg_o_uw o) y xs, y + 18 * N.of_nat (length ls)))).
  { induction ls as [|line ls IH]; intros buf y.
    - cbn [for_list0 svg_lines_of svg_print_lines length]. rewrite app_nil_r. f_equal. f_equal. lia.
    - replace (y + 18 * N.of_nat (length (line :: ls))) with ((y + 18) + 18 * N.of_nat (length ls)) by (cbn [length]; lia).
      cbn [for_list0 svg_lines_of].
      unfold FL at 1. rewrite has_bg_eq. unfold svg_line_of.
      match goal with |- context [for_list0 ?f line] =>
        match f with context [g_svg_write_fg_span] =>
          pose proof (spans_loop (g_svg_write_fg_span o) svg_fg_classes svg_print_fg_span f
                        (g_svg_write_fg_span_eq o) (fun st fr b => eq_refl)) as LF
        end
      end.
      (* a line with a background colour gets the row of background spans first *)
      destruct (svg_has_bg line).
      1: match goal with |- context [for_list0 ?f line (buf ++ ?x)] =>
           rewrite (spans_loop (g_svg_write_bg_span o) svg_bg_classes (svg_print_bg_span (svg_o_uw o)) f
                      (g_svg_write_bg_span_eq o) (fun st fr b => eq_refl) line (buf ++ x))
         end.
      1: destruct (svg_spans svg_bg_classes line) as [bg|]; [|destruct (svg_spans svg_fg_classes line); reflexivity].
      (* with or without that row: the foreground spans, then the remaining lines *)
      all: cbv beta iota; rewrite LF; destruct (svg_spans svg_fg_classes line) as [fg|]; [|reflexivity].
      all: cbv beta iota; rewrite IH; destruct (svg_lines_of ls) as [xs|]; [|reflexivity].
      all: f_equal; f_equal; cbn [svg_print_lines]; unfold svg_print_line, svg_print_row, svg_elem, svg_px, svg_t_padding;
        cbn [flat_map svg_l_bg svg_l_fg]; unfold svg_attr, svg_line_height; cbn [fst snd]; list_eq. }
  rewrite LL. clear LL FL.
  destruct (svg_lines_of (svg_split_lines styled)) as [xs|]; [|reflexivity].
  cbv beta iota. f_equal.
  unfold svg_print, svg_style_text, svg_elem, svg_empty_elem, svg_rect, svg_px, svg_width_px,
    svg_t_min_width, svg_t_padding, svg_t_font_family, svg_text_classes, svg_effect_rules, svg_line_height.
  cbn [svg_d_height svg_d_fg svg_d_bg svg_d_sheet svg_d_effects svg_d_background svg_d_lines flat_map svg_join].
  unfold svg_print_effect_rule, svg_rule, svg_attr, svg_fg_class, svg_bg_class. cbn [fst snd].
  list_eq.
Qed.

(* the translated render_svg prints the hand model's document (for the width the oracle yields),
   and panics exactly when the hand model has no document *)
Corollary translated_render_svg_prints_doc o t input d :
  svg_doc t input = Some d ->
  exists styled, svg_styled t input = Some styled /\
    g_svg_render o t input = Some (svg_print (svg_width_px o (svg_split_lines styled)) (svg_o_uw o) d).
Proof.
  intros H. pose proof (translated_render_svg_is_model o t input) as E. rewrite H in E.
  destruct (svg_styled t input) as [styled|] eqn:S.
  - exists styled. split; [reflexivity|exact E].
  - unfold svg_doc in H. rewrite S in H. discriminate H.
Qed.

Corollary translated_render_svg_panics o t input :
  svg_doc t input = None -> g_svg_render o t input = None.
Proof.
  intros H. rewrite translated_render_svg_is_model, H. destruct (svg_styled t input); reflexivity.
Qed.

Lemma svg_to_of_color c : svg_to_color (svg_of_color c) = c.
Proof. destruct c as [a | i | [[r g] b]]; reflexivity. Qed.

Lemma svg_to_color_onto c : exists c', c = svg_to_color c'.
Proof. exists (svg_of_color c). symmetry. apply svg_to_of_color. Qed.

(* const FG_COLOR / BG_COLOR: the translated constants are the ANSI numbers tools/gen_svg.py reads *)
Lemma g_svg_const_fg_color_eq : g_svg_const_fg_color = Ansi svg_default_fg_ansi.
Proof. reflexivity. Qed.
Lemma g_svg_const_bg_color_eq : g_svg_const_bg_color = Ansi svg_default_bg_ansi.
Proof. reflexivity. Qed.

(* Term::new(): the literals of the translated struct literal are the constants of Generated/Svg.v *)
Theorem g_svg_term_new_eq :
  g_svg_term_new =
  mkSvgTermFull vga (Ansi svg_default_fg_ansi) (Ansi svg_default_bg_ansi) true svg_font_family svg_min_width svg_padding.
Proof. reflexivity. Qed.

Corollary g_svg_term_new_is_model : g_svg_term_new = svg_term_full_new.
Proof. exact g_svg_term_new_eq. Qed.

Corollary g_svg_term_new_projects :
  svg_tf_term g_svg_term_new = svg_term_new /\
  svg_tf_min_width_px g_svg_term_new = svg_min_width /\
  svg_tf_consts g_svg_term_new.
Proof. repeat split. Qed.

Theorem g_svg_term_default_eq : g_svg_term_default = g_svg_term_new.
Proof. reflexivity. Qed.

Lemma g_svg_term_palette_eq t p : g_svg_term_palette t p = set_svg_tf_palette t p.
Proof. reflexivity. Qed.
Lemma g_svg_term_fg_color_eq t c : g_svg_term_fg_color t c = set_svg_tf_fg_color t c.
Proof. reflexivity. Qed.
Lemma g_svg_term_bg_color_eq t c : g_svg_term_bg_color t c = set_svg_tf_bg_color t c.
Proof. reflexivity. Qed.
Lemma g_svg_term_background_eq t y : g_svg_term_background t y = set_svg_tf_background t y.
Proof. reflexivity. Qed.
Lemma g_svg_term_min_width_px_eq t n : g_svg_term_min_width_px t n = set_svg_tf_min_width_px t n.
Proof. reflexivity. Qed.

Definition g_svg_build1 (t : svg_term_full) (b : svg_builder) : svg_term_full :=
  match b with
  | SbPalette p => g_svg_term_palette t p
  | SbFgColor c => g_svg_term_fg_color t c
  | SbBgColor c => g_svg_term_bg_color t c
  | SbBackground y => g_svg_term_background t y
  | SbMinWidthPx n => g_svg_term_min_width_px t n
  end.
Definition g_svg_build (t : svg_term_full) (bs : list svg_builder) : svg_term_full := fold_left g_svg_build1 bs t.

Lemma g_svg_build1_eq t b : g_svg_build1 t b = svg_build1 t b.
Proof. destruct b; reflexivity. Qed.

Lemma g_svg_build_eq bs : forall t, g_svg_build t bs = svg_build t bs.
Proof.
  unfold g_svg_build, svg_build. induction bs as [|b bs IH]; intros t; cbn [fold_left]; [reflexivity|].
  rewrite g_svg_build1_eq. apply IH.
Qed.

Definition svg_tf_fields (t : svg_term_full) :=
  (svg_tf_palette t, svg_tf_fg_color t, svg_tf_bg_color t, svg_tf_background t,
   svg_tf_font_family t, svg_tf_min_width_px t, svg_tf_padding_px t).

Theorem translated_term_builders_frame t :
  (forall p, svg_tf_fields (g_svg_term_palette t p) =
     (p, svg_tf_fg_color t, svg_tf_bg_color t, svg_tf_background t, svg_tf_font_family t, svg_tf_min_width_px t, svg_tf_padding_px t)) /\
  (forall c, svg_tf_fields (g_svg_term_fg_color t c) =
     (svg_tf_palette t, c, svg_tf_bg_color t, svg_tf_background t, svg_tf_font_family t, svg_tf_min_width_px t, svg_tf_padding_px t)) /\
  (forall c, svg_tf_fields (g_svg_term_bg_color t c) =
     (svg_tf_palette t, svg_tf_fg_color t, c, svg_tf_background t, svg_tf_font_family t, svg_tf_min_width_px t, svg_tf_padding_px t)) /\
  (forall y, svg_tf_fields (g_svg_term_background t y) =
     (svg_tf_palette t, svg_tf_fg_color t, svg_tf_bg_color t, y, svg_tf_font_family t, svg_tf_min_width_px t, svg_tf_padding_px t)) /\
  (forall n, svg_tf_fields (g_svg_term_min_width_px t n) =
     (svg_tf_palette t, svg_tf_fg_color t, svg_tf_bg_color t, svg_tf_background t, svg_tf_font_family t, n, svg_tf_padding_px t)).
Proof. repeat split. Qed.

Lemma svg_tf_fields_inj t u : svg_tf_fields t = svg_tf_fields u -> t = u.
Proof. destruct t, u. unfold svg_tf_fields. cbn. intros H. injection H as -> -> -> -> -> -> ->. reflexivity. Qed.

Definition svg_builder_field (b : svg_builder) : N :=
  match b with SbPalette _ => 0 | SbFgColor _ => 1 | SbBgColor _ => 2 | SbBackground _ => 3 | SbMinWidthPx _ => 5 end.

Theorem translated_term_builders_commute t a b :
  svg_builder_field a <> svg_builder_field b ->
  g_svg_build1 (g_svg_build1 t a) b = g_svg_build1 (g_svg_build1 t b) a.
Proof. destruct a, b; cbn [svg_builder_field]; intros H; try reflexivity; exfalso; apply H; reflexivity. Qed.

Theorem translated_term_builders_last_wins t a b :
  svg_builder_field a = svg_builder_field b ->
  g_svg_build1 (g_svg_build1 t a) b = g_svg_build1 t b.
Proof. destruct a, b; cbn [svg_builder_field]; intros H; try discriminate H; reflexivity. Qed.

(* no builder touches font_family / padding_px: every term built from Term::new() carries the constants the
   translation of render_svg reads through svg_t_font_family / svg_t_padding *)
Lemma g_svg_build1_consts t b : svg_tf_consts t -> svg_tf_consts (g_svg_build1 t b).
Proof. destruct b; exact (fun H => H). Qed.

Theorem translated_term_built_consts bs : svg_tf_consts (g_svg_build g_svg_term_new bs).
Proof.
  unfold g_svg_build. generalize g_svg_term_new (proj2 (proj2 g_svg_term_new_projects)).
  induction bs as [|b bs IH]; intros t H; cbn [fold_left]; [exact H|].
  apply IH, g_svg_build1_consts, H.
Qed.

Theorem translated_term_build1_projects t b :
  svg_tf_term (g_svg_build1 t b) =
    match b with
    | SbPalette p => mkSvgTerm p (svg_t_fg (svg_tf_term t)) (svg_t_bg (svg_tf_term t)) (svg_t_background (svg_tf_term t))
    | SbFgColor c => mkSvgTerm (svg_t_palette (svg_tf_term t)) (svg_of_color c) (svg_t_bg (svg_tf_term t)) (svg_t_background (svg_tf_term t))
    | SbBgColor c => mkSvgTerm (svg_t_palette (svg_tf_term t)) (svg_t_fg (svg_tf_term t)) (svg_of_color c) (svg_t_background (svg_tf_term t))
    | SbBackground y => mkSvgTerm (svg_t_palette (svg_tf_term t)) (svg_t_fg (svg_tf_term t)) (svg_t_bg (svg_tf_term t)) y
    | SbMinWidthPx _ => svg_tf_term t
    end /\
  svg_tf_min_width_px (g_svg_build1 t b) = match b with SbMinWidthPx n => n | _ => svg_tf_min_width_px t end.
Proof. destruct b; split; reflexivity. Qed.

(* the term a client configures completely, `Term::new().palette(p).fg_color(f).bg_color(b).background(y).min_width_px(n)`
   (in any order, by the commutation above), projects to the record the correspondence driver builds
   (svg_m_doc p fg bg y = svg_doc (mkSvgTerm p fg bg y)), with minimal width n and the constant fields *)
Theorem translated_term_configured p fg bg y n :
  let t := g_svg_term_min_width_px (g_svg_term_background (g_svg_term_bg_color (g_svg_term_fg_color
             (g_svg_term_palette g_svg_term_new p) (svg_to_color fg)) (svg_to_color bg)) y) n in
  svg_tf_term t = mkSvgTerm p fg bg y /\
  svg_tf_min_width_px t = n /\
  svg_tf_consts t /\
  (forall uw ceil84 input,
     g_svg_render (svg_tf_oracle uw ceil84 t) (svg_tf_term t) input =
     g_svg_render (mkSvgOracle uw ceil84 n) (mkSvgTerm p fg bg y) input).
Proof.
  cbv zeta. unfold svg_tf_term. cbn [g_svg_term_min_width_px g_svg_term_background g_svg_term_bg_color g_svg_term_fg_color g_svg_term_palette].
  cbn. rewrite !svg_of_to_color. repeat split.
Qed.

(* render_svg translated over the WHOLE struct (every `self.<field>` is a field of [svg_term_full]).
   On a term that keeps [svg_tf_consts] it is [g_svg_render] on the projections: reading font_family / padding_px as
   constants and min_width_px from the oracle (the vocabulary of g_svg_render) is exact for every term built from
   Term::new() by the builders. *)
Theorem translated_render_svg_full_eq o t input :
  svg_tf_consts t -> svg_o_min_width o = svg_tf_min_width_px t ->
  g_svg_render_full o t input = g_svg_render o (svg_tf_term t) input.
Proof.
  (* the hypotheses are substituted into variables and the colours written as images of [svg_to_color]
     while both functions are still folded; what is left is a conversion *)
  destruct t as [p fg bg y ff mw pad]. intros [HF HP] HM. cbn in HF, HP, HM. subst ff pad mw.
  destruct (svg_to_color_onto fg) as [fg' ->], (svg_to_color_onto bg) as [bg' ->].
  unfold svg_tf_term. cbn [svg_tf_palette svg_tf_fg_color svg_tf_bg_color svg_tf_background].
  rewrite !svg_of_to_color. reflexivity.
Qed.

Corollary translated_render_svg_full_is_model uw ceil84 t input :
  svg_tf_consts t ->
  g_svg_render_full (svg_tf_oracle uw ceil84 t) t input =
  (styled <- svg_styled (svg_tf_term t) input ;;
   d <- svg_doc (svg_tf_term t) input ;;
   Some (svg_print (svg_width_px (svg_tf_oracle uw ceil84 t) (svg_split_lines styled)) uw d)).
Proof.
  intros H. rewrite (translated_render_svg_full_eq (svg_tf_oracle uw ceil84 t) t input H eq_refl).
  apply (translated_render_svg_is_model (svg_tf_oracle uw ceil84 t)).
Qed.

(* `Term::new().<builders>.render_svg(input)`, all of it translated *)
Corollary translated_built_term_renders uw ceil84 bs input :
  let t := g_svg_build g_svg_term_new bs in
  g_svg_render_full (svg_tf_oracle uw ceil84 t) t input =
  (styled <- svg_styled (svg_tf_term t) input ;;
   d <- svg_doc (svg_tf_term t) input ;;
   Some (svg_print (svg_width_px (svg_tf_oracle uw ceil84 t) (svg_split_lines styled)) uw d)).
Proof. cbv zeta. apply translated_render_svg_full_is_model, translated_term_built_consts. Qed.
