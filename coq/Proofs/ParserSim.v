(* The hand model of Parser::advance (Model/Parser.v) refines the specification
   Spec/Vt.v, by a simulation relation between the array bookkeeping of the Rust
   code and the abstract bookkeeping of the spec.  In particular the model never
   returns [None]: no array index out of bounds, no underflow, ParamsIter terminates. *)
From Coq Require Import NArith List Bool Lia Arith.
From AV Require Import Generated.Table Spec.Utf8 Spec.Vt Model.Base Model.Utf8parse Model.Parser
  Proofs.TableFacts Proofs.VtFacts Proofs.VtCancel Proofs.ParamsSim Proofs.OscSim Proofs.Utf8Sim.
Import ListNotations.
Local Open Scope N_scope.
(* the proofs below use bare [cbn] after [constructor]; without these it unfolds
   arithmetic on the 32 / 16 / 65535 constants *)
Local Arguments N.mul : simpl never.
Local Arguments N.add : simpl never.
Local Arguments N.sub : simpl never.
Local Arguments N.min : simpl never.

(* unconditional well-formedness: the fixed-size arrays keep their sizes *)
Record wf (p : parser) : Prop := {
  wf_int : length (intermediates p) = 2%nat;
  wf_sub : length (subparams (pparams p)) = 32%nat;
  wf_val : length (pvals (pparams p)) = 32%nat;
  wf_osc : length (osc_params p) = 16%nat
}.

Record book_ok (p : parser) (s : vt) : Prop := {
  bk_idx : intermediate_idx p = N.of_nat (length (ints s));
  bk_ilen : (length (ints s) <= 2)%nat;
  bk_ints : firstn (length (ints s)) (intermediates p) = ints s;
  bk_ign : ignoring p = ign s;
  bk_pend : pparam p = pend s;
  bk_par : params_rep (pparams p) (closed s) (cur s)
}.

Definition state_rel (p : parser) (s : vt) : Prop :=
  match uni s with
  | Some (u, acc) => pstate p = Utf8 /\ vs s = VGround /\ u8_rel (utf8_parser p) u acc
  | None => abs_state (pstate p) = Some (vs s) /\ utf8_parser p = u8_new
  end.

(* the bookkeeping is related only in the states that read it; the OSC buffers
   only inside an OSC string *)
Record R (p : parser) (s : vt) : Prop := {
  r_wf : wf p;
  r_state : state_rel p s;
  r_book : reads (vs s) = true -> book_ok p s;
  r_osc : vs s = VOsc -> osc_ok p (osc s)
}.

Lemma R_init : R parser_new vt_init.
Proof.
  constructor.
  - constructor; reflexivity.
  - split; reflexivity.
  - discriminate.
  - discriminate.
Qed.

(* in Ground nothing but the state and the decoder is related *)
Lemma R_ground : forall p s, wf p -> vs s = VGround -> state_rel p s -> R p s.
Proof. intros p s W Hv St. constructor; auto; rewrite Hv; discriminate. Qed.

Lemma wf_set_utf8 : forall p u, wf p -> wf (set_utf8 p u).
Proof. intros p u []. constructor; assumption. Qed.

Lemma wf_set_state : forall p st, wf p -> wf (set_state p st).
Proof. intros p st []. constructor; assumption. Qed.

(* what an action leaves alone *)
Definition same_ctl (p p' : parser) : Prop :=
  pstate p' = pstate p /\ utf8_parser p' = utf8_parser p.
Definition same_osc (p p' : parser) : Prop :=
  osc_raw p' = osc_raw p /\ osc_params p' = osc_params p /\ osc_num_params p' = osc_num_params p.
Definition same_book (p p' : parser) : Prop :=
  intermediates p' = intermediates p /\ intermediate_idx p' = intermediate_idx p /\
  pparams p' = pparams p /\ pparam p' = pparam p /\ ignoring p' = ignoring p.

Lemma same_ctl_refl : forall p, same_ctl p p. Proof. split; reflexivity. Qed.
Lemma same_osc_refl : forall p, same_osc p p. Proof. repeat split. Qed.
Lemma same_book_refl : forall p, same_book p p. Proof. repeat split. Qed.

Lemma osc_ok_same : forall p p' pl, same_osc p p' -> osc_ok p pl -> osc_ok p' pl.
Proof.
  intros p p' pl (E1 & E2 & E3) [H1 H2 H3 H4]. constructor; rewrite ?E1, ?E2, ?E3; auto.
Qed.

Lemma book_ok_same : forall p p' s, same_book p p' -> book_ok p s -> book_ok p' s.
Proof.
  intros p p' s (E1 & E2 & E3 & E4 & E5) [H1 H2 H3 H4 H5 H6].
  constructor; rewrite ?E1, ?E2, ?E3, ?E4, ?E5; auto.
Qed.

Lemma collect_sim : forall p s b, wf p -> book_ok p s ->
  exists p', perform_action cfg_default p ACollect b = Some (p', []) /\
             book_ok p' (collect s b) /\ wf p' /\ same_ctl p p' /\ same_osc p p'.
Proof.
  intros p s b [W1 W2 W3 W4] [Hidx Hil Hints Hign Hpend Hpar].
  cbn [perform_action]. change MAX_INTERMEDIATES with 2. unfold collect, max_ints.
  destruct (Nat.eqb_spec (length (ints s)) 2) as [E|E].
  - destruct (N.eqb_spec (intermediate_idx p) 2) as [_|E2]; [|lia].
    eexists; split; [reflexivity|].
    split; [constructor; cbn; auto|].
    split; [constructor; cbn; auto|].
    split; repeat split.
  - destruct (N.eqb_spec (intermediate_idx p) 2) as [E2|_]; [lia|].
    destruct (aset_nat_some (intermediates p) (length (ints s)) b) as [i Hi]; [lia|].
    unfold aset. rewrite Hidx, Nat2N.id, Hi.
    eexists; split; [reflexivity|].
    assert (Hl : length (ints s ++ [b]) = S (length (ints s))) by (rewrite app_length; cbn; lia).
    split; [constructor; cbn; rewrite ?Hl; auto|].
    + lia.
    + lia.
    + rewrite (aset_nat_firstn_S _ _ _ _ Hi), Hints. reflexivity.
    + split; [constructor; cbn; auto|].
      * rewrite (aset_nat_length _ _ _ _ Hi). exact W1.
      * split; repeat split.
Qed.

Lemma full_test : forall ps closed cur, params_rep ps closed cur ->
  params_is_full ps = Nat.eqb (length (concat closed) + length cur) 32.
Proof.
  intros ps closed cur Hr. unfold params_is_full. rewrite (pr_plen _ _ _ Hr).
  change MAX_PARAMS with 32. pose proof (pr_bound _ _ _ Hr).
  destruct (Nat.eqb_spec (length (concat closed) + length cur) 32);
    destruct (N.eqb_spec (N.of_nat (length (concat closed) + length cur)) 32); try reflexivity; lia.
Qed.

Lemma param_sim : forall p s b, wf p -> book_ok p s -> 48 <= b <= 59 ->
  exists p', perform_action cfg_default p AParam b = Some (p', []) /\
             book_ok p' (param s b) /\ wf p' /\ same_ctl p p' /\ same_osc p p'.
Proof.
  intros p s b [W1 W2 W3 W4] [Hidx Hil Hints Hign Hpend Hpar] Hb.
  cbn [perform_action]. rewrite (full_test _ _ _ Hpar).
  unfold param, count_values, max_values.
  pose proof (pr_bound _ _ _ Hpar) as Hbound.
  destruct (Nat.eqb_spec (length (concat (closed s)) + length (cur s)) 32) as [E|E].
  - eexists; split; [reflexivity|].
    split; [constructor; cbn; auto|].
    split; [constructor; cbn; auto|].
    split; repeat split.
  - destruct (N.eqb_spec b 59) as [E59|E59]; [|destruct (N.eqb_spec b 58) as [E58|E58]].
    + destruct (params_push_rep _ _ _ (pparam p) Hpar) as (ps' & Hps & Hr'); [lia|].
      rewrite Hps. eexists; split; [reflexivity|].
      split; [constructor; cbn; auto; rewrite <- Hpend; exact Hr'|].
      split; [constructor; cbn; auto; [apply (pr_sub_len _ _ _ Hr') | apply (pr_val_len _ _ _ Hr')]|].
      split; repeat split.
    + destruct (params_extend_rep _ _ _ (pparam p) Hpar) as (ps' & Hps & Hr'); [lia|].
      rewrite Hps. eexists; split; [reflexivity|].
      split; [constructor; cbn; auto; rewrite <- Hpend; exact Hr'|].
      split; [constructor; cbn; auto; [apply (pr_sub_len _ _ _ Hr') | apply (pr_val_len _ _ _ Hr')]|].
      split; repeat split.
    + unfold csub. destruct (N.leb_spec 48 b) as [_|Hlt]; [|lia].
      eexists; split; [reflexivity|].
      split; [constructor; cbn; auto|].
      * unfold u16_sat_add, u16_sat_mul, max_value. rewrite Hpend. lia.
      * split; [constructor; cbn; auto|]. split; repeat split.
Qed.

Lemma intermediates_sim : forall p s, wf p -> book_ok p s -> intermediates_of p = Some (ints s).
Proof.
  intros p s [W1 _ _ _] [Hidx Hil Hints _ _ _]. unfold intermediates_of, slice.
  destruct (N.leb_spec 0 (intermediate_idx p)) as [_|H]; [|lia].
  destruct (N.leb_spec (intermediate_idx p) (N.of_nat (length (intermediates p)))) as [_|H]; [|lia].
  cbn [andb N.to_nat skipn]. rewrite N.sub_0_r, Hidx, Nat2N.id, Hints. reflexivity.
Qed.

Lemma finish_sim : forall p s, wf p -> book_ok p s ->
  exists p1, finish_params p = Some p1 /\
             params_groups (pparams p1) = Some (fst (final_params s)) /\
             intermediates_of p1 = Some (ints s) /\
             ignoring p1 = snd (final_params s) /\
             wf p1 /\ same_ctl p p1 /\ same_osc p p1.
Proof.
  intros p s W B. pose proof (intermediates_sim _ _ W B) as Hi.
  destruct W as [W1 W2 W3 W4]. destruct B as [Hidx Hil Hints Hign Hpend Hpar].
  unfold finish_params. rewrite (full_test _ _ _ Hpar).
  unfold final_params, count_values, max_values.
  destruct (Nat.eqb_spec (length (concat (closed s)) + length (cur s)) 32) as [E|E].
  - eexists; split; [reflexivity|]. cbn [fst snd].
    split; [cbn [pparams set_ignoring]; apply (params_groups_rep _ _ _ Hpar)|].
    split; [exact Hi|]. split; [reflexivity|].
    split; [constructor; cbn; auto|]. split; repeat split.
  - pose proof (pr_bound _ _ _ Hpar) as Hbound.
    destruct (params_push_rep _ _ _ (pparam p) Hpar) as (ps' & Hps & Hr'); [lia|].
    rewrite Hps. eexists; split; [reflexivity|]. cbn [fst snd].
    split.
    { cbn [pparams set_params]. rewrite (params_groups_rep _ _ _ Hr'). unfold groups_of. rewrite app_nil_r, Hpend. reflexivity. }
    split; [exact Hi|]. split; [exact Hign|].
    split; [constructor; cbn; auto; [apply (pr_sub_len _ _ _ Hr') | apply (pr_val_len _ _ _ Hr')]|].
    split; repeat split.
Qed.

Lemma oscput_semi : forall p,
  perform_action cfg_default p AOscPut 59 = (p' <- osc_semi p ;; Some (p', [])).
Proof.
  intros p. cbn [perform_action]. unfold osc_full, osc_semi. cbn [osc_cap cfg_default N.eqb Pos.eqb].
  destruct (osc_num_params p =? MAX_OSC_PARAMS); [reflexivity|]. destruct (osc_num_params p =? 0).
  - destruct (aset _ _ _); reflexivity.
  - destruct (csub _ _); [|reflexivity]. destruct (aget _ _) as [[? ?]|]; [|reflexivity].
    destruct (aset _ _ _); reflexivity.
Qed.

Lemma oscput_sim : forall p payload b, wf p -> osc_ok p payload ->
  exists p', perform_action cfg_default p AOscPut b = Some (p', []) /\
             osc_ok p' (payload ++ [b]) /\ wf p' /\ same_ctl p p' /\ same_book p p'.
Proof.
  intros p payload b [W1 W2 W3 W4] Hok.
  destruct (N.eqb_spec b 59) as [->|Hb].
  - destruct (osc_semi_ok _ _ Hok) as (ops & n & Hs & Hok').
    exists (set_osc p (osc_raw p) ops n). rewrite oscput_semi, Hs.
    split; [reflexivity|]. split; [exact Hok'|].
    split; [constructor; auto; exact (oo_len _ _ Hok')|]. split; repeat split.
  - cbn [perform_action]. unfold osc_full. cbn [osc_cap cfg_default].
    apply N.eqb_neq in Hb. rewrite Hb. eexists; split; [reflexivity|].
    split; [apply osc_put_other_ok; [assumption | now apply N.eqb_neq]|].
    split; [constructor; cbn; auto|]. split; repeat split.
Qed.

Lemma osc_kept : forall p p' s va b, va <> TOscPut -> same_osc p p' ->
  osc_ok p (osc s) -> osc_ok p' (osc (fst (do_action s va b))).
Proof. intros p p' s va b Hn Hs Ho. rewrite (do_action_osc _ _ _ Hn). exact (osc_ok_same _ _ _ Hs Ho). Qed.

Lemma action_sim : forall p s a va b,
  wf p -> abs_action a = Some va -> va <> TUtf8 ->
  (needs_book va = true -> book_ok p s) ->
  (va = TOscPut -> osc_ok p (osc s)) ->
  (va = TParam -> 48 <= b <= 59) ->
  exists p',
    perform_action cfg_default p a b = Some (p', snd (do_action s va b)) /\
    wf p' /\ same_ctl p p' /\
    (is_dispatch va = false -> book_ok p s -> book_ok p' (fst (do_action s va b))) /\
    (osc_ok p (osc s) -> osc_ok p' (osc (fst (do_action s va b)))).
Proof.
  intros p s a va b W Ha Hu Hbook Hosc Hpar.
  destruct a; cbn [abs_action] in Ha; try discriminate; injection Ha as <-;
    cbn [needs_book is_dispatch] in *;
    (* the actions that only report *)
    try (exists p; exact (conj eq_refl (conj W (conj (same_ctl_refl p) (conj (fun _ B => B) (fun O => O)))))).
  - (* Collect *)
    destruct (collect_sim p s b W (Hbook eq_refl)) as (p' & Hp & Hb' & Hw & Hc & Ho).
    exists p'. exact (conj Hp (conj Hw (conj Hc (conj (fun _ _ => Hb') (osc_kept p p' s TCollect b ltac:(discriminate) Ho))))).
  - (* CsiDispatch *)
    destruct (finish_sim p s W (Hbook eq_refl)) as (p1 & Hf & Hg & Hi & Hig & Hw & Hc & Ho).
    exists p1. rewrite do_action_csi. cbn [perform_action fst snd]. rewrite Hf, Hg, Hi, Hig.
    refine (conj eq_refl (conj Hw (conj Hc (conj _ (osc_ok_same _ _ _ Ho))))). discriminate.
  - (* EscDispatch *)
    pose proof (Hbook eq_refl) as B.
    exists p. cbn [perform_action do_action fst snd]. rewrite (intermediates_sim _ _ W B), (bk_ign _ _ B).
    refine (conj eq_refl (conj W (conj (same_ctl_refl p) (conj _ (fun O => O))))). discriminate.
  - (* OscPut *)
    destruct (oscput_sim p (osc s) b W (Hosc eq_refl)) as (p' & Hp & Ho & Hw & Hc & Hb').
    exists p'. refine (conj Hp (conj Hw (conj Hc (conj (fun _ B => _) (fun _ => Ho))))).
    apply (book_ok_same _ _ _ Hb'). destruct B. constructor; assumption.
  - (* Param *)
    destruct (param_sim p s b W (Hbook eq_refl) (Hpar eq_refl)) as (p' & Hp & Hb' & Hw & Hc & Ho).
    exists p'. exact (conj Hp (conj Hw (conj Hc (conj (fun _ _ => Hb') (osc_kept p p' s TParam b ltac:(discriminate) Ho))))).
  - (* BeginUtf8 *) congruence.
Qed.

Definition exit_action (c : cfg) (p : parser) (b : N) : option (parser * list event) :=
  match pstate p with
  | DcsPassthrough => perform_action c p AUnhook b
  | OscString => perform_action c p AOscEnd b
  | _ => Some (p, [])
  end.

Definition entry_action (c : cfg) (p : parser) (s : state) (b : N) : option (parser * list event) :=
  match s with
  | CsiEntry | DcsEntry | Escape => perform_action c p AClear b
  | DcsPassthrough => perform_action c p AHook b
  | OscString => perform_action c p AOscStart b
  | _ => Some (p, [])
  end.

Lemma trans_action_eq : forall c p a b,
  match a with ANop => Some (p, []) | _ => perform_action c p a b end = perform_action c p a b.
Proof. intros c p a b. destruct a; reflexivity. Qed.

Lemma psc_unfold : forall c p s a b, s <> Anywhere ->
  perform_state_change c p s a b =
  ('(p1, e1) <- exit_action c p b ;;
   '(p2, e2) <- match a with ANop => Some (p1, []) | _ => perform_action c p1 a b end ;;
   '(p3, e3) <- entry_action c p2 s b ;;
   Some (set_state p3 s, e1 ++ e2 ++ e3)).
Proof. intros c p s a b Hs. destruct s; try congruence; reflexivity. Qed.

Lemma exit_sim : forall p s b,
  wf p -> abs_state (pstate p) = Some (vs s) -> (vs s = VOsc -> osc_ok p (osc s)) ->
  exists p1, exit_action cfg_default p b = Some (p1, exit_events s b) /\
             wf p1 /\ same_ctl p p1 /\ same_book p p1.
Proof.
  intros p s b W Hst Hosc. unfold exit_action, exit_events.
  destruct (pstate p) eqn:Ep; cbn [abs_state] in Hst; try discriminate;
    injection Hst as Hst; rewrite <- Hst;
    try (exists p; exact (conj eq_refl (conj W (conj (same_ctl_refl p) (same_book_refl p))))).
  (* OscString *)
  destruct (osc_end_ok p (osc s) b (Hosc (eq_sym Hst))) as (ops & n & Hs & Hl & Hd).
  exists (set_osc p (osc_raw p) ops n). split.
  - cbn [perform_action]. unfold osc_semi in Hs. rewrite Hs, Hd. reflexivity.
  - split; [destruct W; constructor; assumption|]. split; repeat split.
Qed.

Lemma book_ok_set_vs : forall p s t, book_ok p s -> book_ok p (set_vs s t).
Proof. intros p s t []. constructor; assumption. Qed.

Lemma entry_sim : forall p s st t b,
  wf p -> abs_state st = Some t ->
  (clears t = false -> reads t = true \/ t = VDcsPass -> book_ok p s) ->
  exists p3, entry_action cfg_default p st b = Some (p3, snd (enter s t b)) /\
             wf p3 /\ same_ctl p p3 /\
             (reads t = true -> book_ok p3 (fst (enter s t b))) /\
             (t = VOsc -> osc_ok p3 (osc (fst (enter s t b)))).
Proof.
  intros p s st t b W Hst Hbook.
  destruct st; cbn [abs_state] in Hst; try discriminate; injection Hst as <-; cbn [entry_action];
    (* no entry action: the bookkeeping, where it is read, is the one before *)
    try (exists p; refine (conj eq_refl (conj W (conj (same_ctl_refl p) (conj _ _))));
         [ first [discriminate | intros _; apply book_ok_set_vs, Hbook; [reflexivity | left; reflexivity]]
         | discriminate ]).
  1,2,4: (* Clear *)
    (eexists; split; [reflexivity|]; destruct W as [W1 W2 W3 W4];
     split; [constructor; assumption|];        (* wf *)
     split; [split; reflexivity|];             (* same_ctl *)
     split; [|discriminate];                   (* not VOsc *)
     intros _; constructor; cbn; auto; apply params_rep_clear; assumption).
  - (* DcsPassthrough: Hook *)
    assert (B : book_ok p s) by (apply Hbook; [reflexivity | right; reflexivity]).
    destruct (finish_sim p s W B) as (p1 & Hf & Hg & Hi & Hig & Hw & Hc & Ho).
    exists p1. rewrite enter_pass. cbn [perform_action fst snd]. rewrite Hf, Hg, Hi, Hig.
    refine (conj eq_refl (conj Hw (conj Hc (conj _ _)))); discriminate.
  - (* OscString: OscStart *)
    eexists. split; [reflexivity|]. destruct W as [W1 W2 W3 W4].
    split; [constructor; assumption|].         (* wf *)
    split; [split; reflexivity|].              (* same_ctl *)
    split; [discriminate|].                    (* VOsc does not read *)
    intros _. apply osc_start_ok. exact W4.
Qed.

Lemma abs_action_utf8 : forall a, abs_action a = Some TUtf8 -> a = ABeginUtf8.
Proof. destruct a; cbn; intros H; try discriminate; reflexivity. Qed.

(* the table entry and the spec transition, split by what the model does with the
   target: stay / begin a character / move.  [trans_matches] does not say that a
   non-Utf8 target never carries BeginUtf8; [utf8_only_ground] does *)
Lemma table_step : forall st v b, abs_state st = Some v -> b < 256 ->
  exists s' a tgt va,
    state_change st b = Some (s', a) /\ vt_trans v b = (tgt, va) /\ abs_action a = Some va /\
    ((s' = Anywhere /\ tgt = None /\ va <> TUtf8) \/
     (s' = Utf8 /\ tgt = None /\ a = ABeginUtf8 /\ va = TUtf8) \/
     (exists t, abs_state s' = Some t /\ tgt = Some t /\ va <> TUtf8 /\ s' <> Anywhere)).
Proof.
  intros st v b Hv Hb.
  pose proof (table_is_williams st b Hb) as H. unfold trans_matches in H. rewrite Hv in H.
  pose proof (state_change_sweep _ utf8_only_ground_all st b Hb) as U. unfold utf8_only_ground in U.
  destruct (state_change st b) as [[s' a]|]; [|discriminate].
  destruct (vt_trans v b) as [tgt va].
  exists s', a, tgt, va. split; [reflexivity|]. split; [reflexivity|].
  apply andb_true_iff in U. destruct U as [U _].
  assert (Hnu : abs_action a = Some va -> state_eqb s' Utf8 = false -> va <> TUtf8).
  { intros HA Hs ->. apply abs_action_utf8 in HA. subst a.
    change (action_eqb ABeginUtf8 ABeginUtf8) with true in U. cbv iota in U.
    apply andb_true_iff in U. destruct U as [_ U]. congruence. }
  destruct s'; cbn [abs_state] in H; repeat rewrite andb_true_iff in H.
  all: try (destruct H as [H1 H2]; apply opt_vstate_eqb_eq in H1; apply opt_vact_eqb_eq in H2;
            split; [exact H2|]).
  all: try (right; right; eexists; split; [reflexivity|]; split; [exact H1|];
            split; [apply Hnu; [exact H2 | reflexivity] | discriminate]).
  - left. split; [reflexivity|]. split; [exact H1|]. apply Hnu; [exact H2 | reflexivity].
  - (* Utf8 *)
    destruct H as [[H1 H2] H3]. apply opt_vstate_eqb_eq in H1. apply opt_vact_eqb_eq in H2.
    apply vact_eqb_eq in H3. subst va. split; [exact H2|].
    right; left. split; [reflexivity|]. split; [exact H1|]. split; [apply abs_action_utf8; exact H2 | reflexivity].
Qed.

Lemma advance_non_utf8 : forall c p b, pstate p <> Utf8 ->
  advance c p b = ('(s, a) <- state_change (pstate p) b ;; perform_state_change c p s a b).
Proof. intros c p b H. unfold advance. destruct (pstate p); try reflexivity. congruence. Qed.

Lemma abs_state_ground : forall st, abs_state st = Some VGround -> st = Ground.
Proof. destruct st; cbn; intros H; try discriminate; reflexivity. Qed.

Lemma abs_state_not_utf8 : forall st v, abs_state st = Some v -> st <> Utf8.
Proof. intros st v H ->. discriminate. Qed.

Lemma step_sim : forall p s b, R p s -> b < 256 ->
  exists p', advance cfg_default p b = Some (p', snd (vt_step s b)) /\ R p' (fst (vt_step s b)).
Proof.
  intros p s b [W St Bk Os] Hb. unfold state_rel in St.
  destruct (uni s) as [[u acc]|] eqn:Eu.
  - (* inside a multi-byte character *)
    unfold vt_step. rewrite Eu. destruct St as (Hp & Hv & Hu).
    unfold advance. rewrite Hp. unfold process_utf8, char_add. cbn [utf8_on cfg_default].
    pose proof (u8_cont_sim _ _ _ b Hu) as Hc.
    destruct (utf8_cont u b) as [u'| |]; [destruct Hc as (up' & Hc & Hr)|..]; rewrite Hc;
      (eexists; split; [reflexivity|]); apply R_ground; cbn [fst];
      auto using wf_set_utf8, wf_set_state; unfold state_rel; cbn; rewrite ?Hv; auto.
  - destruct St as (Hst & Hidle). rewrite (vt_step_none s b Eu).
    rewrite (advance_non_utf8 _ _ _ (abs_state_not_utf8 _ _ Hst)).
    destruct (table_step _ _ b Hst Hb) as (s' & a & tgt & va & Hsc & Hvt & Ha & Hcase).
    destruct (vt_trans_facts (vs s) b Hb) as [F1 F2 F3 F4 F5 F6]. rewrite Hvt in *. cbn [fst snd] in *.
    rewrite Hsc.
    destruct Hcase as [(-> & -> & Hnu) | [(-> & -> & -> & ->) | (t & Ht & -> & Hnu & Hna)]].
    + (* no transition *)
      cbn [perform_state_change].
      destruct (action_sim p s a va b W Ha Hnu) as (p' & Hp & Hw & (Hc1 & Hc2) & Hbk & Hos).
      * intros Hn. apply Bk, F1, Hn.
      * intros Ho. apply Os, (F3 Ho).
      * exact F2.
      * rewrite Hp. eexists; split; [reflexivity|].
        constructor; [exact Hw | | |]; rewrite ?do_action_vs.
        -- unfold state_rel. rewrite (do_action_uni _ _ _ Hnu), Eu, do_action_vs, Hc1, Hc2. auto.
        -- intros Hr. apply Hbk; [|apply Bk, Hr].
           destruct (is_dispatch va) eqn:Ed; [|reflexivity]. specialize (F4 eq_refl). discriminate.
        -- intros Hr. apply Hos, Os, Hr.
    + (* a multi-byte character begins *)
      destruct (F5 eq_refl) as (Hg & _ & u & Hu).
      rewrite Hg in Hst. apply abs_state_ground in Hst.
      destruct (u8_begin _ _ Hu) as (up & Hup & Hrel).
      cbn [perform_state_change]. rewrite Hst.
      cbn [perform_action]. unfold process_utf8, char_add. cbn [utf8_on cfg_default].
      rewrite Hidle, Hup. cbn [do_action]. rewrite Hu.
      eexists; split; [reflexivity|]. apply R_ground; cbn [fst vs];
        auto using wf_set_utf8, wf_set_state. unfold state_rel. cbn. auto.
    + (* a transition: exit action, action, entry action *)
      rewrite (psc_unfold _ _ _ _ _ Hna).
      destruct (exit_sim p s b W Hst Os) as (p1 & He & Hw1 & (C1 & C1') & Hb1). rewrite He.
      destruct (action_sim p1 s a va b Hw1 Ha Hnu) as (p2 & Hp & Hw2 & (C2 & C2') & Hbk & Hos).
      * intros Hn. apply (book_ok_same _ _ _ Hb1), Bk, F1, Hn.
      * intros Ho. destruct (F3 Ho). discriminate.
      * exact F2.
      * rewrite trans_action_eq, Hp.
        destruct (entry_sim p2 (fst (do_action s va b)) s' t b Hw2 Ht) as (p3 & Hen & Hw3 & (C3 & C3') & Ebk & Eos).
        { (* F6: a state that reads the bookkeeping without clearing it is entered only
             from a state that reads it, so [book_ok] is there exactly when
             [entry_sim] asks for it *)
          intros Hcl Hrd.
          destruct (F6 t eq_refl) as [Hr Hnd].
          { destruct Hrd as [Hrd| ->]; [left; split; assumption | right; reflexivity]. }
          apply Hbk; [exact Hnd|]. apply (book_ok_same _ _ _ Hb1), Bk, Hr. }
        rewrite Hen. eexists; split; [reflexivity|]. cbn [fst].
        constructor; rewrite ?enter_vs.
        -- apply wf_set_state, Hw3.
        -- unfold state_rel. rewrite enter_uni, (do_action_uni _ _ _ Hnu), Eu, enter_vs. cbn.
           rewrite C3', C2', C1'. auto.
        -- intros Hr. apply (book_ok_same p3); [repeat split | exact (Ebk Hr)].
        -- intros Hr. apply (osc_ok_same p3); [repeat split | exact (Eos Hr)].
Qed.

Lemma run_sim : forall bs p s, Forall (fun b => b < 256) bs -> R p s ->
  exists p', run cfg_default p bs = Some (p', snd (vt_run s bs)) /\ R p' (fst (vt_run s bs)).
Proof.
  induction bs as [|b bs IH]; intros p s Hbs HR.
  - exists p. split; [reflexivity | exact HR].
  - inversion Hbs as [|? ? Hb Hrest]; subst.
    destruct (step_sim p s b HR Hb) as (p1 & Ha & HR1).
    cbn [run vt_run]. rewrite Ha.
    destruct (vt_step s b) as [s1 e1]. cbn [fst snd] in *.
    destruct (IH p1 s1 Hrest HR1) as (p2 & Hr & HR2). rewrite Hr.
    destruct (vt_run s1 bs) as [s2 e2]. cbn [fst snd] in *.
    exists p2. split; [reflexivity | exact HR2].
Qed.

Theorem parser_refines_spec : forall bs, Forall (fun b => b < 256) bs ->
  events_model bs = Some (spec_events bs).
Proof.
  intros bs Hbs. destruct (run_sim bs _ _ Hbs R_init) as (p' & Hr & _).
  unfold events_model, spec_events. rewrite Hr. reflexivity.
Qed.

Corollary parser_never_panics : forall bs, Forall (fun b => b < 256) bs -> events_model bs <> None.
Proof. intros bs Hbs. rewrite (parser_refines_spec bs Hbs). discriminate. Qed.
