(* C11: printing an expressible style in git's syntax and
   parsing it back. *)
From Coq Require Import NArith PeanoNat List Bool Lia.
From AV Require Import Generated.Git Spec.StyleRec Spec.SgrCodes Spec.GitSyntax Model.Base Model.Text Model.Git
  Proofs.BaseFacts Proofs.Text Proofs.LsParse Proofs.GitWords Proofs.GitColor Proofs.Git.
Import ListNotations.
Local Open Scope N_scope.

Definition spells (w : list N) (t : gtoken) : Prop := classify w = Some t /\ is_word w.

Lemma spells_all : forall ws ts, Forall2 spells ws ts ->
  Forall2 (fun w t => classify w = Some t) ws ts /\ Forall is_word ws.
Proof. induction 1 as [|w t ws ts [C W] _ [IH1 IH2]]; split; constructor; assumption. Qed.

Definition word_ok (w : list N) : bool := negb (is_nil w) && ws_free w.

Lemma word_ok_is_word : forall w, word_ok w = true -> is_word w.
Proof.
  intros w H. unfold word_ok in H. apply andb_true_iff in H as [H1 H2]. split; [|exact H2].
  destruct w; [discriminate H1 | discriminate].
Qed.

Definition hex_digit_ok (v : N) : bool :=
  is_hex (hex_digit v) && (hex_value (hex_digit v) =? v) && (ascii_lower (hex_digit v) =? hex_digit v)
  && negb (is_white_space (hex_digit v)).

Lemma hex_digit_facts : forall v, v < 16 ->
  is_hex (hex_digit v) = true /\ hex_value (hex_digit v) = v /\ ascii_lower (hex_digit v) = hex_digit v
  /\ is_white_space (hex_digit v) = false.
Proof.
  assert (B : forallb hex_digit_ok (range_from 0 16) = true) by reflexivity.
  intros v Hv. pose proof (forall_range _ 16 B v Hv) as H. unfold hex_digit_ok in H.
  rewrite !andb_true_iff in H. destruct H as (((H1 & H2) & H3) & H4).
  apply N.eqb_eq in H2, H3. apply negb_true_iff in H4. auto.
Qed.

(* the two digits hex2 prints *)
Lemma nibbles : forall r, r <= 255 -> r / 16 < 16 /\ r mod 16 < 16 /\ 16 * (r / 16) + r mod 16 = r.
Proof.
  intros r Hr. split; [|split].
  - apply N.div_lt_upper_bound; lia.
  - apply N.mod_lt. lia.
  - symmetry. apply N.div_mod. lia.
Qed.

Lemma hex2_facts : forall r, r <= 255 ->
  forallb is_hex (hex2 r) = true /\ map ascii_lower (hex2 r) = hex2 r /\ ws_free (hex2 r) = true
  /\ 16 * hex_value (hex_digit (r / 16)) + hex_value (hex_digit (r mod 16)) = r.
Proof.
  intros r Hr. destruct (nibbles r Hr) as (H1 & H0 & E).
  destruct (hex_digit_facts _ H1) as (h1 & v1 & l1 & w1), (hex_digit_facts _ H0) as (h0 & v0 & l0 & w0).
  unfold hex2, ws_free. cbn [forallb map]. rewrite h1, h0, v1, v0, l1, l0, w1, w0. repeat split. exact E.
Qed.

Lemma classify_rgb : forall r g b, r <= 255 -> g <= 255 -> b <= 255 ->
  spells (HASH :: hex2 r ++ hex2 g ++ hex2 b) (GColor (Some (TRgb r g b))).
Proof.
  intros r g b Hr Hg Hb.
  destruct (hex2_facts r Hr) as (rh & rl & rw & rv), (hex2_facts g Hg) as (gh & gl & gw & gv),
    (hex2_facts b Hb) as (bh & bl & bw & bv).
  split.
  - unfold classify. cbn [map]. rewrite !map_app, rl, gl, bl. change (ascii_lower HASH) with HASH.
    rewrite classify_lower_other, N.eqb_refl by reflexivity.
    unfold hex_color. rewrite !forallb_app, rh, gh, bh. unfold hex2. cbn [app andb]. now rewrite rv, gv, bv.
  - split; [discriminate|]. unfold ws_free in *. cbn [forallb]. now rewrite !forallb_app, rw, gw, bw.
Qed.

Lemma classify_dec : forall n, n <= 255 -> spells (dec n) (GColor (Some (TAnsi256 n))).
Proof.
  intros n Hn. assert (Hn' : n < 256) by lia. split.
  - apply (bytes_ext (fun n => classify (dec n)) (fun n => Some (GColor (Some (TAnsi256 n))))); [vm_compute; reflexivity | exact Hn'].
  - apply word_ok_is_word, (forall_bytes (fun n => word_ok (dec n))); [vm_compute; reflexivity | exact Hn'].
Qed.

Lemma classify_name : forall i, i < 8 -> spells (nth (N.to_nat i) color_names []) (GColor (Some (TAnsi i))).
Proof.
  intros i Hi. split.
  - apply (range_ext (fun i => classify (nth (N.to_nat i) color_names [])) (fun i => Some (GColor (Some (TAnsi i)))) 8);
      [reflexivity | exact Hi].
  - apply word_ok_is_word, (forall_range (fun i => word_ok (nth (N.to_nat i) color_names [])) 8); [reflexivity | exact Hi].
Qed.

Lemma print_color_ok : forall c, expressible_color (Some c) = true -> spells (print_color c) (GColor (Some c)).
Proof.
  intros [i|n|r g b] H; cbn [expressible_color print_color] in *.
  - apply classify_name. now apply N.ltb_lt.
  - apply classify_dec. now apply N.leb_le.
  - rewrite !andb_true_iff, !N.leb_le in H. destruct H as [[Hr Hg] Hb]. now apply classify_rgb.
Qed.

Lemma normal_ok : spells NORMAL (GColor None).
Proof. split; [|apply word_ok_is_word]; reflexivity. Qed.

Lemma attr_name_ok : forall a, spells (attr_name a) (GAttr true a).
Proof. intros []; (split; [|apply word_ok_is_word]; reflexivity). Qed.

Definition cwords (f b : option tcolor) : list (list N) :=
  match f, b with
  | None, None => []
  | Some x, None => [print_color x]
  | None, Some y => [NORMAL; print_color y]
  | Some x, Some y => [print_color x; print_color y]
  end.

Definition ctoks (f b : option tcolor) : list gtoken :=
  match f, b with
  | None, None => []
  | Some x, None => [GColor (Some x)]
  | None, Some y => [GColor None; GColor (Some y)]
  | Some x, Some y => [GColor (Some x); GColor (Some y)]
  end.

Lemma cwords_ok : forall f b, expressible_color f = true -> expressible_color b = true ->
  Forall2 spells (cwords f b) (ctoks f b).
Proof.
  intros [x|] [y|] Hf Hb; cbn [cwords ctoks];
    repeat (apply Forall2_cons; [apply normal_ok || now apply print_color_ok|]); apply Forall2_nil.
Qed.

Definition ewords_of (e : N) (l : list gattr) : list (list N) :=
  flat_map (fun a => if N.testbit e (attr_bit a) then [attr_name a] else []) l.
Definition etoks_of (e : N) (l : list gattr) : list gtoken :=
  flat_map (fun a => if N.testbit e (attr_bit a) then [GAttr true a] else []) l.

Lemma ewords_ok : forall e l, Forall2 spells (ewords_of e l) (etoks_of e l).
Proof.
  intros e. induction l as [|a l IH]; [constructor|].
  unfold ewords_of, etoks_of in *. cbn [flat_map].
  destruct (N.testbit e (attr_bit a)); cbn [app]; [constructor; [apply attr_name_ok | exact IH] | exact IH].
Qed.

Lemma etoks_colors : forall e l, colors_of (etoks_of e l) = [].
Proof.
  intros e. induction l as [|a l IH]; [reflexivity|]. unfold etoks_of in *. cbn [flat_map].
  destruct (N.testbit e (attr_bit a)); cbn [app colors_of]; exact IH.
Qed.

Definition attr_bits (l : list gattr) (i : N) : bool := existsb (fun a => attr_bit a =? i) l.

Lemma etoks_bit : forall e l x i,
  N.testbit (fold_left apply_attr (etoks_of e l) x) i = N.testbit x i || (N.testbit e i && attr_bits l i).
Proof.
  intros e. induction l as [|a l IH]; intros x i; cbn [etoks_of flat_map attr_bits existsb] in *.
  - now rewrite andb_false_r, orb_false_r.
  - rewrite fold_left_app, IH. destruct (N.eqb_spec (attr_bit a) i) as [<-|Ha].
    + destruct (N.testbit e (attr_bit a)); cbn [fold_left apply_attr orb andb]; [|reflexivity].
      now rewrite insert_bit, N.eqb_refl, orb_true_r.
    + destruct (N.testbit e (attr_bit a)); cbn [fold_left apply_attr orb andb]; [|reflexivity].
      apply N.eqb_neq in Ha. now rewrite insert_bit, Ha, orb_false_r.
Qed.

Lemma attr_mask_bit : forall l x i,
  N.testbit (fold_left (fun m a => N.lor m (2 ^ attr_bit a)) l x) i = N.testbit x i || attr_bits l i.
Proof.
  induction l as [|a l IH]; intros x i; cbn [fold_left attr_bits existsb].
  - now rewrite orb_false_r.
  - rewrite IH. change (N.lor x (2 ^ attr_bit a)) with (eff_insert x (attr_bit a)).
    now rewrite insert_bit, orb_assoc.
Qed.

Lemma etoks_effects : forall e, N.land e attr_mask = e ->
  fold_left apply_attr (etoks_of e all_attrs) 0 = e.
Proof.
  intros e Hm. apply N.bits_inj. intros i. rewrite etoks_bit, N.bits_0. cbn [orb].
  rewrite <- Hm at 2. rewrite N.land_spec. unfold attr_mask. now rewrite attr_mask_bit, N.bits_0.
Qed.

Lemma fold_colors_id : forall f b x l, fold_left apply_attr (ctoks f b ++ l) x = fold_left apply_attr l x.
Proof. intros [f|] [b|] x l; reflexivity. Qed.

Theorem git_roundtrip : forall st, expressible st = true ->
  git_parse (git_print_string st) = Some (GOk st).
Proof.
  intros [f b u e] H. unfold expressible in H. cbn [t_fg t_bg t_ul t_eff] in H.
  rewrite !andb_true_iff in H. destruct H as ((((Hu & Hf) & Hb) & _) & Hm).
  destruct u; [discriminate Hu|]. apply N.eqb_eq in Hm.
  change (git_print_string (mkTStyle f b None e)) with (join SPACE (cwords f b ++ ewords_of e all_attrs)).
  destruct (spells_all _ _ (Forall2_app (cwords_ok f b Hf Hb) (ewords_ok e all_attrs))) as [C W].
  assert (D : denote (ctoks f b ++ etoks_of e all_attrs) = mkTStyle f b None e).
  { unfold denote. rewrite colors_of_app, etoks_colors, app_nil_r, fold_colors_id, (etoks_effects e Hm).
    destruct f, b; reflexivity. }
  rewrite <- D. apply git_accepts_words.
  - now rewrite words_join.
  - rewrite colors_of_app, etoks_colors, app_nil_r. destruct f, b; cbn; lia.
Qed.
