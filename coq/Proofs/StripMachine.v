(* The two-phase scanner of next_bytes computes "filter
   kept" under a byte-at-a-time machine [mstep], and leaves that machine's state
   behind.  Main results: [bytes_iter_spec], [bytes_iter_total]; the C01 / C03
   statements are drawn from them in Proofs/StripSim.v. *)
From Coq Require Import NArith List Bool Lia.
From AV Require Import Generated.Table Model.Base Model.Utf8parse Model.Parser Model.Strip Proofs.TableFacts.
Import ListNotations.
Local Open Scope N_scope.

Definition bytes_ok (bs : list N) : Prop := Forall (fun b => b < 256) bs.

Lemma bytes_ok_cons b bs : bytes_ok (b :: bs) <-> b < 256 /\ bytes_ok bs.
Proof. apply Forall_cons_iff. Qed.

Lemma bytes_ok_app a b : bytes_ok (a ++ b) <-> bytes_ok a /\ bytes_ok b.
Proof. apply Forall_app. Qed.

(* next_bytes on a 7-bit byte inside an unfinished character: the character is
   abandoned, the byte is processed from Ground with a fresh decoder (strip.rs,
   both closures) *)
Definition norm (st : state) (u : u8parser) : state * u8parser :=
  if state_eqb st Utf8 then (Ground, u8_new) else (st, u).

(* one byte of the machine that both scans of next_bytes implement:
   (state, decoder) -> (state, decoder, byte kept?); [None] = a table lookup failed *)
Definition mstep (st : state) (u : u8parser) (b : N) : option (state * u8parser * bool) :=
  if state_eqb st Utf8 && negb (is_ascii b) then
    let '(u1, done) := utf8_add u b in
    Some (if done then Ground else st, u1, true)
  else
    let '(st0, u0) := norm st u in
    '(ns, a) <- state_change st0 b ;;
    if is_printable_bytes a b then
      if state_eqb ns Utf8 then Some (ns, fst (utf8_add u0 b), true)
      else Some (st0, u0, true)
    else Some (if state_eqb ns Anywhere then st0 else ns, u0, false).

Fixpoint mrun (st : state) (u : u8parser) (bs : list N) : option (state * u8parser * list N) :=
  match bs with
  | [] => Some (st, u, [])
  | b :: rest =>
      '(st1, u1, k) <- mstep st u b ;;
      '(st2, u2, out) <- mrun st1 u1 rest ;;
      Some (st2, u2, if k then b :: out else out)
  end.

Lemma mrun_app : forall a b st u st1 u1 o1,
  mrun st u a = Some (st1, u1, o1) ->
  mrun st u (a ++ b) =
    match mrun st1 u1 b with
    | Some (st2, u2, o2) => Some (st2, u2, o1 ++ o2)
    | None => None
    end.
Proof.
  induction a as [|x a IH]; intros b st u st1 u1 o1 H; cbn [mrun app] in *.
  - injection H as <- <- <-. destruct (mrun st u b) as [[[? ?] ?]|]; reflexivity.
  - destruct (mstep st u x) as [[[sx ux] k]|]; [|discriminate].
    destruct (mrun sx ux a) as [[[sa ua] oa]|] eqn:Ha; [|discriminate].
    injection H as -> -> <-. rewrite (IH b _ _ _ _ _ Ha).
    destruct (mrun st1 u1 b) as [[[? ?] ?]|]; [|reflexivity].
    destruct k; reflexivity.
Qed.

Lemma mstep_char u b : is_ascii b = false ->
  mstep Utf8 u b = Some (if snd (utf8_add u b) then Ground else Utf8, fst (utf8_add u b), true).
Proof. intros Ha. unfold mstep. rewrite Ha, state_eqb_refl. destruct (utf8_add u b); reflexivity. Qed.

Definition idle_step (st : state) (u : u8parser) (b : N) (r : option (state * action))
  : option (state * u8parser * bool) :=
  '(ns, a) <- r ;;
  if is_printable_bytes a b then
    if state_eqb ns Utf8 then Some (ns, fst (utf8_add u b), true) else Some (st, u, true)
  else Some (if state_eqb ns Anywhere then st else ns, u, false).

Lemma mstep_idle st u b : st <> Utf8 -> mstep st u b = idle_step st u b (state_change st b).
Proof. intros H. apply state_eqb_neq in H. unfold mstep, norm. rewrite H. reflexivity. Qed.

Lemma mstep_ascii_norm u b :
  is_ascii b = true -> mstep Utf8 u b = mstep Ground u8_new b.
Proof. intros Ha. unfold mstep, norm. rewrite Ha. cbn. reflexivity. Qed.

Lemma mstep_norm st u b :
  state_eqb st Utf8 && negb (is_ascii b) = false ->
  mstep (fst (norm st u)) (snd (norm st u)) b = mstep st u b.
Proof.
  unfold norm. destruct (state_eqb st Utf8) eqn:E; [|reflexivity].
  apply state_eqb_eq in E. subst st. intros Ha. apply negb_false_iff in Ha.
  symmetry. apply mstep_ascii_norm, Ha.
Qed.

(* the decoder is idle outside a character (a one-constructor inductive, so that
   [cbn] / [auto] do not unfold it into the implication) *)
Inductive Inv (st : state) (u : u8parser) : Prop :=
  mkInv : (st <> Utf8 -> u = u8_new) -> Inv st u.

Lemma norm_idle st u : Inv st u -> fst (norm st u) <> Utf8 /\ snd (norm st u) = u8_new.
Proof.
  intros [HI]. unfold norm. destruct (state_eqb st Utf8) eqn:E; cbn [fst snd].
  - split; [discriminate|reflexivity].
  - apply state_eqb_neq in E. auto.
Qed.

(* utf8parse is back in its ground state whenever it reports, and reports a byte
   as it stands only if the byte is 7-bit *)
Lemma u8_advance_reports s b :
  match snd (u8_advance s b) with
  | InvalidSequence | SetByte1 => fst (u8_advance s b) = U8Ground
  | EmitByte => is_ascii b = true
  | _ => True
  end.
Proof.
  destruct s; cbn [u8_advance];
    repeat match goal with |- context [if ?c then _ else _] => destruct c eqn:? end;
    cbn [fst snd]; try exact I; try reflexivity.
  unfold rng in *. unfold is_ascii.
  match goal with H : _ && _ = true |- _ => apply andb_true_iff in H as [_ H]; apply N.leb_le in H end.
  apply N.ltb_lt. lia.
Qed.

Lemma utf8_add_done u b :
  is_ascii b = false -> snd (utf8_add u b) = true -> fst (utf8_add u b) = u8_new.
Proof.
  intros Ha. unfold utf8_add, u8_parser_advance.
  pose proof (u8_advance_reports (u8st u) b) as Hr.
  destruct (u8_advance (u8st u) b) as [s' a]. cbn [fst snd] in Hr.
  destruct a; cbn [fst snd]; intros Hd; try discriminate Hd; try congruence; subst s'; reflexivity.
Qed.

Lemma mstep_inv st u b st1 u1 k :
  Inv st u -> mstep st u b = Some (st1, u1, k) -> Inv st1 u1.
Proof.
  intros HI Hm. destruct (state_eqb st Utf8 && negb (is_ascii b)) eqn:E.
  - apply andb_true_iff in E as [E1 E2]. apply state_eqb_eq in E1. subst st.
    apply negb_true_iff in E2. rewrite (mstep_char u b E2) in Hm. injection Hm as <- <- _.
    constructor. destruct (snd (utf8_add u b)) eqn:Hd; [|contradiction].
    intros _. apply (utf8_add_done u b E2 Hd).
  - rewrite <- (mstep_norm _ _ _ E) in Hm. destruct (norm_idle st u HI) as [Hs Hu].
    rewrite Hu, (mstep_idle _ _ _ Hs) in Hm. unfold idle_step in Hm.
    destruct (state_change (fst (norm st u)) b) as [[ns a]|]; [|discriminate].
    destruct (is_printable_bytes a b); [destruct (state_eqb ns Utf8) eqn:E2|];
      injection Hm as <- <- _; constructor; [|reflexivity|reflexivity].
    apply state_eqb_eq in E2. contradiction.
Qed.

Lemma mrun_inv : forall bs st u st1 u1 o,
  bytes_ok bs -> Inv st u -> mrun st u bs = Some (st1, u1, o) -> Inv st1 u1.
Proof.
  induction bs as [|b bs IH]; intros st u st1 u1 o Hok HI H; cbn [mrun] in H.
  - injection H as <- <- _. exact HI.
  - destruct (mstep st u b) as [[[sx ux] k]|] eqn:Hs; [|discriminate].
    destruct (mrun sx ux bs) as [[[sa ua] oa]|] eqn:Hr; [|discriminate].
    injection H as -> -> _. apply bytes_ok_cons in Hok as [_ Hok].
    exact (IH _ _ _ _ _ Hok (mstep_inv _ _ _ _ _ _ HI Hs) Hr).
Qed.

(* a printable entry either leaves the state alone, on a 7-bit byte, or leads from
   Ground into a character on a byte utf8parse starts a character with; no other
   entry enters a character *)
Definition entry_shape (s : state) (b : N) (r : option (state * action)) : bool :=
  match r with
  | Some (ns, a) =>
      if is_printable_bytes a b
      then (state_eqb ns Anywhere && is_ascii b)
           || (state_eqb ns Utf8 && state_eqb s Ground && negb (is_ascii b)
               && negb (is_utf8_continuation b) && negb (snd (utf8_add u8_new b)))
      else negb (state_eqb ns Utf8)
  | None => false
  end.

Lemma entry_shape_all : forallb (sweep_state entry_shape) all_states = true.
Proof. vm_compute. reflexivity. Qed.

Lemma printable_entry s b ns a :
  b < 256 -> state_change s b = Some (ns, a) -> is_printable_bytes a b = true ->
  (ns = Anywhere /\ is_ascii b = true) \/
  (ns = Utf8 /\ s = Ground /\ is_ascii b = false /\ is_utf8_continuation b = false
   /\ snd (utf8_add u8_new b) = false).
Proof.
  intros Hb Hsc Hp. pose proof (state_change_sweep _ entry_shape_all s b Hb) as H.
  unfold entry_shape in H. rewrite Hsc, Hp in H.
  apply orb_true_iff in H as [H|H]; [left|right]; repeat (apply andb_true_iff in H as [H ?]);
    rewrite ?negb_true_iff, ?state_eqb_eq in *; auto.
Qed.

Lemma unprintable_entry s b ns a :
  b < 256 -> state_change s b = Some (ns, a) -> is_printable_bytes a b = false -> ns <> Utf8.
Proof.
  intros Hb Hsc Hp. pose proof (state_change_sweep _ entry_shape_all s b Hb) as H.
  unfold entry_shape in H. rewrite Hsc, Hp in H.
  now apply negb_true_iff, state_eqb_neq in H.
Qed.

(* the second scan follows the machine for as long as it keeps bytes *)
Lemma nb_take_cons b rest st u :
  nb_take (b :: rest) st u =
  match mstep st u b with
  | Some (st1, u1, true) => '(t, r, st', u') <- nb_take rest st1 u1 ;; Some (b :: t, r, st', u')
  | Some (_, _, false) => Some ([], b :: rest, fst (norm st u), snd (norm st u))
  | None => None
  end.
Proof.
  cbn [nb_take]. unfold mstep, norm.
  destruct (state_eqb st Utf8 && negb (is_ascii b)); [destruct (utf8_add u b); reflexivity|].
  destruct (if state_eqb st Utf8 then (Ground, u8_new) else (st, u)) as [st0 u0].
  destruct (state_change st0 b) as [[ns a]|]; [|reflexivity].
  destruct (is_printable_bytes a b); [|reflexivity]. cbn [negb].
  destruct (state_eqb ns Utf8); [destruct (utf8_add u0 b)|]; reflexivity.
Qed.

(* states the scanner may be in where the machine is in (sm, um), given the next byte:
   when the second scan stops at a 7-bit byte inside a character the scanner has
   already abandoned the character ([norm]) while the machine has not read the byte
   yet; the two states differ but run alike on the rest ([agrees_mrun]) *)
Definition agrees (sm : state) (um : u8parser) (st : state) (u : u8parser) (r : list N) : Prop :=
  (st = sm /\ u = um) \/
  (exists b r', r = b :: r' /\ is_ascii b = true /\ sm = Utf8 /\ st = Ground /\ u = u8_new).

Lemma agrees_mrun sm um st u r : agrees sm um st u r -> mrun st u r = mrun sm um r.
Proof.
  intros [[-> ->]|(b & r' & -> & Ha & -> & -> & ->)]; [reflexivity|].
  cbn [mrun]. now rewrite (mstep_ascii_norm um b Ha).
Qed.

Lemma agrees_inv sm um st u r : Inv sm um -> agrees sm um st u r -> Inv st u.
Proof.
  intros HI [[-> ->]|(b & r' & _ & _ & _ & -> & ->)]; [exact HI|]. constructor. intros _. reflexivity.
Qed.

Lemma agrees_norm st u b r sx ux :
  mstep st u b = Some (sx, ux, false) -> agrees st u (fst (norm st u)) (snd (norm st u)) (b :: r).
Proof.
  intros Hm. unfold norm. destruct (state_eqb st Utf8) eqn:E; [|left; auto].
  apply state_eqb_eq in E. subst st. right. exists b, r. repeat split.
  destruct (is_ascii b) eqn:Ha; [reflexivity|]. rewrite (mstep_char u b Ha) in Hm. discriminate.
Qed.

Lemma nb_take_split : forall bs st u t r st' u',
  nb_take bs st u = Some (t, r, st', u') -> bs = t ++ r.
Proof.
  induction bs as [|b bs IH]; intros st u t r st' u' H.
  - injection H as <- <- _ _. reflexivity.
  - rewrite nb_take_cons in H. destruct (mstep st u b) as [[[sx ux] [|]]|]; [| |discriminate].
    + destruct (nb_take bs sx ux) as [[[[t1 r1] s1] v1]|] eqn:Ht; [|discriminate].
      injection H as <- <- _ _. cbn. f_equal. exact (IH _ _ _ _ _ _ Ht).
    + injection H as <- <- _ _. reflexivity.
Qed.

Lemma nb_take_spec : forall bs st u t r st' u',
  nb_take bs st u = Some (t, r, st', u') ->
  exists sm um, mrun st u t = Some (sm, um, t) /\ agrees sm um st' u' r.
Proof.
  induction bs as [|b bs IH]; intros st u t r st' u' H.
  - injection H as <- <- <- <-. exists st, u. split; [reflexivity | left; auto].
  - rewrite nb_take_cons in H.
    destruct (mstep st u b) as [[[st1 u1] [|]]|] eqn:Hm; [| |discriminate].
    + destruct (nb_take bs st1 u1) as [[[[t1 r1] s1] v1]|] eqn:Ht; [|discriminate].
      injection H as <- <- <- <-.
      destruct (IH _ _ _ _ _ _ Ht) as (sm & um & Hrun & Hag).
      exists sm, um. cbn [mrun]. rewrite Hm, Hrun. auto.
    + injection H as <- <- <- <-. exists st, u. split; [reflexivity|].
      exact (agrees_norm _ _ _ _ _ _ Hm).
Qed.

Lemma nb_take_nonempty b r st u t r' st' u' sx ux :
  mstep st u b = Some (sx, ux, true) ->
  nb_take (b :: r) st u = Some (t, r', st', u') -> t <> [].
Proof.
  intros Hm H. rewrite nb_take_cons, Hm in H.
  destruct (nb_take r sx ux) as [[[[? ?] ?] ?]|]; [|discriminate]. injection H as <- _ _ _. discriminate.
Qed.

(* where the first scan leaves the state when it stops at [b]: the table entry
   for [b] has been applied already, BEFORE the second scan reads [b] again; that
   this half-applied state does no harm is [mstep_held] *)
Definition held (st : state) (u : u8parser) (b : N) : state * u8parser :=
  if state_eqb st Utf8 && negb (is_ascii b) then (st, u)
  else
    let '(st0, u0) := norm st u in
    match state_change st0 b with
    | Some (ns, _) => (if state_eqb ns Anywhere then st0 else ns, u0)
    | None => (st0, u0)
    end.

Lemma nb_skip_cons b rest st u :
  nb_skip (b :: rest) st u =
  match mstep st u b with
  | Some (st1, u1, false) => nb_skip rest st1 u1
  | Some (_, _, true) => Some (b :: rest, fst (held st u b), snd (held st u b))
  | None => None
  end.
Proof.
  cbn [nb_skip]. unfold mstep, held, norm.
  destruct (state_eqb st Utf8 && negb (is_ascii b)); [destruct (utf8_add u b); reflexivity|].
  destruct (if state_eqb st Utf8 then (Ground, u8_new) else (st, u)) as [st0 u0].
  destruct (state_change st0 b) as [[ns a]|]; [|reflexivity].
  destruct (is_printable_bytes a b); [destruct (state_eqb ns Utf8)|]; reflexivity.
Qed.

(* the machine takes the byte the scan stopped at in the same way from the state
   the scan left: a printable entry that moves the state moves it from Ground into
   a character, where the byte is the lead byte the decoder has yet to see *)
Lemma mstep_held st u b sx ux :
  b < 256 -> Inv st u -> mstep st u b = Some (sx, ux, true) ->
  mstep (fst (held st u b)) (snd (held st u b)) b = mstep st u b.
Proof.
  intros Hb HI Hm. unfold held.
  destruct (state_eqb st Utf8 && negb (is_ascii b)) eqn:E; [reflexivity|].
  rewrite <- (mstep_norm _ _ _ E) in Hm |- *. destruct (norm_idle st u HI) as [Hs Hu].
  destruct (norm st u) as [st0 u0]. cbn [fst snd] in *. subst u0.
  rewrite (mstep_idle _ _ _ Hs) in Hm |- *. unfold idle_step in Hm |- *.
  destruct (state_change st0 b) as [[ns a]|] eqn:Hsc; [|discriminate].
  destruct (is_printable_bytes a b) eqn:Hp; [|discriminate].
  destruct (printable_entry _ _ _ _ Hb Hsc Hp) as [[-> _]|(-> & -> & Ha & _ & Hd)]; cbn [state_eqb state_disc N.eqb fst snd].
  - rewrite (mstep_idle _ _ _ Hs), Hsc. unfold idle_step. rewrite Hp. reflexivity.
  - rewrite (mstep_char _ _ Ha), Hd. reflexivity.
Qed.

Lemma nb_skip_spec : forall bs st u bs1 st1 u1,
  bytes_ok bs -> Inv st u ->
  nb_skip bs st u = Some (bs1, st1, u1) ->
  exists pre sm um,
    bs = pre ++ bs1 /\ mrun st u pre = Some (sm, um, []) /\
    ((bs1 = [] /\ st1 = sm /\ u1 = um) \/
     (exists b r sx ux, bs1 = b :: r /\ mstep sm um b = Some (sx, ux, true) /\
        nb_take bs1 st1 u1 = nb_take bs1 sm um)).
Proof.
  induction bs as [|b bs IH]; intros st u bs1 st1 u1 Hok HI H.
  - injection H as <- <- <-. exists [], st, u. cbn. repeat split; auto.
  - rewrite nb_skip_cons in H. apply bytes_ok_cons in Hok as [Hb Hok'].
    destruct (mstep st u b) as [[[sx ux] [|]]|] eqn:Hm; [| |discriminate].
    + injection H as <- <- <-. exists [], st, u. split; [reflexivity|]. split; [reflexivity|].
      right. exists b, bs, sx, ux. split; [reflexivity|]. split; [exact Hm|].
      now rewrite !nb_take_cons, (mstep_held _ _ _ _ _ Hb HI Hm), Hm.
    + destruct (IH _ _ _ _ _ Hok' (mstep_inv _ _ _ _ _ _ HI Hm) H) as (pre & sm & um & -> & Hrun & Hcase).
      exists (b :: pre), sm, um. split; [reflexivity|]. split; [|exact Hcase].
      cbn [mrun]. now rewrite Hm, Hrun.
Qed.

(* one call of next_bytes, relative to the machine: it skips [pre], of which the machine keeps nothing, and
   answers a non-empty piece that the machine keeps whole, or reaches the end of the slice *)
Definition next_bytes_post (bs : list N) (off : N) (st : state) (u : u8parser)
  (p : option piece) (bs' : list N) (off' : N) (st' : state) (u' : u8parser) : Prop :=
  match p with
  | None => bs' = [] /\ mrun st u bs = Some (st', u', [])
  | Some pc =>
      exists pre sm um sm2 um2,
        bs = pre ++ p_bytes pc ++ bs' /\
        p_off pc = off + N.of_nat (length pre) /\
        off' = p_off pc + N.of_nat (length (p_bytes pc)) /\
        p_bytes pc <> [] /\
        mrun st u pre = Some (sm, um, []) /\
        mrun sm um (p_bytes pc) = Some (sm2, um2, p_bytes pc) /\
        agrees sm2 um2 st' u' bs' /\ Inv sm2 um2
  end.

Lemma next_bytes_spec bs off st u p bs' off' st' u' :
  bytes_ok bs -> Inv st u ->
  next_bytes bs off st u = Some (p, bs', off', st', u') ->
  next_bytes_post bs off st u p bs' off' st' u'.
Proof.
  intros Hok HI H. unfold next_bytes in H.
  destruct (nb_skip bs st u) as [[[bs1 st1] u1]|] eqn:Hsk; [|discriminate].
  destruct (nb_skip_spec _ _ _ _ _ _ Hok HI Hsk) as (pre & sm & um & Hbs & Hrun & Hcase).
  rewrite Hbs in Hok. apply bytes_ok_app in Hok as [Hokpre Hok1].
  pose proof (mrun_inv _ _ _ _ _ _ Hokpre HI Hrun) as HIm.
  destruct Hcase as [(-> & -> & ->)|(b & r & sx & ux & -> & Hm & Htk)].
  - cbn [nb_take] in H. injection H as <- <- _ <- <-. cbn [next_bytes_post]. split; [reflexivity|].
    rewrite Hbs, app_nil_r. exact Hrun.
  - rewrite Htk in H.
    destruct (nb_take (b :: r) sm um) as [[[[t bs2] st2] u2]|] eqn:Ht; [|discriminate].
    pose proof (nb_take_nonempty _ _ _ _ _ _ _ _ _ _ Hm Ht) as Hne.
    pose proof (nb_take_split _ _ _ _ _ _ _ Ht) as Hsplit.
    destruct (nb_take_spec _ _ _ _ _ _ _ Ht) as (sm2 & um2 & Hrun2 & Hag).
    destruct t as [|t0 t]; [contradiction|].
    injection H as <- <- <- <- <-. cbn [next_bytes_post p_bytes p_off].
    rewrite Hsplit in Hok1. apply bytes_ok_app in Hok1 as [Hokt _].
    exists pre, sm, um, sm2, um2.
    replace (length bs - S (length r))%nat with (length pre) by (rewrite Hbs, app_length; cbn [length]; lia).
    rewrite Hbs, Hsplit. do 3 (split; [reflexivity|]). split; [discriminate|].
    split; [exact Hrun|]. split; [exact Hrun2|]. split; [exact Hag|].
    exact (mrun_inv _ _ _ _ _ _ Hokt HIm Hrun2).
Qed.

Theorem bytes_iter_spec : forall fuel bs off st u ps bs' st' u',
  (length bs < fuel)%nat -> bytes_ok bs -> Inv st u ->
  bytes_iter fuel bs off st u = Some (ps, bs', st', u') ->
  bs' = [] /\ mrun st u bs = Some (st', u', concat (map p_bytes ps)).
Proof.
  induction fuel as [|fuel IH]; intros bs off st u ps bs' st' u' Hlen Hok HI H; [lia|].
  cbn [bytes_iter] in H.
  destruct (next_bytes bs off st u) as [[[[[p bs1] off1] st1] u1]|] eqn:Hnb; [|discriminate].
  pose proof (next_bytes_spec _ _ _ _ _ _ _ _ _ Hok HI Hnb) as Hp.
  destruct p as [pc|]; cbn [next_bytes_post] in Hp.
  - destruct Hp as (pre & sm & um & sm2 & um2 & -> & _ & _ & Hne & Hrun & Hrun2 & Hag & HI2).
    destruct (bytes_iter fuel bs1 off1 st1 u1) as [[[[ps2 bs3] st3] u3]|] eqn:Hit; [|discriminate].
    injection H as <- <- <- <-.
    apply bytes_ok_app in Hok as [_ Hok]. apply bytes_ok_app in Hok as [_ Hok1].
    assert (Hlen1 : (length bs1 < fuel)%nat).
    { rewrite !app_length in Hlen. destruct (p_bytes pc); [contradiction|cbn [length] in Hlen; lia]. }
    destruct (IH _ _ _ _ _ _ _ _ Hlen1 Hok1 (agrees_inv _ _ _ _ _ HI2 Hag) Hit) as (-> & Hrun3).
    split; [reflexivity|]. rewrite (agrees_mrun _ _ _ _ _ Hag) in Hrun3. cbn [map concat].
    rewrite (mrun_app pre _ _ _ _ _ _ Hrun), (mrun_app (p_bytes pc) _ _ _ _ _ _ Hrun2), Hrun3. reflexivity.
  - destruct Hp as [-> Hrun]. injection H as <- <- <- <-. auto.
Qed.

Lemma mstep_total st u b : b < 256 -> exists x, mstep st u b = Some x.
Proof.
  intros Hb. unfold mstep. destruct (state_eqb st Utf8 && negb (is_ascii b)).
  - destruct (utf8_add u b). eauto.
  - destruct (norm st u) as [st0 u0]. destruct (state_change_total st0 b Hb) as (ns & a & ->).
    destruct (is_printable_bytes a b); [destruct (state_eqb ns Utf8)|]; eauto.
Qed.

Lemma nb_take_total : forall bs st u, bytes_ok bs -> exists x, nb_take bs st u = Some x.
Proof.
  induction bs as [|b bs IH]; intros st u Hok; [cbn; eauto|].
  apply bytes_ok_cons in Hok as [Hb Hok']. rewrite nb_take_cons.
  destruct (mstep_total st u b Hb) as [[[st1 u1] [|]] ->]; [|eauto].
  destruct (IH st1 u1 Hok') as [[[[t r] s] v] ->]. eauto.
Qed.

Lemma nb_skip_total : forall bs st u, bytes_ok bs -> exists x, nb_skip bs st u = Some x.
Proof.
  induction bs as [|b bs IH]; intros st u Hok; [cbn; eauto|].
  apply bytes_ok_cons in Hok as [Hb Hok']. rewrite nb_skip_cons.
  destruct (mstep_total st u b Hb) as [[[st1 u1] [|]] ->]; [eauto|]. apply IH, Hok'.
Qed.

Lemma nb_skip_suffix : forall bs st u bs1 st1 u1,
  nb_skip bs st u = Some (bs1, st1, u1) -> exists pre, bs = pre ++ bs1.
Proof.
  induction bs as [|b bs IH]; intros st u bs1 st1 u1 H.
  - injection H as <- _ _. exists []. reflexivity.
  - rewrite nb_skip_cons in H. destruct (mstep st u b) as [[[sx ux] [|]]|]; [| |discriminate].
    + injection H as <- _ _. exists []. reflexivity.
    + destruct (IH _ _ _ _ _ H) as [pre ->]. exists (b :: pre). reflexivity.
Qed.

Lemma next_bytes_total bs off st u :
  bytes_ok bs -> exists x, next_bytes bs off st u = Some x.
Proof.
  intros Hok. unfold next_bytes.
  destruct (nb_skip_total bs st u Hok) as [[[bs1 st1] u1] Hsk]. rewrite Hsk.
  destruct (nb_skip_suffix _ _ _ _ _ _ Hsk) as [pre ->]. apply bytes_ok_app in Hok as [_ Hok1].
  destruct (nb_take_total bs1 st1 u1 Hok1) as [[[[t bs2] st2] u2] ->].
  destruct t; eauto.
Qed.

Theorem bytes_iter_total : forall fuel bs off st u,
  (length bs < fuel)%nat -> bytes_ok bs -> exists x, bytes_iter fuel bs off st u = Some x.
Proof.
  induction fuel as [|fuel IH]; intros bs off st u Hlen Hok; [lia|].
  cbn [bytes_iter]. unfold next_bytes.
  destruct (nb_skip_total bs st u Hok) as [[[bs1 st1] u1] Hsk]. rewrite Hsk.
  destruct (nb_skip_suffix _ _ _ _ _ _ Hsk) as [pre ->].
  apply bytes_ok_app in Hok as [_ Hok1].
  destruct (nb_take_total bs1 st1 u1 Hok1) as [[[[t bs2] st2] u2] Ht]. rewrite Ht.
  destruct t as [|t0 t]; [eauto|].
  rewrite (nb_take_split _ _ _ _ _ _ _ Ht) in Hok1, Hlen. apply bytes_ok_app in Hok1 as [_ Hok2].
  edestruct (IH bs2) as [[[[ps bs3] st3] u3] ->]; [|exact Hok2|eauto].
  rewrite !app_length in Hlen. cbn [length] in Hlen. lia.
Qed.
