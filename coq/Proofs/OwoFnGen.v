(* Proofs/OwoFnGen.v -- the functions of the third-party crate owo-colors 4.0.0 that tools/gen_fn_owo.py
   translates (Generated/OwoFn.v: the rendering path of `owo_colors::Style` and the builder methods the adapter
   calls) are equal to the hand model Model/Owo.v; composition with Proofs/OwoRender.v (what the bytes mean). *)
From Coq Require Import NArith List Bool Lia.
From AV Require Import Spec.Vt Spec.Sgr Spec.Targets Model.Base Model.Imp Generated.Table Proofs.TableFacts Proofs.Style.
From AV Require Import Generated.Adapters Model.Adapters Model.Owo Generated.OwoFn Proofs.OwoRender Proofs.OwoFnColours.
From AV Require Import Generated.AdaptersFn Proofs.AdaptersGen.
Import ListNotations.
Local Open Scope N_scope.

Definition og_getters (fl : N) : list bool :=
  [g_owo_flags_dimmed fl; g_owo_flags_italic fl; g_owo_flags_underline fl; g_owo_flags_blink fl;
   g_owo_flags_blink_fast fl; g_owo_flags_reversed fl; g_owo_flags_hidden fl; g_owo_flags_strikethrough fl].
Definition og_setters (fl : N) (v : bool) : list N :=
  [g_owo_flags_set_dimmed fl v; g_owo_flags_set_italic fl v; g_owo_flags_set_underline fl v; g_owo_flags_set_blink fl v;
   g_owo_flags_set_blink_fast fl v; g_owo_flags_set_reversed fl v; g_owo_flags_set_hidden fl v; g_owo_flags_set_strikethrough fl v].

Fixpoint og_ns_eqb (a b : list N) : bool :=
  match a, b with
  | [], [] => true
  | x :: a', y :: b' => (x =? y) && og_ns_eqb a' b'
  | _, _ => false
  end.
Lemma og_ns_eqb_eq a : forall b, og_ns_eqb a b = true -> a = b.
Proof.
  induction a as [|x a IH]; intros [|y b] H; cbn in H; try discriminate; [reflexivity|].
  apply andb_true_iff in H. destruct H as [H1 H2]. apply N.eqb_eq in H1. f_equal; [exact H1|now apply IH].
Qed.

Definition og_bits : list N := [0; 1; 2; 3; 4; 5; 6; 7].

(* every getter is `(self.0 >> SHIFT) & 1 != 0` *)
Lemma g_owo_flags_getters_eq fl : og_getters fl = map (N.testbit fl) og_bits.
Proof. unfold og_getters, og_bits. cbn [map]. rewrite <- !shr_bit_ne0. reflexivity. Qed.

Lemma g_owo_flags_setters_eq fl v : og_setters fl v = map (fun k => owo_set_flag fl k v) og_bits.
Proof. destruct v; reflexivity. Qed.

Lemma g_owo_style_new_eq : g_owo_style_new = mkOwo None None false 0.
Proof. reflexivity. Qed.

Lemma g_owo_style_color_eq s c : g_owo_style_color s c = set_ow_fg s (Some c).
Proof. reflexivity. Qed.
Lemma g_owo_style_on_color_eq s c : g_owo_style_on_color s c = set_ow_bg s (Some c).
Proof. reflexivity. Qed.

Definition g_owo_builder (name : list N) : option (owo_style -> owo_style) :=
  if ad_name_eqb name owo_bold_name then Some g_owo_style_bold
  else match ad_assoc name owo_flag_names with
       | Some k => nth_error [g_owo_style_dimmed; g_owo_style_italic; g_owo_style_underline; g_owo_style_blink;
                              g_owo_style_blink_fast; g_owo_style_reversed; g_owo_style_hidden; g_owo_style_strikethrough]
                             (N.to_nat k)
       | None => None
       end.

Lemma g_owo_builders_eq s :
  [g_owo_style_dimmed s; g_owo_style_italic s; g_owo_style_underline s; g_owo_style_blink s;
   g_owo_style_blink_fast s; g_owo_style_reversed s; g_owo_style_hidden s; g_owo_style_strikethrough s]
  = map (fun k => set_ow_flags s (owo_set_flag (ow_flags s) k true)) og_bits.
Proof. reflexivity. Qed.

Lemma g_owo_builder_eq name s :
  option_map (fun b => b s) (g_owo_builder name) = owo_attr s name.
Proof.
  unfold g_owo_builder, owo_attr.
  destruct (ad_name_eqb name owo_bold_name); [reflexivity|].
  unfold owo_flag_names. cbn [ad_assoc].
  repeat match goal with
  | |- context [if ad_name_eqb name ?k then _ else _] => destruct (ad_name_eqb name k); [reflexivity|]
  end.
  reflexivity.
Qed.

Lemma owo_set_flag_lt fl k : fl < 256 -> k < 8 -> owo_set_flag fl k true < 256.
Proof.
  intros H Hk. apply (lt_pow2_bits _ 8). intros i Hi. unfold owo_set_flag.
  rewrite N.lor_spec, N.land_spec, (proj1 (lt_pow2_bits fl 8) H i Hi), N.shiftl_1_l, N.pow2_bits_eqb.
  apply N.eqb_neq. lia.
Qed.

Lemma owo_attr_flags s name s' : ow_flags s < 256 -> owo_attr s name = Some s' -> ow_flags s' < 256.
Proof.
  intros H. unfold owo_attr. destruct (ad_name_eqb name owo_bold_name); [now intros [= <-]|].
  destruct (ad_assoc name owo_flag_names) as [k|] eqn:A; intros [= <-]. apply owo_set_flag_lt; [exact H|].
  unfold owo_flag_names in A. cbn [ad_assoc] in A.
  repeat match type of A with (if ?c then _ else _) = _ => destruct c; [now injection A as <-|] end. discriminate.
Qed.

Lemma g_owo_style_is_plain_eq s : g_owo_style_is_plain s = owo_is_plain s.
Proof. destruct s as [[?|] [?|] [|] fl]; reflexivity. Qed.

Lemma g_owo_style_fmt_suffix_eq s f : g_owo_style_fmt_suffix s f = Some (f ++ owo_suffix s, inl tt).
Proof.
  unfold g_owo_style_fmt_suffix, owo_suffix, owo_write_str. rewrite g_owo_style_is_plain_eq.
  destruct (owo_is_plain s); cbn [negb]; [rewrite app_nil_r|]; reflexivity.
Qed.

(* a run of `if <effect> { if semicolon { ";" } <code>; semicolon = true }` statements over the formatter and the
   separator flag, then the rest [K] of the function.  The generated text of such a run unfolds to this. *)
Fixpoint og_effects {R : Type} (l : list (bool * N)) (f : list N) (sc : bool) (K : list N -> bool -> option R) : option R :=
  match l with
  | [] => K f sc
  | (b, code) :: t =>
      '(f', sc') <- (if b then f1 <- (if sc then Some (owo_write_str f [59]) else Some f) ;; Some (owo_write_str f1 [code], true)
                     else Some (f, sc)) ;;
      og_effects t f' sc' K
  end.

Definition og_codes (l : list (bool * N)) : list (list N) :=
  flat_map (fun p : bool * N => if fst p then [[snd p]] else []) l.
Definition og_sep (sc : bool) (cs : list (list N)) : list N :=
  match cs with [] => [] | _ => (if sc then [59] else []) ++ owo_join cs end.

Lemma owo_join_cons x y t : owo_join (x :: y :: t) = x ++ 59 :: owo_join (y :: t).
Proof. reflexivity. Qed.

Lemma og_effects_spec {R} (K : list N -> bool -> option R) l : forall f sc,
  og_effects l f sc K = K (f ++ og_sep sc (og_codes l)) (sc || existsb fst l).
Proof.
  induction l as [|[b c] t IH]; intros f sc; cbn [og_effects og_codes flat_map existsb fst snd].
  - unfold og_sep. now rewrite app_nil_r, orb_false_r.
  - fold (og_codes t). destruct b; cbn [app orb].
    + destruct sc; cbv beta iota; rewrite IH, orb_true_r; f_equal; unfold og_sep, owo_write_str;
        (destruct (og_codes t) as [|y t']; [|rewrite owo_join_cons]); cbn [owo_join app];
        rewrite <- ?app_assoc, ?app_nil_r; reflexivity.
    + cbv beta iota. apply IH.
Qed.

Definition og_flag_effects (fl : N) : list (bool * N) := map (fun k => (N.testbit fl k, 50 + k)) og_bits.

Lemma og_codes_effects bold fl : og_codes ((bold, 49) :: og_flag_effects fl) = owo_effect_params (mkOwo None None bold fl).
Proof.
  unfold og_flag_effects, og_codes, owo_effect_params, owo_flag_codes, og_bits. cbn [ow_bold ow_flags map flat_map fst snd].
  destruct bold; reflexivity.
Qed.

(* the effect statements of fmt_prefix and its closing "m", as a function of the formatter / separator state they are
   reached with; bold is tested apart, the flags only when the flag byte is not 0 *)
Definition og_chain (pl bold : bool) (fl : N) (f9 : list N) (sc2 : bool) : option (list N * (unit + unit)) :=
  '(f47, sc22) <- (if bold || negb (fl =? 0) then
                     og_effects [(bold, 49)] f9 sc2 (fun f13 sc4 =>
                       '(f46, sc21) <- (if negb (fl =? 0) then og_effects (og_flag_effects fl) f13 sc4 (fun f sc => Some (f, sc))
                                        else Some (f13, sc4)) ;;
                       Some (f46, sc21))
                   else Some (f9, sc2)) ;;
  f49 <- (if negb pl then Some (owo_write_str f47 [109]) else Some f47) ;;
  Some (f49, inl tt).

Lemma og_chain_eq pl bold fl f9 sc2 :
  og_chain pl bold fl f9 sc2
  = Some ((f9 ++ og_sep sc2 (owo_effect_params (mkOwo None None bold fl))) ++ (if pl then [] else [109]), inl tt).
Proof.
  unfold og_chain. destruct (N.eqb_spec fl 0) as [->|_]; cbn [negb orb].
  - rewrite orb_false_r. destruct bold, sc2, pl; cbn; unfold owo_write_str; rewrite ?app_nil_r, <- ?app_assoc; reflexivity.
  - rewrite orb_true_r, og_effects_spec. cbv beta. rewrite og_effects_spec. cbv beta iota.
    rewrite <- og_codes_effects. cbn [og_codes flat_map fst snd existsb]. fold (og_codes (og_flag_effects fl)).
    unfold owo_write_str, og_sep.
    destruct bold, sc2, pl, (og_codes (og_flag_effects fl)) as [|c cs]; cbn [negb orb app owo_join];
      rewrite ?app_nil_r; repeat (rewrite <- app_assoc; cbn [app]); reflexivity.
Qed.

Lemma og_if_bind {A R : Type} (c : bool) (a b : A) (K : A -> option R) :
  (x <- (if c then Some a else Some b) ;; K x) = K (if c then a else b).
Proof. destruct c; reflexivity. Qed.

Lemma g_owo_style_fmt_prefix_eq s f : owo_style_ok s ->
  g_owo_style_fmt_prefix s f = Some (f ++ owo_prefix s, inl tt).
Proof.
  intros (Hfg & Hbg & _). destruct s as [fg bg bold fl]. cbn [ow_fg ow_bg ow_flags] in Hfg, Hbg.
  pose proof (g_owo_flags_getters_eq fl) as G. unfold og_getters, og_bits in G. cbn [map] in G.
  injection G as G0 G1 G2 G3 G4 G5 G6 G7.
  unfold g_owo_style_fmt_prefix. rewrite g_owo_style_is_plain_eq.
  cbn [ow_fg ow_bg ow_bold ow_flags]. rewrite G0, G1, G2, G3, G4, G5, G6, G7.
  unfold owf_default. cbv zeta. rewrite og_if_bind.
  set (pl := owo_is_plain (mkOwo fg bg bold fl)).
  assert (Hpl : pl = true -> fg = None /\ bg = None /\ owo_effect_params (mkOwo None None bold fl) = []).
  { unfold pl, owo_is_plain. cbn [ow_fg ow_bg ow_bold ow_flags]. destruct fg, bg, bold; try discriminate.
    cbn [orb]. rewrite negb_involutive. intros E. apply N.eqb_eq in E. now subst. }
  unfold owo_prefix. fold pl. cbn [ow_fg ow_bg].
  change (owo_effect_params (mkOwo fg bg bold fl)) with (owo_effect_params (mkOwo None None bold fl)).
  (* the part after the colours is [og_chain] at the formatter / separator state reached *)
  destruct fg as [cf|]; destruct bg as [cb|]; cbn [opt_is_some];
    try rewrite (g_owo_dyn_raw_fg_eq cf _ Hfg); cbv beta iota zeta;
    try rewrite (g_owo_dyn_raw_bg_eq cb _ Hbg); cbv beta iota zeta;
    match goal with
    | |- context [if bold then _ else Some (?x, ?sc)] => match goal with |- _ = ?R => change (og_chain pl bold fl x sc = R) end
    end;
    rewrite og_chain_eq; unfold og_sep, owo_write_str;
    (destruct pl; [destruct (Hpl eq_refl) as (? & ? & ->); try discriminate|]);
    destruct (owo_effect_params (mkOwo None None bold fl)); cbn [negb app];
    rewrite ?app_nil_r; repeat (rewrite <- app_assoc; cbn [app]); reflexivity.
Qed.

Lemma g_owo_styled_fmt_eq s text f : owo_style_ok s ->
  g_owo_styled_fmt (mkOwoStyled text s) f = Some (f ++ owo_render s text, inl tt).
Proof.
  intros H. unfold g_owo_styled_fmt. cbn [owd_style owd_target].
  rewrite (g_owo_style_fmt_prefix_eq s f H). cbv zeta. rewrite g_owo_style_fmt_suffix_eq.
  unfold owo_render, owo_write_str. now rewrite <- !app_assoc.
Qed.

(* ENTRY POINT: format!("{}", s.style(text)) for every owo_colors::Style without a CSS colour: no panic, and the
   bytes are the hand model's *)
Theorem translated_owo_render_is_model s text : owo_style_ok s ->
  g_owo_render s text = Some (owo_render s text).
Proof.
  intros H. unfold g_owo_render, g_owo_style_style. rewrite (g_owo_styled_fmt_eq s text [] H). reflexivity.
Qed.

(* the adapter model's abstract target style (constructor and builder NAMES) run through the TRANSLATED constructors
   and builder methods: Style::new(), .color(c), .on_color(c), then the attribute calls in order *)
Definition g_owo_of_tcolor (c : ad_tcolor) : option owo_dyn :=
  match c with
  | AdNamed nm => option_map OwAnsi (owo_index_of nm g_owo_ansi_names 0)
  | AdFixed n => option_map OwXterm (g_owo_xterm_from n)
  | AdRgb r g b => Some (OwRgb r g b)
  end.

Fixpoint g_owo_apply (s : owo_style) (names : list (list N)) : option owo_style :=
  match names with
  | [] => Some s
  | n :: t => match g_owo_builder n with Some b => g_owo_apply (b s) t | None => None end
  end.

Definition g_owo_of_tstyle (t : ad_tstyle) : option owo_style :=
  match ad_t_ul t with
  | Some _ => None
  | None =>
      s1 <- (match ad_t_fg t with
             | Some c => option_map (g_owo_style_color g_owo_style_new) (g_owo_of_tcolor c)
             | None => Some g_owo_style_new end) ;;
      s2 <- (match ad_t_bg t with
             | Some c => option_map (g_owo_style_on_color s1) (g_owo_of_tcolor c)
             | None => Some s1 end) ;;
      g_owo_apply s2 (ad_t_attrs t)
  end.

Lemma g_owo_of_tcolor_eq c : g_owo_of_tcolor c = owo_of_tcolor g_owo_ansi_names c.
Proof.
  destruct c as [nm|n|r g b]; cbn [g_owo_of_tcolor owo_of_tcolor]; try reflexivity.
  destruct (n <? 256) eqn:E.
  - apply N.ltb_lt in E. now rewrite g_owo_xterm_from_eq.
  - apply N.ltb_ge in E. now rewrite g_owo_xterm_from_above.
Qed.

Lemma g_owo_apply_eq names : forall s, g_owo_apply s names = owo_attrs s names.
Proof.
  induction names as [|n t IH]; intros s; cbn [g_owo_apply owo_attrs]; [reflexivity|].
  rewrite <- (g_owo_builder_eq n s). destruct (g_owo_builder n) as [b|]; [apply IH|reflexivity].
Qed.

Theorem translated_owo_value_is_model t : g_owo_of_tstyle t = owo_of_tstyle g_owo_ansi_names t.
Proof.
  unfold g_owo_of_tstyle, owo_of_tstyle, owo_of_slot. destruct t as [fg bg ul attrs]. cbn [ad_t_fg ad_t_bg ad_t_ul ad_t_attrs].
  destruct ul as [u|].
  - destruct fg as [c|]; [rewrite <- g_owo_of_tcolor_eq; destruct (g_owo_of_tcolor c)|]; cbn [option_map];
      try reflexivity; (destruct bg as [c'|]; [rewrite <- g_owo_of_tcolor_eq; destruct (g_owo_of_tcolor c')|]; reflexivity).
  - destruct fg as [c|]; [rewrite <- g_owo_of_tcolor_eq; destruct (g_owo_of_tcolor c) as [d|]|]; cbn [option_map]; try reflexivity;
      (destruct bg as [c'|]; [rewrite <- g_owo_of_tcolor_eq; destruct (g_owo_of_tcolor c') as [d'|]|]; cbn [option_map]; try reflexivity;
       apply g_owo_apply_eq).
Qed.

(* the image of the adapter: to_owo_style(s) is [owo_value s] *)
Lemma owo_attrs_colours names : forall fg bg b fl,
  owo_attrs (mkOwo fg bg b fl) names
  = option_map (fun v => mkOwo fg bg (ow_bold v) (ow_flags v)) (owo_attrs (mkOwo None None b fl) names).
Proof.
  induction names as [|n t IH]; intros fg bg b fl; cbn [owo_attrs]; [reflexivity|].
  unfold owo_attr. cbn [ow_flags set_ow_bold set_ow_flags ow_fg ow_bg ow_bold].
  destruct (ad_name_eqb n owo_bold_name); [apply IH|].
  destruct (ad_assoc n owo_flag_names); [apply IH|reflexivity].
Qed.

(* the builder an effect statement of to_owo_style calls: `bold()`, or the setter of the effect's StyleFlags bit *)
Definition og_effect_builder (k : N) (s : owo_style) : owo_style :=
  if k =? BOLD then set_ow_bold s true
  else set_ow_flags s (owo_set_flag (ow_flags s) (if k <? 4 then k - 1 else if k =? BLINK then 3 else k - 4) true).

Definition og_effect_row (row : N * list N) : Prop :=
  forall s, owo_attr s (snd row) = Some (og_effect_builder (fst row) s).

Lemma owo_effect_rows : Forall og_effect_row ad_gen_owo_effects.
Proof. repeat constructor. Qed.

Lemma owo_attrs_rows tbl : Forall og_effect_row tbl -> forall e s,
  owo_attrs s (ad_conv_effects tbl e)
  = Some (fold_left (fun s k => if N.testbit e k then og_effect_builder k s else s) (map fst tbl) s).
Proof.
  induction 1 as [|[k nm] t Hr _ IH]; intros e s; cbn [ad_conv_effects map fold_left fst snd] in *; [reflexivity|].
  destruct (N.testbit e k); [cbn [owo_attrs]; rewrite Hr|]; apply IH.
Qed.

(* the calls for the effect set e: bold, and the seven setters leave the byte [owo_flags_of e] (the 2^8 values of the
   bits read) *)
Lemma owo_effects_value e :
  owo_attrs (mkOwo None None false 0) (ad_conv_effects ad_gen_owo_effects e)
  = Some (mkOwo None None (N.testbit e BOLD) (owo_flags_of e)).
Proof.
  rewrite (owo_attrs_rows _ owo_effect_rows).
  unfold owo_flags_of, owo_bit, BOLD, DIMMED, ITALIC, UNDERLINE, BLINK, INVERT, HIDDEN, STRIKETHROUGH.
  cbn [ad_gen_owo_effects map fst fold_left].
  destruct (N.testbit e 0), (N.testbit e 1), (N.testbit e 2), (N.testbit e 3), (N.testbit e 8), (N.testbit e 9),
    (N.testbit e 10), (N.testbit e 11); reflexivity.
Qed.

Lemma owo_colour_of_adapter c : ad_colour_ok (Some c) -> owo_u8_colour (Some c) ->
  owo_of_tcolor g_owo_ansi_names (ad_conv_colour ad_gen_owo_colors c) = Some (owo_colour c).
Proof.
  destruct c as [i|n|r g b]; cbn [ad_colour_ok owo_u8_colour ad_conv_colour owo_of_tcolor owo_colour]; intros H U.
  - pose proof (proj2 (range_from_In 16 0 i) ltac:(lia)) as HI. cbn in HI.
    repeat (destruct HI as [<-|HI]; [reflexivity|]). destruct HI.
  - apply N.ltb_lt in U. now rewrite U.
  - reflexivity.
Qed.

Theorem owo_value_of_adapter s : owo_src_ok s -> owo_of_tstyle g_owo_ansi_names (ad_to_owo s) = Some (owo_value s).
Proof.
  intros ((Hfg & Hbg & _ & He) & Ufg & Ubg). unfold owo_of_tstyle, ad_to_owo, owo_value, owo_of_slot.
  cbn [ad_t_fg ad_t_bg ad_t_ul ad_t_attrs].
  destruct (s_fg s) as [cf|]; destruct (s_bg s) as [cb|]; cbn [option_map];
    try rewrite (owo_colour_of_adapter cf Hfg Ufg); try rewrite (owo_colour_of_adapter cb Hbg Ubg); cbn [option_map];
    rewrite owo_attrs_colours, owo_effects_value; reflexivity.
Qed.

(* the rendering of ANY owo_colors::Style without a CSS colour, by the translated crate: no panic, and outside the
   separator defect the bytes mean the colours and effects the fields of the value name *)
Theorem translated_owo_render_meaning v : owo_style_ok v -> owo_rgb_u8 (ow_fg v) -> owo_rgb_u8 (ow_bg v) -> owo_sep_ok v ->
  (bytes <- g_owo_render v [120] ;; ad_interp_x bytes)
  = Some (mkStyle (owo_slot_meaning (ow_fg v)) (owo_slot_meaning (ow_bg v)) None (owo_eff_meaning (ow_bold v) (ow_flags v))).
Proof.
  intros Hok Rf Rb Hs. rewrite (translated_owo_render_is_model v [120] Hok). exact (owo_render_meaning v Hok Rf Rb Hs).
Qed.

(* render(convert s) interprets to project(s): to_owo_style as translated from the repository, the value run through
   the translated constructors / builders of the crate, rendered by the translated Display impl, read by Spec/Vt + Spec/Sgr *)
Definition g_owo_convert_render (s : sstyle) : option (list N) :=
  t <- g_to_owo_style s ;; v <- g_owo_of_tstyle t ;; g_owo_render v [120].

Theorem translated_owo_convert_render s : owo_src_ok s ->
  g_owo_convert_render s = Some (owo_render (owo_value s) [120]).
Proof.
  intros Hs. unfold g_owo_convert_render. rewrite (g_to_owo_style_eq s (proj1 Hs)).
  rewrite translated_owo_value_is_model, (owo_value_of_adapter s Hs).
  apply translated_owo_render_is_model. apply (owo_value_ok s Hs).
Qed.

Theorem translated_owo_rendered_meaning s : owo_src_ok s -> owo_defect s = false ->
  (bytes <- g_owo_convert_render s ;; ad_interp_x bytes) = Some (ad_project AdOwo s).
Proof.
  intros Hs Hd. rewrite (translated_owo_convert_render s Hs). exact (owo_render_interp s Hs Hd).
Qed.

Theorem translated_owo_rendered_refuted :
  owo_src_ok owo_witness /\
  g_owo_convert_render owo_witness = Some [27; 91; 52; 49; 49; 109; 120; 27; 91; 48; 109] /\
  (bytes <- g_owo_convert_render owo_witness ;; ad_interp_x bytes) = Some style_default /\
  (bytes <- g_owo_convert_render owo_witness ;; Some (ad_render_ok (ad_project AdOwo owo_witness) bytes)) = Some false.
Proof.
  destruct owo_render_refuted as (Hs & _ & Hb & Hi & Hf).
  split; [exact Hs|]. rewrite (translated_owo_convert_render _ Hs). rewrite Hb in *.
  split; [reflexivity|]. split; [exact Hi|]. now rewrite Hf.
Qed.
