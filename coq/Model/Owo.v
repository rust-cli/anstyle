(* Model/Owo.v -- the THIRD-PARTY crate owo-colors (the version Cargo.lock pins, 4.0.0): the value type
   `owo_colors::Style` the adapter anstyle-owo-colors produces, and a hand model of how the crate RENDERS such a
   value (`format!("{}", style.style("x"))`: Style::fmt_prefix, the text, Style::fmt_suffix).  Definitions only.
   The crate's code is TRANSLATED from the registry source on every run (tools/gen_fn_owo.py ->
   Generated/OwoFn.v) and proved equal to this model in Proofs/OwoFnGen.v; Proofs/OwoRender.v interprets the
   bytes of this model by Spec/Vt + Spec/Sgr and compares with the meaning tables of Spec/Targets.

   Value representation
   * `enum AnsiColors` (generated by the crate's `colors!` table) = the POSITION of the variant in the
     declaration (0 Black .. 7 White, 8 Default, 9 BrightBlack .. 16 BrightWhite); the names, in that order, are
     [g_owo_ansi_names] of Generated/OwoFn.v;
   * `enum XtermColors` (256 variants generated by `xterm_colors!`) = the position of the variant;
   * `enum DynColors { Ansi(AnsiColors), Css(CssColors), Xterm(XtermColors), Rgb(u8, u8, u8) }` = [owo_dyn].
     The adapter never builds a `Css` colour and the CSS table (const-generic `CustomColor<R, G, B>` strings
     computed by `const fn`) is outside the translated subset: the payload type of [OwCss] is EMPTY, i.e. the
     model's value type is "every owo_colors::Style without a CSS colour" (the `Css` arms of the translated
     matches are vacuous, not guessed);
   * `struct StyleFlags(u8)` = the byte; `struct Style { fg, bg, bold, style_flags }` = [owo_style];
     `struct Styled<T> { target, style }` with T = &str = [owo_styled] (the text as bytes). *)
From Coq Require Import String NArith List Bool.
From AV Require Import Spec.Sgr Spec.Targets.
Import ListNotations.
Local Open Scope N_scope.

Inductive owo_dyn : Set :=
  | OwAnsi (a : N)
  | OwCss (c : Empty_set)
  | OwXterm (x : N)
  | OwRgb (r g b : N).

Record owo_style : Set := mkOwo {
  ow_fg : option owo_dyn;
  ow_bg : option owo_dyn;
  ow_bold : bool;
  ow_flags : N
}.
Definition set_ow_fg (s : owo_style) (x : option owo_dyn) : owo_style := mkOwo x (ow_bg s) (ow_bold s) (ow_flags s).
Definition set_ow_bg (s : owo_style) (x : option owo_dyn) : owo_style := mkOwo (ow_fg s) x (ow_bold s) (ow_flags s).
Definition set_ow_bold (s : owo_style) (x : bool) : owo_style := mkOwo (ow_fg s) (ow_bg s) x (ow_flags s).
Definition set_ow_flags (s : owo_style) (x : N) : owo_style := mkOwo (ow_fg s) (ow_bg s) (ow_bold s) x.

(* #[derive(Default)]: no colours, not bold, StyleFlags(0) *)
Definition owf_default : N := 0.
Definition owo_default : owo_style := mkOwo None None false owf_default.

(* the tuple structs StyleFlags(u8) and Rgb(u8, u8, u8) *)
Definition owf_f0 (x : N) : N := x.
Definition set_owf_f0 (_ x : N) : N := x.
Definition owo_rgb_f0 (c : N * N * N) : N := match c with (r, _, _) => r end.
Definition owo_rgb_f1 (c : N * N * N) : N := match c with (_, g, _) => g end.
Definition owo_rgb_f2 (c : N * N * N) : N := match c with (_, _, b) => b end.
Definition owo_rgb_new (r g b : N) : N * N * N := (r, g, b).

Record owo_styled : Set := mkOwoStyled { owd_target : list N; owd_style : owo_style }.

(* std: `Display for u8` prints the canonical decimal form *)
Definition owo_dec_u8 (n : N) : list N :=
  if n <? 10 then [48 + n]
  else if n <? 100 then [48 + n / 10; 48 + n mod 10]
  else [48 + n / 100; 48 + (n / 10) mod 10; 48 + n mod 10].

(* std: `Formatter::write_str` / `<str as Display>::fmt` on the String sink of `format!("{}", ..)` (no width, no
   precision): the text is appended *)
Definition owo_write_str (f s : list N) : list N := f ++ s.

(* ---- hand model of the rendering --------------------------------------------------------- *)

(* the `colors!` table: foreground / background code per variant position *)
Definition owo_ansi_fg_code (a : N) : N := if a <? 8 then 30 + a else if a =? 8 then 39 else 90 + (a - 9).
Definition owo_ansi_bg_code (a : N) : N := owo_ansi_fg_code a + 10.

(* DynColor::fmt_raw_ansi_fg / _bg: the parameters that select the colour, as printed *)
Definition owo_raw (bg : bool) (c : owo_dyn) : list (list N) :=
  let ext := if bg then [52; 56] else [51; 56] in      (* "48" / "38" *)
  match c with
  | OwAnsi a => [owo_dec_u8 (if bg then owo_ansi_bg_code a else owo_ansi_fg_code a)]
  | OwCss c => match c with end
  | OwXterm x => [ext; [53]; owo_dec_u8 x]
  | OwRgb r g b => [ext; [50]; owo_dec_u8 r; owo_dec_u8 g; owo_dec_u8 b]
  end.

Fixpoint owo_join (l : list (list N)) : list N :=
  match l with
  | [] => []
  | [x] => x
  | x :: t => x ++ 59 :: owo_join t
  end.

(* the effect parameters in the order fmt_prefix writes them: bold, then StyleFlags bit 0 .. 7 as "2" .. "9" *)
Definition owo_flag_codes (fl : N) : list (list N) :=
  flat_map (fun k => if N.testbit fl k then [[50 + k]] else []) [0; 1; 2; 3; 4; 5; 6; 7].
Definition owo_effect_params (s : owo_style) : list (list N) :=
  (if ow_bold s then [[49]] else []) ++ owo_flag_codes (ow_flags s).

Definition owo_is_plain (s : owo_style) : bool :=
  negb (match ow_fg s with Some _ => true | None => false end || match ow_bg s with Some _ => true | None => false end
        || ow_bold s || negb (ow_flags s =? 0)).

(* Style::fmt_prefix as the crate writes it: the separator after the BACKGROUND colour is only written when a
   foreground precedes the next parameter -- `semicolon` is set by the foreground, not by the background *)
Definition owo_prefix (s : owo_style) : list N :=
  if owo_is_plain s then []
  else
    let fgp := match ow_fg s with Some c => owo_join (owo_raw false c) | None => [] end in
    let bgp := match ow_bg s with
               | Some c => (match ow_fg s with Some _ => [59] | None => [] end) ++ owo_join (owo_raw true c)
               | None => [] end in
    let effs := owo_effect_params s in
    let effp := match effs with
                | [] => []
                | _ => (match ow_fg s with Some _ => [59] | None => [] end) ++ owo_join effs
                end in
    [27; 91] ++ fgp ++ bgp ++ effp ++ [109].

Definition owo_suffix (s : owo_style) : list N := if owo_is_plain s then [] else [27; 91; 48; 109].

(* format!("{}", s.style(text)) *)
Definition owo_render (s : owo_style) (text : list N) : list N := owo_prefix s ++ text ++ owo_suffix s.

(* ---- from the abstract target style of the adapter model to the crate's value --------------- *)

(* the builder methods by name (Style::bold, dimmed, .. = `self.style_flags.set_x(true)`) *)
Definition owo_flag_names : list (list N * N) := Eval vm_compute in ad_names
  [("dimmed", 0); ("italic", 1); ("underline", 2); ("blink", 3); ("blink_fast", 4); ("reversed", 5); ("hidden", 6);
   ("strikethrough", 7)]%string.
Definition owo_bold_name : list N := Eval vm_compute in ad_str "bold".

Definition owo_set_flag (fl k : N) (v : bool) : N :=
  N.lor (N.land fl (N.lnot (N.shiftl 1 k) 8)) (N.shiftl (if v then 1 else 0) k).

Definition owo_attr (s : owo_style) (name : list N) : option owo_style :=
  if ad_name_eqb name owo_bold_name then Some (set_ow_bold s true)
  else match ad_assoc name owo_flag_names with
       | Some k => Some (set_ow_flags s (owo_set_flag (ow_flags s) k true))
       | None => None
       end.

Fixpoint owo_attrs (s : owo_style) (names : list (list N)) : option owo_style :=
  match names with
  | [] => Some s
  | n :: t => match owo_attr s n with Some s' => owo_attrs s' t | None => None end
  end.

Fixpoint owo_index_of (name : list N) (l : list (list N)) (i : N) : option N :=
  match l with
  | [] => None
  | x :: t => if ad_name_eqb name x then Some i else owo_index_of name t (i + 1)
  end.

(* `ansi_names`: the variant names of enum AnsiColors in declaration order (Generated/OwoFn.v g_owo_ansi_names);
   an indexed colour goes through XtermColors::from(u8), whose table maps n to the variant at position n
   (proved of the translation in Proofs/OwoFnColours.v) *)
Definition owo_of_tcolor (ansi_names : list (list N)) (c : ad_tcolor) : option owo_dyn :=
  match c with
  | AdNamed nm => option_map OwAnsi (owo_index_of nm ansi_names 0)
  | AdFixed n => if n <? 256 then Some (OwXterm n) else None
  | AdRgb r g b => Some (OwRgb r g b)
  end.

Definition owo_of_slot (ansi_names : list (list N)) (c : option ad_tcolor) : option (option owo_dyn) :=
  match c with
  | None => Some None
  | Some c => option_map Some (owo_of_tcolor ansi_names c)
  end.

(* Style::new().color(fg).on_color(bg).<attribute calls in order>; no underline colour in this library *)
Definition owo_of_tstyle (ansi_names : list (list N)) (t : ad_tstyle) : option owo_style :=
  match owo_of_slot ansi_names (ad_t_fg t), owo_of_slot ansi_names (ad_t_bg t), ad_t_ul t with
  | Some fg, Some bg, None => owo_attrs (mkOwo fg bg false 0) (ad_t_attrs t)
  | _, _, _ => None
  end.

(* ---- the values the Rust types can hold (N is wider than u8 / the enums) --------------------- *)
Definition owo_dyn_ok (c : owo_dyn) : Prop :=
  match c with OwAnsi a => a < 17 | OwCss _ => False | OwXterm x => x < 256 | OwRgb _ _ _ => True end.
Definition owo_slot_ok (o : option owo_dyn) : Prop := match o with Some c => owo_dyn_ok c | None => True end.
Definition owo_style_ok (s : owo_style) : Prop := owo_slot_ok (ow_fg s) /\ owo_slot_ok (ow_bg s) /\ ow_flags s < 256.
