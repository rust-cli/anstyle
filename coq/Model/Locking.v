(* Model/Locking.v -- the lock discipline of anstream's streams as data (C19), and
   colorchoice's AtomicChoice.  Definitions only.

   crates/anstream/src/auto.rs, strip.rs: every method of `impl std::io::Write for
   AutoStream<S>` / `StripStream<S>` evaluates `self.raw.as_locked_write()` ONCE,
   performs all its inner writes through that guard and drops the guard when it
   returns ("Must forward all calls to ensure locking happens appropriately").
   For S = std::io::Stdout / Stderr `as_locked_write` is `self.lock()` (proved of the
   translated impls: Proofs/GlueGen.v translated_as_locked_write_std), so a call is the event trace
       Acquire ; inner calls on the guard ... ; Release.
   The inner writer is taken to accept whatever it is handed (short writes and
   errors of the inner writer are C06's subject; they change which inner calls
   happen, never where the lock is taken).

   crates/colorchoice/src/lib.rs: a `static AtomicUsize` read and written with
   `Ordering::SeqCst`; with the assumption that SeqCst accesses are linearisable,
   a run is a list of get/set operations in linearisation order. *)
From Coq Require Import NArith List Bool.
From AV Require Import Generated.Table Generated.Locking Spec.Atomicity
  Model.Base Model.Utf8parse Model.Parser Model.Strip.
Import ListNotations.
Local Open Scope N_scope.

(* ---- operations and events ------------------------------------------------ *)

(* a call on the guard returned by as_locked_write *)
Inductive lk_inner : Set :=
  | LkW (buf : list N)              (* write *)
  | LkWA (buf : list N)             (* write_all *)
  | LkWV (bufs : list (list N))     (* write_vectored *)
  | LkF.                            (* flush *)

Inductive lk_event : Set :=
  | LkAcquire
  | LkInner (i : lk_inner)
  | LkRelease.

(* the five methods of std::io::Write; write_fmt is given by the fragments the
   formatting machinery hands to `write_str`, one after the other *)
Inductive lk_op : Set :=
  | LkWrite (buf : list N)
  | LkWriteVectored (bufs : list (list N))
  | LkFlush
  | LkWriteAll (buf : list N)
  | LkWriteFmt (frags : list (list N)).

(* auto.rs `enum StreamInner` on a non-Windows target: the pass-through stream has
   no state, the stripping one carries StripBytes' state (parser state, utf8
   decoder) from one call to the next *)
Inductive lk_stream : Set :=
  | LkPassThrough
  | LkStrip (st : state) (u : u8parser).

Definition lk_never : lk_stream := LkStrip Ground u8_new.      (* AutoStream::never *)
Definition lk_always_ansi : lk_stream := LkPassThrough.         (* AutoStream::always_ansi *)

(* ---- strip.rs: the free functions behind StripStream's methods ------------ *)
(* they receive the guard (`raw: &mut dyn Write`) and call it once per printable run *)

(* fn write: `for printable in state.strip_next(buf) { raw.write(printable) ... }`,
   every run accepted in full *)
Definition lk_strip_write (st : state) (u : u8parser) (buf : list N)
  : option (list lk_event * state * u8parser) :=
  '(ps, _, st', u') <- strip_next_bytes buf st u ;;
  Some (map (fun p => LkInner (LkW (p_bytes p))) ps, st', u').

(* fn write_all: `for printable in state.strip_next(buf) { raw.write_all(printable)?; }` *)
Definition lk_strip_write_all (st : state) (u : u8parser) (buf : list N)
  : option (list lk_event * state * u8parser) :=
  '(ps, _, st', u') <- strip_next_bytes buf st u ;;
  Some (map (fun p => LkInner (LkWA (p_bytes p))) ps, st', u').

(* fn write_fmt: fmt::Adapter calls the `write_all` closure once per fragment *)
Fixpoint lk_strip_write_fmt (st : state) (u : u8parser) (frags : list (list N))
  : option (list lk_event * state * u8parser) :=
  match frags with
  | [] => Some ([], st, u)
  | f :: rest =>
      '(e1, st1, u1) <- lk_strip_write_all st u f ;;
      '(e2, st2, u2) <- lk_strip_write_fmt st1 u1 rest ;;
      Some (e1 ++ e2, st2, u2)
  end.

(* StripStream::write_vectored: the first non-empty buffer, else the empty one *)
Fixpoint lk_first_nonempty (bufs : list (list N)) : list N :=
  match bufs with
  | [] => []
  | [] :: rest => lk_first_nonempty rest
  | b :: _ => b
  end.

(* ---- one call of a Write method: trace and stream afterwards -------------- *)

Definition lk_op_trace (s : lk_stream) (op : lk_op) : option (list lk_event * lk_stream) :=
  match s with
  | LkPassThrough =>
      (* auto.rs: `StreamInner::PassThrough(w) => w.as_locked_write().<method>(..)`;
         the guard's write_fmt is std's default: write_all per fragment *)
      match op with
      | LkWrite buf => Some ([LkAcquire; LkInner (LkW buf); LkRelease], s)
      | LkWriteVectored bufs => Some ([LkAcquire; LkInner (LkWV bufs); LkRelease], s)
      | LkFlush => Some ([LkAcquire; LkInner LkF; LkRelease], s)
      | LkWriteAll buf => Some ([LkAcquire; LkInner (LkWA buf); LkRelease], s)
      | LkWriteFmt frags => Some (LkAcquire :: map (fun f => LkInner (LkWA f)) frags ++ [LkRelease], s)
      end
  | LkStrip st u =>
      (* auto.rs: `StreamInner::Strip(w) => w.<method>(..)`; strip.rs:
         `<fn>(&mut self.raw.as_locked_write(), &mut self.state, ..)` *)
      match op with
      | LkWrite buf =>
          '(es, st', u') <- lk_strip_write st u buf ;;
          Some (LkAcquire :: es ++ [LkRelease], LkStrip st' u')
      | LkWriteVectored bufs =>
          '(es, st', u') <- lk_strip_write st u (lk_first_nonempty bufs) ;;
          Some (LkAcquire :: es ++ [LkRelease], LkStrip st' u')
      | LkFlush => Some ([LkAcquire; LkInner LkF; LkRelease], s)
      | LkWriteAll buf =>
          '(es, st', u') <- lk_strip_write_all st u buf ;;
          Some (LkAcquire :: es ++ [LkRelease], LkStrip st' u')
      | LkWriteFmt frags =>
          '(es, st', u') <- lk_strip_write_fmt st u frags ;;
          Some (LkAcquire :: es ++ [LkRelease], LkStrip st' u')
      end
  end.

(* a thread program: the traces of its calls, the stream state carried along *)
Fixpoint lk_prog_ops (s : lk_stream) (ops : list lk_op) : option (list (list lk_event)) :=
  match ops with
  | [] => Some []
  | op :: rest =>
      '(tr, s') <- lk_op_trace s op ;;
      trs <- lk_prog_ops s' rest ;;
      Some (tr :: trs)
  end.

(* the inner calls of a trace *)
Fixpoint lk_inner_of (tr : list lk_event) : list lk_inner :=
  match tr with
  | [] => []
  | LkInner i :: r => i :: lk_inner_of r
  | _ :: r => lk_inner_of r
  end.

(* the lock events of a trace *)
Fixpoint lk_profile (tr : list lk_event) : list at_lock_ev :=
  match tr with
  | [] => []
  | LkAcquire :: r => AtTake :: lk_profile r
  | LkRelease :: r => AtGive :: lk_profile r
  | LkInner _ :: r => lk_profile r
  end.

(* the shape "lock once": *)
Definition lk_wrap (ins : list lk_inner) : list lk_event :=
  LkAcquire :: map LkInner ins ++ [LkRelease].

Definition lk_thread_events (ops : list (list lk_inner)) : list lk_event :=
  concat (map lk_wrap ops).

(* bytes an inner call hands to the inner writer *)
Definition lk_inner_bytes (i : lk_inner) : list N :=
  match i with
  | LkW b => b
  | LkWA b => b
  | LkWV bs => concat bs
  | LkF => []
  end.

(* ---- executions: interleavings under a re-entrant lock --------------------- *)

Record lk_state : Type := mkLk {
  lk_threads : list (list lk_event);     (* remaining events of every thread *)
  lk_owner : option nat;                 (* thread holding the lock *)
  lk_depth : nat;                        (* how many times it holds it (re-entrant) *)
  lk_acqs : list nat;                    (* threads in the order they took the free lock *)
  lk_out : list (nat * lk_inner)         (* calls that reached the inner writer so far *)
}.

Definition lk_init (ts : list (list lk_event)) : lk_state := mkLk ts None 0 [] [].

Fixpoint lk_upd {A : Type} (l : list A) (n : nat) (x : A) : list A :=
  match l, n with
  | [], _ => []
  | _ :: r, O => x :: r
  | y :: r, S m => y :: lk_upd r m x
  end.

(* thread [t] performs its next event.  Acquire is enabled only when the lock is
   free or already held by [t]; Release gives back one level.  An inner call
   needs no permission -- whether the caller holds the lock is up to its trace. *)
Inductive lk_step : lk_state -> nat -> lk_state -> Prop :=
  | lk_step_acquire_free : forall ts t rest acqs out,
      nth_error ts t = Some (LkAcquire :: rest) ->
      lk_step (mkLk ts None 0 acqs out) t
              (mkLk (lk_upd ts t rest) (Some t) 1 (acqs ++ [t]) out)
  | lk_step_acquire_again : forall ts t rest d acqs out,
      nth_error ts t = Some (LkAcquire :: rest) ->
      lk_step (mkLk ts (Some t) d acqs out) t
              (mkLk (lk_upd ts t rest) (Some t) (S d) acqs out)
  | lk_step_inner : forall ts t i rest o d acqs out,
      nth_error ts t = Some (LkInner i :: rest) ->
      lk_step (mkLk ts o d acqs out) t
              (mkLk (lk_upd ts t rest) o d acqs (out ++ [(t, i)]))
  | lk_step_release_last : forall ts t rest acqs out,
      nth_error ts t = Some (LkRelease :: rest) ->
      lk_step (mkLk ts (Some t) 1 acqs out) t
              (mkLk (lk_upd ts t rest) None 0 acqs out)
  | lk_step_release_inner : forall ts t rest d acqs out,
      nth_error ts t = Some (LkRelease :: rest) ->
      lk_step (mkLk ts (Some t) (S (S d)) acqs out) t
              (mkLk (lk_upd ts t rest) (Some t) (S d) acqs out).

(* an execution: any schedule (list of thread numbers), any length *)
Inductive lk_exec : lk_state -> list nat -> lk_state -> Prop :=
  | lk_exec_nil : forall s, lk_exec s [] s
  | lk_exec_cons : forall s t s1 sched s2,
      lk_step s t s1 -> lk_exec s1 sched s2 -> lk_exec s (t :: sched) s2.

(* every thread has run to its end *)
Definition lk_finished (s : lk_state) : Prop := Forall (fun evs => evs = []) (lk_threads s).

(* the same machine as a function, for running schedules (examples, driver) *)
Definition lk_step_fn (s : lk_state) (t : nat) : option lk_state :=
  match nth_error (lk_threads s) t with
  | Some (LkAcquire :: rest) =>
      match lk_owner s, lk_depth s with
      | None, O => Some (mkLk (lk_upd (lk_threads s) t rest) (Some t) 1 (lk_acqs s ++ [t]) (lk_out s))
      | None, S _ => None
      | Some h, d => if Nat.eqb h t
                     then Some (mkLk (lk_upd (lk_threads s) t rest) (Some t) (S d) (lk_acqs s) (lk_out s))
                     else None
      end
  | Some (LkInner i :: rest) =>
      Some (mkLk (lk_upd (lk_threads s) t rest) (lk_owner s) (lk_depth s) (lk_acqs s) (lk_out s ++ [(t, i)]))
  | Some (LkRelease :: rest) =>
      match lk_owner s, lk_depth s with
      | Some h, S O => if Nat.eqb h t
                       then Some (mkLk (lk_upd (lk_threads s) t rest) None 0 (lk_acqs s) (lk_out s)) else None
      | Some h, S (S d) => if Nat.eqb h t
                           then Some (mkLk (lk_upd (lk_threads s) t rest) (Some t) (S d) (lk_acqs s) (lk_out s)) else None
      | _, _ => None
      end
  | _ => None
  end.

Fixpoint lk_run (s : lk_state) (sched : list nat) : option lk_state :=
  match sched with
  | [] => Some s
  | t :: r => s1 <- lk_step_fn s t ;; lk_run s1 r
  end.

(* ---- the process-wide colour choice ---------------------------------------- *)

Inductive lk_reg_op : Set :=
  | LkSet (c : lk_choice)      (* ColorChoice::write_global: store(from_choice c, SeqCst) *)
  | LkGet.                     (* ColorChoice::global: to_choice(load(SeqCst)).expect(..) *)

(* the operations in linearisation order, run on the usize cell; [None] = the
   `expect` in AtomicChoice::get panics *)
Fixpoint lk_reg_run (cell : N) (ops : list lk_reg_op) : option (list (reg_ev lk_choice)) :=
  match ops with
  | [] => Some []
  | LkSet c :: r => h <- lk_reg_run (lk_from_choice c) r ;; Some (RegWrite c :: h)
  | LkGet :: r => c <- lk_to_choice cell ;; h <- lk_reg_run cell r ;; Some (RegRead c :: h)
  end.

(* `static USER: AtomicChoice = AtomicChoice::new()` *)
Definition lk_reg_init : N := lk_from_choice lk_choice_init.
